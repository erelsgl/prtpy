(** Properties of the first-fit / best-fit packing models (Model/Packing.v):
    C19 (refusal is exact), C03 (feasible packing of exactly the items, no empty bin),
    C09 (any-fit invariant and its weak consequence), C06 (sums-only run), C07 (names). *)
From Prtpy Require Import Base.Prelude Model.Binner Model.Packing Spec.Partition
  Proofs.BaseLemmas Proofs.BinnerLemmas Proofs.OracleSpec.
From Coq Require Import ZifyBool.

(** ---- a generic online loop: both ff_loop and bf_loop are instances ---- *)
Section GenericLoop.
  Context {A : Type} (valueof : A -> Z) (place : Z -> A -> bins A -> bins A).

  Fixpoint gloop (C : Z) (items : list A) (b : bins A) : result (bins A) :=
    match items with
    | [] => Ok b
    | x :: t => if valueof x >? C then Err ValueError else gloop C t (place C x b)
    end.

  Lemma gloop_error_iff C items : forall b,
    (exists e, gloop C items b = Err e) <-> Exists (fun x => C < valueof x) items.
  Proof.
    induction items as [|x t IH]; intros b; cbn [gloop].
    - split.
      + intros [e He]. discriminate He.
      + intros H. inversion H.
    - destruct (valueof x >? C) eqn:E.
      + split.
        * intros _. apply Exists_cons_hd. lia.
        * intros _. exists ValueError. reflexivity.
      + rewrite IH. split.
        * intros H. apply Exists_cons_tl. exact H.
        * intros H. inversion H as [y l Hy|y l Hl]; subst; [lia|exact Hl].
  Qed.

  Lemma gloop_error_kind C items : forall b e, gloop C items b = Err e -> e = ValueError.
  Proof.
    induction items as [|x t IH]; intros b e; cbn [gloop].
    - intros H. discriminate H.
    - destruct (valueof x >? C) eqn:E.
      + intros H. injection H as H. symmetry. exact H.
      + apply IH.
  Qed.

  (** loop invariant rule: [P b acc] is kept by every placement of an admissible item *)
  Lemma gloop_inv C (P : bins A -> list A -> Prop) :
    (forall b acc x, 0 <= valueof x <= C -> P b acc -> P (place C x b) (acc ++ [x])) ->
    forall items b acc b',
      Forall (fun x => 0 <= valueof x) items ->
      gloop C items b = Ok b' -> P b acc -> P b' (acc ++ items).
  Proof.
    intros Hstep. induction items as [|x t IH]; intros b acc b' Hnn; cbn [gloop].
    - intros H HP. injection H as H. subst b'. rewrite app_nil_r. exact HP.
    - inversion Hnn as [|y l Hx Ht]; subst.
      destruct (valueof x >? C) eqn:E; [intros H; discriminate H|].
      intros H HP.
      replace (acc ++ x :: t) with ((acc ++ [x]) ++ t) by (rewrite <- app_assoc; reflexivity).
      apply (IH (place C x b)); auto. apply Hstep; auto. lia.
  Qed.
End GenericLoop.

(** two loops that make corresponding steps give corresponding results *)
Lemma gloop_map {A B : Type} (va : A -> Z) (vb : B -> Z)
      (pa : Z -> A -> bins A -> bins A) (pb : Z -> B -> bins B -> bins B)
      (g : A -> B) (f : bins A -> bins B) C :
  (forall x, vb (g x) = va x) ->
  (forall x b, f (pa C x b) = pb C (g x) (f b)) ->
  forall items b, rmap f (gloop va pa C items b) = gloop vb pb C (map g items) (f b).
Proof.
  intros Hv Hp. induction items as [|x t IH]; intros b; cbn [gloop map].
  - reflexivity.
  - rewrite Hv. destruct (va x >? C); [reflexivity|]. rewrite IH, Hp. reflexivity.
Qed.

Lemma ff_loop_gloop {A} (valueof : A -> Z) keep C items : forall b,
  ff_loop valueof keep C items b = gloop valueof (ff_place valueof keep) C items b.
Proof.
  induction items as [|x t IH]; intros b; cbn [ff_loop gloop]; [reflexivity|].
  destruct (valueof x >? C); [reflexivity|apply IH].
Qed.

Lemma bf_loop_gloop {A} (valueof : A -> Z) keep C items : forall b,
  bf_loop valueof keep C items b = gloop valueof (bf_place valueof keep) C items b.
Proof.
  induction items as [|x t IH]; intros b; cbn [bf_loop gloop]; [reflexivity|].
  destruct (valueof x >? C); [reflexivity|apply IH].
Qed.

(** ---- best-fit scan ---- *)
Section Scan.
  Context {A : Type}.

  Lemma bf_scan_spec C v (b : bins A) : forall i best,
    let r := bf_scan C v b i best in
    (r = best /\ Forall (fun bn => fst bn + v <= C -> fst bn + v <= snd best) b) \/
    (exists j, fst r = Some (i + j)%nat /\ (j < length b)%nat /\
               snd r = fst (nth j b empty_bin) + v /\ snd r <= C /\ snd best < snd r /\
               Forall (fun bn => fst bn + v <= C -> fst bn + v <= snd r) b).
  Proof.
    induction b as [|bn t IH]; intros i best; cbn [bf_scan]; cbv zeta.
    - left. split; [reflexivity|constructor].
    - destruct ((fst bn + v <=? C) && (snd best <? fst bn + v)) eqn:E.
      + destruct (IH (S i) (Some i, fst bn + v)) as [[H1 H2]|(j & H1 & H2 & H3 & H4 & H5 & H6)].
        * right. exists O. rewrite H1. cbn [fst snd nth length] in *.
          repeat split; try lia.
          -- f_equal. lia.
          -- constructor; [lia|exact H2].
        * right. exists (S j). cbn [fst snd nth length] in *. repeat split; try lia.
          -- rewrite H1. f_equal. lia.
          -- constructor; [lia|exact H6].
      + destruct (IH (S i) best) as [[H1 H2]|(j & H1 & H2 & H3 & H4 & H5 & H6)].
        * left. split; [exact H1|]. constructor; [lia|exact H2].
        * right. exists (S j). cbn [fst snd nth length] in *. repeat split; try lia.
          -- rewrite H1. f_equal. lia.
          -- constructor; [lia|exact H6].
  Qed.

  Lemma bf_scan_none C v (b : bins A) i best :
    fst (bf_scan C v b i best) = None ->
    Forall (fun bn => fst bn + v <= C -> fst bn + v <= snd best) b.
  Proof.
    intros H. destruct (bf_scan_spec C v b i best) as [[_ H2]|(j & H1 & _)]; [exact H2|].
    rewrite H1 in H. discriminate H.
  Qed.

  (** the scan only looks at the sums *)
  Lemma bf_scan_map {B} (f : bin A -> bin B) C v (b : bins A) :
    (forall bn, fst (f bn) = fst bn) ->
    forall i best, bf_scan C v (map f b) i best = bf_scan C v b i best.
  Proof.
    intros Hf. induction b as [|bn t IH]; intros i best; cbn [bf_scan map]; [reflexivity|].
    rewrite Hf. apply IH.
  Qed.
End Scan.

(** ---- any-fit placement steps and what they preserve ---- *)
Section AnyFitStep.
  Context {A : Type} (valueof : A -> Z).

  Notation add := (add_to_bin valueof true).

  (** one any-fit step: the item goes into some bin where it fits, or, when it fits
      nowhere, into a new bin at the end *)
  Inductive af_step (C : Z) (x : A) : bins A -> bins A -> Prop :=
  | af_into (l1 : bins A) (bn : bin A) (l2 : bins A) : fst bn + valueof x <= C ->
      af_step C x (l1 ++ bn :: l2) (l1 ++ add x bn :: l2)
  | af_new (b : bins A) : Forall (fun bn : bin A => C < fst bn + valueof x) b ->
      af_step C x b (b ++ [add x empty_bin]).

  Lemma af_step_cons C x a t t' :
    C < fst a + valueof x -> af_step C x t t' -> af_step C x (a :: t) (a :: t').
  Proof.
    intros Ha H. destruct H as [l1 bn l2 Hfit|b Hall].
    - apply (af_into C x (a :: l1) bn l2). exact Hfit.
    - apply (af_new C x (a :: b)). constructor; auto.
  Qed.

  Lemma ff_place_step C x b : af_step C x b (ff_place valueof true C x b).
  Proof.
    induction b as [|bn t IH]; cbn [ff_place].
    - apply (af_new C x []). constructor.
    - destruct (fst bn + valueof x <=? C) eqn:E.
      + apply (af_into C x [] bn t). lia.
      + apply af_step_cons; [lia|exact IH].
  Qed.

  Lemma bf_place_step C x b :
    Forall (fun bn => -1 < fst bn + valueof x) b -> af_step C x b (bf_place valueof true C x b).
  Proof.
    intros Hpos. unfold bf_place.
    destruct (bf_scan_spec C (valueof x) b 0 (None, -1)) as [[E H]|(j & E & Hj & Es & Hfit & _)];
      rewrite E.
    - apply af_new. cbn [snd] in H. rewrite Forall_forall in *. intros bn Hin.
      specialize (H bn Hin). specialize (Hpos bn Hin). lia.
    - destruct (update_split j (add x) b Hj) as (l1 & bn & l2 & E1 & E2 & E3).
      cbn [Nat.add]. unfold add_item. rewrite E3. subst b j. apply af_into.
      rewrite nth_middle in Es. lia.
  Qed.

  (** the very first item enters the initial empty bin *)
  Lemma af_step_first C x b' :
    valueof x <= C -> af_step C x (new_bins 1) b' -> b' = [add x empty_bin].
  Proof.
    intros Hx H. inversion H as [l1 bn l2 Hfit E1 E2|b Hall E1 E2].
    - destruct l1 as [|y l1].
      + cbn [app] in *. unfold new_bins in E1. cbn [repeat] in E1.
        injection E1 as E1a E1b. subst. reflexivity.
      + unfold new_bins in E1. cbn [repeat app] in E1. injection E1 as E1a E1b.
        destruct l1; discriminate E1b.
    - subst b. unfold new_bins in Hall. cbn [repeat] in Hall.
      inversion Hall as [|y l Hy Hl]; subst. unfold empty_bin in Hy. cbn [fst] in Hy. lia.
  Qed.

  Definition nonneg_sums (b : bins A) : Prop := Forall (fun bn => 0 <= fst bn) b.

  Lemma step_Forall (P : bin A -> Prop) C x b b' :
    (forall bn, fst bn + valueof x <= C -> P bn -> P (add x bn)) -> P (add x empty_bin) ->
    af_step C x b b' -> Forall P b -> Forall P b'.
  Proof.
    intros Hadd Hnew H Hb. destruct H as [l1 bn l2 Hfit|b Hall].
    - apply Forall_app in Hb. destruct Hb as [H1 H2]. inversion H2 as [|y l Hbn Hl2]; subst.
      apply Forall_app. split; [exact H1|]. constructor; [apply Hadd; assumption|exact Hl2].
    - apply Forall_app. split; [exact Hb|]. constructor; [exact Hnew|constructor].
  Qed.

  Lemma step_wf C x b b' : af_step C x b b' -> wf valueof b -> wf valueof b'.
  Proof.
    apply step_Forall; [intros bn _|]; apply add_to_bin_wf; reflexivity.
  Qed.

  Lemma step_feasible C x b b' : valueof x <= C -> af_step C x b b' -> feasible C b -> feasible C b'.
  Proof. intros Hx. apply step_Forall; [intros bn Hfit _; exact Hfit|cbn; lia]. Qed.

  Lemma step_nonneg C x b b' : 0 <= valueof x -> af_step C x b b' -> nonneg_sums b -> nonneg_sums b'.
  Proof. intros Hx. apply step_Forall; [intros bn _ Hbn|]; cbn; lia. Qed.

  Lemma step_contents C x b b' : af_step C x b b' -> Permutation (contents b') (contents b ++ [x]).
  Proof.
    intros H. destruct H as [l1 bn l2 Hfit|b Hall].
    - rewrite !contents_app, !contents_cons. unfold add_to_bin. cbn [snd].
      rewrite <- !app_assoc. apply Permutation_app_head. apply Permutation_app_head.
      apply Permutation_app_comm.
    - rewrite contents_app. apply Permutation_app_head.
      unfold contents, lists, add_to_bin, empty_bin. cbn. reflexivity.
  Qed.

  Lemma add_nonempty x (bn : bin A) : snd (add x bn) <> [].
  Proof. unfold add_to_bin. cbn [snd]. destruct (snd bn); discriminate. Qed.

  Lemma step_nonempty C x b b' : af_step C x b b' -> all_nonempty b -> all_nonempty b'.
  Proof. apply step_Forall; [intros bn _ _|]; apply add_nonempty. Qed.

  (** [later_ok C s later]: the first item of [later] does not fit a bin of sum [s] *)
  Definition later_ok (C s : Z) (later : bin A) : Prop :=
    match snd later with x :: _ => C < s + valueof x | [] => False end.

  Lemma anyfit_cons C bn t :
    anyfit valueof C (bn :: t) <-> Forall (later_ok C (fst bn)) t /\ anyfit valueof C t.
  Proof. reflexivity. Qed.

  Lemma later_ok_grow C s s' t : s <= s' -> Forall (later_ok C s) t -> Forall (later_ok C s') t.
  Proof.
    intros Hs H. eapply Forall_impl; [|exact H]. intros later. unfold later_ok.
    destruct (snd later) as [|y l]; [auto|lia].
  Qed.

  Lemma later_ok_add C s x bn : snd bn <> [] -> later_ok C s bn -> later_ok C s (add x bn).
  Proof.
    unfold later_ok, add_to_bin. cbn [snd]. destruct (snd bn) as [|y l]; [congruence|].
    intros _ H. cbn [app]. exact H.
  Qed.

  Lemma anyfit_into C x l1 : forall bn l2,
    0 <= valueof x -> snd bn <> [] ->
    anyfit valueof C (l1 ++ bn :: l2) -> anyfit valueof C (l1 ++ add x bn :: l2).
  Proof.
    induction l1 as [|a l1 IH]; intros bn l2 Hx Hne; cbn [app]; rewrite !anyfit_cons.
    - intros [H1 H2]. split; [|exact H2].
      apply (later_ok_grow C (fst bn)); [|exact H1]. unfold add_to_bin. cbn [fst]. lia.
    - intros [H1 H2]. split; [|apply IH; auto].
      apply Forall_app in H1. destruct H1 as [H1a H1b]. inversion H1b as [|y l Hbn Hl2]; subst.
      apply Forall_app. split; [exact H1a|]. constructor; [|exact Hl2].
      apply later_ok_add; auto.
  Qed.

  Lemma anyfit_new C x b :
    Forall (fun bn => C < fst bn + valueof x) b ->
    anyfit valueof C b -> anyfit valueof C (b ++ [add x empty_bin]).
  Proof.
    induction b as [|a t IH]; intros Hall; cbn [app]; rewrite !anyfit_cons.
    - intros _. split; constructor.
    - inversion Hall as [|y l Ha Ht]; subst. intros [H1 H2]. split; [|apply IH; auto].
      apply Forall_app. split; [exact H1|]. constructor; [|constructor].
      unfold later_ok, add_to_bin, empty_bin. cbn. exact Ha.
  Qed.

  Lemma step_anyfit C x b b' :
    0 <= valueof x -> af_step C x b b' -> all_nonempty b ->
    anyfit valueof C b -> anyfit valueof C b'.
  Proof.
    intros Hx H Hne Ha. destruct H as [l1 bn l2 Hfit|b Hall].
    - apply anyfit_into; auto. unfold all_nonempty in Hne.
      apply Forall_app in Hne. destruct Hne as [_ Hne]. inversion Hne; subst; auto.
    - apply anyfit_new; auto.
  Qed.

  (** the loop invariant *)
  Definition Inv (C : Z) (b : bins A) (acc : list A) : Prop :=
    wf valueof b /\ feasible C b /\ Permutation (contents b) acc /\ all_nonempty b /\
    nonneg_sums b /\ anyfit valueof C b.

  Lemma step_Inv C x b b' acc :
    0 <= valueof x <= C -> af_step C x b b' -> Inv C b acc -> Inv C b' (acc ++ [x]).
  Proof.
    intros Hx H (Hw & Hf & Hp & Hne & Hnn & Ha). repeat split.
    - eapply step_wf; eauto.
    - eapply step_feasible; eauto. lia.
    - rewrite (step_contents C x b b' H). apply Permutation_app_tail. exact Hp.
    - eapply step_nonempty; eauto.
    - eapply step_nonneg; eauto. lia.
    - eapply step_anyfit; eauto. lia.
  Qed.

  Lemma Inv_first C x : 0 <= valueof x <= C -> Inv C [add x empty_bin] [x].
  Proof.
    intros Hx. unfold Inv, wf, feasible, all_nonempty, nonneg_sums. repeat split.
    - constructor; [|constructor]. apply add_to_bin_wf; auto. reflexivity.
    - constructor; [|constructor]. unfold add_to_bin, empty_bin. cbn [fst]. lia.
    - unfold contents, lists, add_to_bin, empty_bin. cbn. reflexivity.
    - constructor; [|constructor]. apply add_nonempty.
    - constructor; [|constructor]. unfold add_to_bin, empty_bin. cbn [fst]. lia.
    - constructor.
  Qed.

  (** generic theorem: a loop whose placements are any-fit steps (on bins with
      non-negative sums) establishes the invariant on every non-empty input *)
  Lemma gloop_Inv (place : Z -> A -> bins A -> bins A) C :
    (forall x b, 0 <= valueof x -> nonneg_sums b -> af_step C x b (place C x b)) ->
    forall items b, items <> [] -> Forall (fun x => 0 <= valueof x) items ->
      gloop valueof place C items (new_bins 1) = Ok b -> Inv C b items.
  Proof.
    intros Hplace items b Hne Hnn. destruct items as [|x t]; [congruence|]. clear Hne.
    inversion Hnn as [|y l Hx Ht]; subst. cbn [gloop].
    destruct (valueof x >? C) eqn:E; [intros H; discriminate H|]. intros H.
    assert (Hfirst : place C x (new_bins 1) = [add x empty_bin]).
    { apply (af_step_first C x); [lia|]. apply Hplace; auto.
      unfold nonneg_sums, new_bins, empty_bin. cbn [repeat]. constructor; [cbn [fst]; lia|constructor]. }
    rewrite Hfirst in H. change (x :: t) with ([x] ++ t).
    apply (gloop_inv valueof place C (Inv C)) with (b := [add x empty_bin]); auto.
    - intros b0 acc x0 Hx0 HI. apply (step_Inv C x0 b0); auto.
      apply Hplace; [lia|]. destruct HI as (_ & _ & _ & _ & Hs & _). exact Hs.
    - apply Inv_first. lia.
  Qed.

  (** with no item the single initial empty bin is returned: still a packing *)
  Lemma packing_initial C : 0 <= C -> is_packing valueof C [] (new_bins 1).
  Proof.
    intros HC. unfold is_packing. repeat split.
    - rewrite new_bins_contents. constructor.
    - unfold feasible, new_bins, empty_bin. cbn [repeat]. constructor; [cbn [fst]; lia|constructor].
    - apply new_bins_wf.
  Qed.
End AnyFitStep.

(** ---- the four algorithms ---- *)
Section PackingTheorems.
  Context {A : Type} (valueof : A -> Z).

  Lemma nonneg_sums_pos (b : bins A) v :
    0 <= v -> nonneg_sums b -> Forall (fun bn => -1 < fst bn + v) b.
  Proof.
    intros Hv H. eapply Forall_impl; [|exact H]. intros bn Hbn. cbv beta in Hbn. lia.
  Qed.

  Lemma ff_is_step C x b :
    0 <= valueof x -> nonneg_sums b -> af_step valueof C x b (ff_place valueof true C x b).
  Proof. intros _ _. apply ff_place_step. Qed.

  Lemma bf_is_step C x b :
    0 <= valueof x -> nonneg_sums b -> af_step valueof C x b (bf_place valueof true C x b).
  Proof. intros Hx Hb. apply bf_place_step. apply nonneg_sums_pos; auto. Qed.

  Lemma sort_desc_nonneg items :
    Forall (fun x => 0 <= valueof x) items -> Forall (fun x => 0 <= valueof x) (sort_desc valueof items).
  Proof. apply Forall_sort_desc. Qed.

  Lemma sort_desc_Exists (P : A -> Prop) items : Exists P (sort_desc valueof items) <-> Exists P items.
  Proof.
    split; apply Permutation_Exists; [|symmetry]; apply sort_desc_perm.
  Qed.

  (** the invariant for each algorithm (keep = true) *)
  Lemma ff_Inv C items b : items <> [] -> Forall (fun x => 0 <= valueof x) items ->
    first_fit valueof true C items = Ok b -> Inv valueof C b items.
  Proof.
    intros Hne Hnn H. unfold first_fit in H. rewrite ff_loop_gloop in H.
    apply (gloop_Inv valueof (ff_place valueof true) C); auto. intros x b0. apply ff_is_step.
  Qed.

  Lemma bf_Inv C items b : items <> [] -> Forall (fun x => 0 <= valueof x) items ->
    best_fit valueof true C items = Ok b -> Inv valueof C b items.
  Proof.
    intros Hne Hnn H. unfold best_fit in H. rewrite bf_loop_gloop in H.
    apply (gloop_Inv valueof (bf_place valueof true) C); auto. intros x b0. apply bf_is_step.
  Qed.

  Lemma Inv_perm C b l1 l2 : Permutation l1 l2 -> Inv valueof C b l1 -> Inv valueof C b l2.
  Proof.
    intros P (Hw & Hf & Hp & Hne & Hnn & Ha). repeat split; auto. rewrite Hp. exact P.
  Qed.

  Lemma ffd_Inv C items b : items <> [] -> Forall (fun x => 0 <= valueof x) items ->
    first_fit_decreasing valueof true C items = Ok b -> Inv valueof C b items.
  Proof.
    intros Hne Hnn H. unfold first_fit_decreasing in H.
    apply (Inv_perm C b (sort_desc valueof items)); [apply sort_desc_perm|].
    apply ff_Inv; auto using sort_desc_nonnil, sort_desc_nonneg.
  Qed.

  Lemma bfd_Inv C items b : items <> [] -> Forall (fun x => 0 <= valueof x) items ->
    best_fit_decreasing valueof true C items = Ok b -> Inv valueof C b items.
  Proof.
    intros Hne Hnn H. unfold best_fit_decreasing in H.
    apply (Inv_perm C b (sort_desc valueof items)); [apply sort_desc_perm|].
    apply bf_Inv; auto using sort_desc_nonnil, sort_desc_nonneg.
  Qed.

  (** ---- refusal is exact (C19) ---- *)
  Theorem ff_error_iff_gen keep C items :
    (exists e, first_fit valueof keep C items = Err e) <-> Exists (fun x => C < valueof x) items.
  Proof. unfold first_fit. rewrite ff_loop_gloop. apply gloop_error_iff. Qed.

  Theorem ff_error_kind_gen keep C items e : first_fit valueof keep C items = Err e -> e = ValueError.
  Proof. unfold first_fit. rewrite ff_loop_gloop. apply gloop_error_kind. Qed.

  Theorem bf_error_iff_gen keep C items :
    (exists e, best_fit valueof keep C items = Err e) <-> Exists (fun x => C < valueof x) items.
  Proof. unfold best_fit. rewrite bf_loop_gloop. apply gloop_error_iff. Qed.

  Theorem bf_error_kind_gen keep C items e : best_fit valueof keep C items = Err e -> e = ValueError.
  Proof. unfold best_fit. rewrite bf_loop_gloop. apply gloop_error_kind. Qed.

  Theorem ffd_error_iff_gen keep C items :
    (exists e, first_fit_decreasing valueof keep C items = Err e) <-> Exists (fun x => C < valueof x) items.
  Proof. unfold first_fit_decreasing. rewrite ff_error_iff_gen. apply sort_desc_Exists. Qed.

  Theorem ffd_error_kind_gen keep C items e :
    first_fit_decreasing valueof keep C items = Err e -> e = ValueError.
  Proof. unfold first_fit_decreasing. apply ff_error_kind_gen. Qed.

  Theorem bfd_error_iff_gen keep C items :
    (exists e, best_fit_decreasing valueof keep C items = Err e) <-> Exists (fun x => C < valueof x) items.
  Proof. unfold best_fit_decreasing. rewrite bf_error_iff_gen. apply sort_desc_Exists. Qed.

  Theorem bfd_error_kind_gen keep C items e :
    best_fit_decreasing valueof keep C items = Err e -> e = ValueError.
  Proof. unfold best_fit_decreasing. apply bf_error_kind_gen. Qed.

  Theorem ff_error_iff C items :
    (exists e, first_fit valueof true C items = Err e) <-> Exists (fun x => C < valueof x) items.
  Proof. apply ff_error_iff_gen. Qed.
  Theorem ff_error_kind C items e : first_fit valueof true C items = Err e -> e = ValueError.
  Proof. apply ff_error_kind_gen. Qed.
  Theorem ffd_error_iff C items :
    (exists e, first_fit_decreasing valueof true C items = Err e) <-> Exists (fun x => C < valueof x) items.
  Proof. apply ffd_error_iff_gen. Qed.
  Theorem ffd_error_kind C items e : first_fit_decreasing valueof true C items = Err e -> e = ValueError.
  Proof. apply ffd_error_kind_gen. Qed.
  Theorem bf_error_iff C items :
    (exists e, best_fit valueof true C items = Err e) <-> Exists (fun x => C < valueof x) items.
  Proof. apply bf_error_iff_gen. Qed.
  Theorem bf_error_kind C items e : best_fit valueof true C items = Err e -> e = ValueError.
  Proof. apply bf_error_kind_gen. Qed.
  Theorem bfd_error_iff C items :
    (exists e, best_fit_decreasing valueof true C items = Err e) <-> Exists (fun x => C < valueof x) items.
  Proof. apply bfd_error_iff_gen. Qed.
  Theorem bfd_error_kind C items e : best_fit_decreasing valueof true C items = Err e -> e = ValueError.
  Proof. apply bfd_error_kind_gen. Qed.

  (** ---- feasible packing of exactly the items (C03) ----
      Extra hypothesis [items = [] -> 0 <= C]: on the empty input the result is the single
      initial empty bin of sum 0, which is not feasible for a negative capacity
      (see the counterexample [packing_empty_negative_capacity] below). *)
  Lemma Inv_packing C b items : Inv valueof C b items -> is_packing valueof C items b.
  Proof. intros (Hw & Hf & Hp & _). unfold is_packing. auto. Qed.

  Lemma sort_desc_nil_inv items : sort_desc valueof items = [] -> items = [].
  Proof.
    intros E. apply length_zero_iff_nil. rewrite <- (sort_desc_length valueof), E. reflexivity.
  Qed.

  Theorem ff_packing C items b :
    (items = [] -> 0 <= C) -> Forall (fun x => 0 <= valueof x) items ->
    first_fit valueof true C items = Ok b -> is_packing valueof C items b.
  Proof.
    intros HC Hnn H. destruct items as [|x t].
    - cbn in H. injection H as H. subst b. apply packing_initial. auto.
    - apply Inv_packing. apply ff_Inv; auto. discriminate.
  Qed.

  Theorem bf_packing C items b :
    (items = [] -> 0 <= C) -> Forall (fun x => 0 <= valueof x) items ->
    best_fit valueof true C items = Ok b -> is_packing valueof C items b.
  Proof.
    intros HC Hnn H. destruct items as [|x t].
    - cbn in H. injection H as H. subst b. apply packing_initial. auto.
    - apply Inv_packing. apply bf_Inv; auto. discriminate.
  Qed.

  Theorem ffd_packing C items b :
    (items = [] -> 0 <= C) -> Forall (fun x => 0 <= valueof x) items ->
    first_fit_decreasing valueof true C items = Ok b -> is_packing valueof C items b.
  Proof.
    intros HC Hnn H. destruct items as [|x t].
    - cbn in H. injection H as H. subst b. apply packing_initial. auto.
    - apply Inv_packing. apply ffd_Inv; auto. discriminate.
  Qed.

  Theorem bfd_packing C items b :
    (items = [] -> 0 <= C) -> Forall (fun x => 0 <= valueof x) items ->
    best_fit_decreasing valueof true C items = Ok b -> is_packing valueof C items b.
  Proof.
    intros HC Hnn H. destruct items as [|x t].
    - cbn in H. injection H as H. subst b. apply packing_initial. auto.
    - apply Inv_packing. apply bfd_Inv; auto. discriminate.
  Qed.

  (** ---- no empty bin for a non-empty input (C03) ---- *)
  Theorem ff_nonempty C items b : items <> [] -> Forall (fun x => 0 <= valueof x) items ->
    first_fit valueof true C items = Ok b -> all_nonempty b.
  Proof. intros Hne Hnn H. destruct (ff_Inv C items b Hne Hnn H) as (_ & _ & _ & Hr & _). exact Hr. Qed.
  Theorem ffd_nonempty C items b : items <> [] -> Forall (fun x => 0 <= valueof x) items ->
    first_fit_decreasing valueof true C items = Ok b -> all_nonempty b.
  Proof. intros Hne Hnn H. destruct (ffd_Inv C items b Hne Hnn H) as (_ & _ & _ & Hr & _). exact Hr. Qed.
  Theorem bf_nonempty C items b : items <> [] -> Forall (fun x => 0 <= valueof x) items ->
    best_fit valueof true C items = Ok b -> all_nonempty b.
  Proof. intros Hne Hnn H. destruct (bf_Inv C items b Hne Hnn H) as (_ & _ & _ & Hr & _). exact Hr. Qed.
  Theorem bfd_nonempty C items b : items <> [] -> Forall (fun x => 0 <= valueof x) items ->
    best_fit_decreasing valueof true C items = Ok b -> all_nonempty b.
  Proof. intros Hne Hnn H. destruct (bfd_Inv C items b Hne Hnn H) as (_ & _ & _ & Hr & _). exact Hr. Qed.

  (** ---- any-fit invariant (C09) ---- *)
  Theorem ff_anyfit C items b : Forall (fun x => 0 <= valueof x) items -> items <> [] ->
    first_fit valueof true C items = Ok b -> anyfit valueof C b.
  Proof. intros Hnn Hne H. destruct (ff_Inv C items b Hne Hnn H) as (_ & _ & _ & _ & _ & Hr). exact Hr. Qed.
  Theorem ffd_anyfit C items b : Forall (fun x => 0 <= valueof x) items -> items <> [] ->
    first_fit_decreasing valueof true C items = Ok b -> anyfit valueof C b.
  Proof. intros Hnn Hne H. destruct (ffd_Inv C items b Hne Hnn H) as (_ & _ & _ & _ & _ & Hr). exact Hr. Qed.
  Theorem bf_anyfit C items b : Forall (fun x => 0 <= valueof x) items -> items <> [] ->
    best_fit valueof true C items = Ok b -> anyfit valueof C b.
  Proof. intros Hnn Hne H. destruct (bf_Inv C items b Hne Hnn H) as (_ & _ & _ & _ & _ & Hr). exact Hr. Qed.
  Theorem bfd_anyfit C items b : Forall (fun x => 0 <= valueof x) items -> items <> [] ->
    best_fit_decreasing valueof true C items = Ok b -> anyfit valueof C b.
  Proof. intros Hnn Hne H. destruct (bfd_Inv C items b Hne Hnn H) as (_ & _ & _ & _ & _ & Hr). exact Hr. Qed.
End PackingTheorems.

(** counterexample to the packing statement without [items = [] -> 0 <= C]:
    no item, capacity -1: the returned single empty bin has sum 0 > -1 *)
Example packing_empty_negative_capacity :
  first_fit (fun v : Z => v) true (-1) [] = Ok [(0, [])] /\
  best_fit (fun v : Z => v) true (-1) [] = Ok [(0, [])] /\
  ~ is_packing (fun v : Z => v) (-1) [] [(0, [])].
Proof.
  split; [vm_compute; reflexivity|]. split; [vm_compute; reflexivity|].
  intros (_ & Hf & _). inversion Hf as [|y l Hy Hl]; subst. cbn [fst] in Hy. lia.
Qed.

(** without non-negative values best-fit violates "no empty bin": the value -1 gives
    new_sum = -1, which is not > best_bin[1] = -1, so a second bin is opened *)
Example bf_negative_value_leaves_empty_bin :
  best_fit (fun v : Z => v) true 9 [-1] = Ok [(0, []); (-1, [-1])].
Proof. vm_compute. reflexivity. Qed.

(** ---- renaming the items by [g] and mapping the bins by [f] commutes with the run,
    when [f] keeps the sums and commutes with adding an item ---- *)
Section PlaceMap.
  Context {A B : Type} (va : A -> Z) (vb : B -> Z) (ka kb : bool) (g : A -> B) (f : bin A -> bin B).
  Hypothesis Hv : forall x, vb (g x) = va x.
  Hypothesis Hfst : forall bn, fst (f bn) = fst bn.
  Hypothesis Hadd : forall x bn, f (add_to_bin va ka x bn) = add_to_bin vb kb (g x) (f bn).
  Hypothesis Hempty : f empty_bin = empty_bin.

  Lemma ff_place_map C x b : map f (ff_place va ka C x b) = ff_place vb kb C (g x) (map f b).
  Proof.
    induction b as [|bn t IH]; cbn [ff_place map]; [rewrite Hadd, Hempty; reflexivity|].
    rewrite Hfst, Hv. destruct (fst bn + va x <=? C); cbn [map]; [rewrite Hadd|rewrite IH]; reflexivity.
  Qed.

  Lemma bf_place_map C x b : map f (bf_place va ka C x b) = bf_place vb kb C (g x) (map f b).
  Proof.
    unfold bf_place. rewrite Hv, (bf_scan_map f) by exact Hfst.
    destruct (fst (bf_scan C (va x) b 0 (None, -1))) as [k|].
    - apply map_update. intros bn. apply Hadd.
    - rewrite map_app. cbn [map]. rewrite Hadd, Hempty. reflexivity.
  Qed.

  Lemma ff_map C items : rmap (map f) (first_fit va ka C items) = first_fit vb kb C (map g items).
  Proof.
    unfold first_fit. rewrite !ff_loop_gloop, (gloop_map va vb _ (ff_place vb kb) g (map f) C Hv (ff_place_map C)).
    cbn [new_bins repeat map]. rewrite Hempty. reflexivity.
  Qed.

  Lemma bf_map C items : rmap (map f) (best_fit va ka C items) = best_fit vb kb C (map g items).
  Proof.
    unfold best_fit. rewrite !bf_loop_gloop, (gloop_map va vb _ (bf_place vb kb) g (map f) C Hv (bf_place_map C)).
    cbn [new_bins repeat map]. rewrite Hempty. reflexivity.
  Qed.
End PlaceMap.

(** ---- the sums-only run makes the same decisions (C06) ---- *)
Section Erase.
  Context {A : Type} (valueof : A -> Z).

  Lemma erase_add x (bn : bin A) :
    (fst (add_to_bin valueof true x bn), @nil A) = add_to_bin valueof false x (fst bn, @nil A).
  Proof. reflexivity. Qed.

  Theorem ff_erase C items :
    rmap erase (first_fit valueof true C items) = first_fit valueof false C items.
  Proof.
    rewrite <- (map_id items) at 2.
    apply (ff_map valueof valueof true false (fun x => x) (fun bn => (fst bn, [])));
      auto using erase_add.
  Qed.

  Theorem bf_erase C items :
    rmap erase (best_fit valueof true C items) = best_fit valueof false C items.
  Proof.
    rewrite <- (map_id items) at 2.
    apply (bf_map valueof valueof true false (fun x => x) (fun bn => (fst bn, [])));
      auto using erase_add.
  Qed.

  Theorem ffd_erase C items :
    rmap erase (first_fit_decreasing valueof true C items) = first_fit_decreasing valueof false C items.
  Proof. unfold first_fit_decreasing. apply ff_erase. Qed.

  Theorem bfd_erase C items :
    rmap erase (best_fit_decreasing valueof true C items) = best_fit_decreasing valueof false C items.
  Proof. unfold best_fit_decreasing. apply bf_erase. Qed.
End Erase.

(** ---- names are irrelevant (C07) ---- *)
Section Names.
  Context {A : Type} (valueof : A -> Z).

  Notation idv := (fun v : Z => v).

  Lemma map_bins_add x (bn : bin A) :
    (fst (add_to_bin valueof true x bn), map valueof (snd (add_to_bin valueof true x bn))) =
    add_to_bin idv true (valueof x) (fst bn, map valueof (snd bn)).
  Proof. unfold add_to_bin. cbn [fst snd]. rewrite map_app. reflexivity. Qed.

  Theorem ff_names C items :
    rmap (map_bins valueof) (first_fit valueof true C items) =
    first_fit idv true C (map valueof items).
  Proof. apply (ff_map valueof idv true true valueof); auto using map_bins_add. Qed.

  Theorem bf_names C items :
    rmap (map_bins valueof) (best_fit valueof true C items) =
    best_fit idv true C (map valueof items).
  Proof. apply (bf_map valueof idv true true valueof); auto using map_bins_add. Qed.

  Theorem ffd_names C items :
    rmap (map_bins valueof) (first_fit_decreasing valueof true C items) =
    first_fit_decreasing idv true C (map valueof items).
  Proof.
    unfold first_fit_decreasing. rewrite ff_names.
    rewrite (sort_desc_map valueof valueof idv) by reflexivity. reflexivity.
  Qed.

  Theorem bfd_names C items :
    rmap (map_bins valueof) (best_fit_decreasing valueof true C items) =
    best_fit_decreasing idv true C (map valueof items).
  Proof.
    unfold best_fit_decreasing. rewrite bf_names.
    rewrite (sort_desc_map valueof valueof idv) by reflexivity. reflexivity.
  Qed.
End Names.

(** ---- the weak consequence of any-fit (C09): fewer than twice the optimum ---- *)
Lemma packable_total C vs n : Packable C vs n -> zsum vs <= Z.of_nat n * C.
Proof.
  intros (s & (asg & Hlen & Hv & Hs) & Hcap).
  pose proof (loads_sum n vs asg Hlen Hv) as E. pose proof (loads_length n vs asg) as L.
  rewrite Hs in E, L. rewrite <- E, <- L. apply zsum_le_bound. exact Hcap.
Qed.

Lemma packable_zero C vs : Packable C vs 0 -> vs = [].
Proof.
  intros (s & (asg & Hlen & Hv & _) & _). destruct asg as [|i asg].
  - destruct vs; [reflexivity|discriminate Hlen].
  - inversion Hv as [|j l Hi Hrest]; subst. lia.
Qed.

Section AnyFitBound.
  Context {A : Type} (valueof : A -> Z).

  Lemma wf_bin_head_le (bn : bin A) y l :
    wf_bin valueof bn -> Forall (fun x => 0 <= valueof x) (snd bn) -> snd bn = y :: l ->
    valueof y <= fst bn.
  Proof.
    unfold wf_bin. intros Hw Hnn E. rewrite E in *. cbn [map] in Hw. rewrite zsum_cons in Hw.
    inversion Hnn as [|z l' Hy Hl]; subst.
    assert (0 <= zsum (map valueof l)) by (apply zsum_nonneg; rewrite Forall_map; exact Hl).
    lia.
  Qed.

  Lemma sums_nonneg_total (b : bins A) :
    wf valueof b -> Forall (fun x => 0 <= valueof x) (contents b) -> 0 <= zsum (sums b).
  Proof.
    intros Hw Hnn. rewrite (wf_total valueof b Hw). apply zsum_nonneg. rewrite Forall_map. exact Hnn.
  Qed.

  (** any two bins together exceed the capacity, so k disjoint pairs hold at least k(C+1) *)
  Lemma anyfit_pairs C : forall k (b : bins A),
    anyfit valueof C b -> wf valueof b -> Forall (fun x => 0 <= valueof x) (contents b) ->
    (2 * k <= length b)%nat -> (C + 1) * Z.of_nat k <= zsum (sums b).
  Proof.
    induction k as [|k IH]; intros b Ha Hw Hnn Hlen.
    - pose proof (sums_nonneg_total b Hw Hnn). cbn [Z.of_nat]. lia.
    - destruct b as [|a [|c t]]; cbn [length] in Hlen; try lia.
      rewrite anyfit_cons in Ha. destruct Ha as [Hac Hct].
      rewrite anyfit_cons in Hct. destruct Hct as [_ Ht].
      inversion Hac as [|c' t' Hc _]; subst.
      inversion Hw as [|a' l' Hwa Hw1]; subst. inversion Hw1 as [|c' l' Hwc Hwt]; subst.
      rewrite !contents_cons in Hnn. apply Forall_app in Hnn. destruct Hnn as [_ Hnn].
      apply Forall_app in Hnn. destruct Hnn as [Hnc Hnt].
      assert (Hpair : C + 1 <= fst a + fst c).
      { unfold later_ok in Hc. destruct (snd c) as [|y l] eqn:E; [contradiction|].
        pose proof (wf_bin_head_le c y l Hwc) as Hy. rewrite E in Hy. specialize (Hy Hnc eq_refl). lia. }
      assert (Hrest : (C + 1) * Z.of_nat k <= zsum (sums t)) by (apply IH; auto; lia).
      unfold sums in *. cbn [map]. rewrite !zsum_cons.
      rewrite Nat2Z.inj_succ. lia.
  Qed.

  Lemma anyfit_two_contents C (b : bins A) :
    anyfit valueof C b -> (2 <= length b)%nat -> contents b <> [].
  Proof.
    intros Ha Hlen. destruct b as [|a [|c t]]; cbn [length] in Hlen; try lia.
    rewrite anyfit_cons in Ha. destruct Ha as [Hac _]. inversion Hac as [|c' t' Hc _]; subst.
    unfold later_ok in Hc. rewrite !contents_cons. destruct (snd c) as [|y l]; [contradiction|].
    intros E. apply app_eq_nil in E. destruct E as [_ E]. discriminate E.
  Qed.

  (** general form: [vs] is any rearrangement of the packed values *)
  Lemma anyfit_lt_2n_perm C (b : bins A) vs n :
    anyfit valueof C b -> wf valueof b -> Forall (fun x => 0 <= valueof x) (contents b) ->
    Permutation (map valueof (contents b)) vs -> Packable C vs n ->
    (2 <= length b)%nat -> (length b <= 2 * n - 1)%nat.
  Proof.
    intros Ha Hw Hnn Hp Hpack Hlen.
    destruct (le_lt_dec (2 * n) (length b)) as [Hbig|Hsmall]; [|lia]. exfalso.
    pose proof (anyfit_pairs C n b Ha Hw Hnn Hbig) as H1.
    pose proof (packable_total C vs n Hpack) as H2.
    rewrite (wf_total valueof b Hw), (zsum_perm _ _ Hp) in H1.
    assert (n = 0)%nat by lia. subst n.
    apply packable_zero in Hpack. subst vs. apply Permutation_sym, Permutation_nil in Hp.
    apply map_eq_nil in Hp. exact (anyfit_two_contents C b Ha Hlen Hp).
  Qed.

  (** WEAK consequence of any-fit (the sharp 1.7 / 11/9 bounds: FF17*Proofs.v, FFD119Proofs.v): if the
      packed values fit into n bins of capacity C, an any-fit packing with at least two
      bins uses at most 2n - 1 bins.  (With a single bin the bound needs n >= 1, i.e. a
      non-empty bin; see the per-algorithm corollaries below.) *)
  Theorem anyfit_lt_2n C (b : bins A) n :
    anyfit valueof C b -> wf valueof b -> Forall (fun x => 0 <= valueof x) (contents b) ->
    Packable C (map valueof (contents b)) n ->
    (2 <= length b)%nat -> (length b <= 2 * n - 1)%nat.
  Proof. intros Ha Hw Hnn. apply anyfit_lt_2n_perm; auto. Qed.

  Lemma Inv_lt_2n C (b : bins A) items n :
    Inv valueof C b items -> items <> [] -> Forall (fun x => 0 <= valueof x) items ->
    Packable C (map valueof items) n -> (length b <= 2 * n - 1)%nat.
  Proof.
    intros (Hw & _ & Hp & _ & _ & Ha) Hne Hnn Hpack.
    destruct (le_lt_dec 2 (length b)) as [Hbig|Hsmall].
    - apply (anyfit_lt_2n_perm C b (map valueof items) n); auto.
      + eapply Permutation_Forall; [symmetry; exact Hp|exact Hnn].
      + apply Permutation_map. exact Hp.
    - destruct n as [|n]; [|lia]. apply packable_zero in Hpack. apply map_eq_nil in Hpack. congruence.
  Qed.

  Theorem ff_lt_2n C items b n : items <> [] -> Forall (fun x => 0 <= valueof x) items ->
    first_fit valueof true C items = Ok b -> Packable C (map valueof items) n ->
    (length b <= 2 * n - 1)%nat.
  Proof. intros Hne Hnn H. apply Inv_lt_2n; auto. apply ff_Inv; auto. Qed.
  Theorem ffd_lt_2n C items b n : items <> [] -> Forall (fun x => 0 <= valueof x) items ->
    first_fit_decreasing valueof true C items = Ok b -> Packable C (map valueof items) n ->
    (length b <= 2 * n - 1)%nat.
  Proof. intros Hne Hnn H. apply Inv_lt_2n; auto. apply ffd_Inv; auto. Qed.
  Theorem bf_lt_2n C items b n : items <> [] -> Forall (fun x => 0 <= valueof x) items ->
    best_fit valueof true C items = Ok b -> Packable C (map valueof items) n ->
    (length b <= 2 * n - 1)%nat.
  Proof. intros Hne Hnn H. apply Inv_lt_2n; auto. apply bf_Inv; auto. Qed.
  Theorem bfd_lt_2n C items b n : items <> [] -> Forall (fun x => 0 <= valueof x) items ->
    best_fit_decreasing valueof true C items = Ok b -> Packable C (map valueof items) n ->
    (length b <= 2 * n - 1)%nat.
  Proof. intros Hne Hnn H. apply Inv_lt_2n; auto. apply bfd_Inv; auto. Qed.
End AnyFitBound.

Print Assumptions ff_error_iff.
Print Assumptions ff_error_kind.
Print Assumptions ff_error_iff_gen.
Print Assumptions ff_error_kind_gen.
Print Assumptions ff_packing.
Print Assumptions ff_nonempty.
Print Assumptions ff_anyfit.
Print Assumptions ff_erase.
Print Assumptions ff_names.
Print Assumptions ff_lt_2n.
Print Assumptions ffd_error_iff.
Print Assumptions ffd_error_kind.
Print Assumptions ffd_error_iff_gen.
Print Assumptions ffd_error_kind_gen.
Print Assumptions ffd_packing.
Print Assumptions ffd_nonempty.
Print Assumptions ffd_anyfit.
Print Assumptions ffd_erase.
Print Assumptions ffd_names.
Print Assumptions ffd_lt_2n.
Print Assumptions bf_error_iff.
Print Assumptions bf_error_kind.
Print Assumptions bf_error_iff_gen.
Print Assumptions bf_error_kind_gen.
Print Assumptions bf_packing.
Print Assumptions bf_nonempty.
Print Assumptions bf_anyfit.
Print Assumptions bf_erase.
Print Assumptions bf_names.
Print Assumptions bf_lt_2n.
Print Assumptions bfd_error_iff.
Print Assumptions bfd_error_kind.
Print Assumptions bfd_error_iff_gen.
Print Assumptions bfd_error_kind_gen.
Print Assumptions bfd_packing.
Print Assumptions bfd_nonempty.
Print Assumptions bfd_anyfit.
Print Assumptions bfd_erase.
Print Assumptions bfd_names.
Print Assumptions bfd_lt_2n.
Print Assumptions anyfit_lt_2n.
Print Assumptions anyfit_lt_2n_perm.
Print Assumptions packing_empty_negative_capacity.
Print Assumptions bf_negative_value_leaves_empty_bin.
