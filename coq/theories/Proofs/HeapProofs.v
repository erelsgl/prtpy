(** Property C16: the heap-level model of the bins managers (Model/BinnerHeap.v: numpy
    buffers, array views, Python list objects with identity) refines the documented
    effect of every operation on abstract bins-arrays (Spec/AbsBins.v), for every
    finite sequence of operations that respects the hand-over discipline.

    Layers: (a) list and table lemmas, the liveness bookkeeping of the abstract state (also
    used by Proofs/PurityProofs.v); (b) the invariant, how a handle keeps it when the state is
    extended or another handle is written (the frame lemma), and its preservation by an
    in-place operation ([writes], [inv_inplace]) and by an allocating one ([built_from]: which
    handles the objects of the new handle come from; [inv_alloc]: those handles die);
    (c) per operation, the branch of [step] written as a construction ([grow] and a new handle,
    or [bump_handle] / [sort_handle]) with its effect lemma; (d) the one-step simulation, which
    only names the construction and the handles that die; (e) the fold, and the boolean
    discipline test. *)
From Prtpy Require Import Base.Prelude Model.Binner Model.BinnerHeap Spec.AbsBins
  Proofs.BaseLemmas Proofs.BinnerLemmas.

(** * (a) list and table lemmas *)
Section ListLemmas.
  Context {T : Type}.

  Lemma nth_opt_nth_error (l : list T) i : nth_opt l i = nth_error l i.
  Proof. revert i; induction l as [|y t IH]; intros [|j]; simpl; auto. Qed.

  Lemma nth_opt_Some_lt (l : list T) i x : nth_opt l i = Some x -> (i < length l)%nat.
  Proof. rewrite nth_opt_nth_error. intros H. apply nth_error_Some. congruence. Qed.

  Lemma nth_opt_lt (l : list T) i d : (i < length l)%nat -> nth_opt l i = Some (nth i l d).
  Proof. rewrite nth_opt_nth_error. apply nth_error_nth'. Qed.

  Lemma nth_opt_nth (l : list T) i x d : nth_opt l i = Some x -> nth i l d = x.
  Proof. rewrite nth_opt_nth_error. apply nth_error_nth. Qed.

  Lemma nth_opt_None_ge (l : list T) i : (length l <= i)%nat -> nth_opt l i = None.
  Proof. rewrite nth_opt_nth_error. apply nth_error_None. Qed.

  Lemma nth_opt_app_l (l1 l2 : list T) i : (i < length l1)%nat -> nth_opt (l1 ++ l2) i = nth_opt l1 i.
  Proof. rewrite !nth_opt_nth_error. apply nth_error_app1. Qed.

  Lemma nth_opt_snoc_last (l : list T) x : nth_opt (l ++ [x]) (length l) = Some x.
  Proof. rewrite nth_opt_nth_error, nth_error_app2, Nat.sub_diag by lia. reflexivity. Qed.

  Lemma nth_opt_update_same (l : list T) i f x : nth_opt l i = Some x -> nth_opt (update i f l) i = Some (f x).
  Proof.
    revert i; induction l as [|y t IH]; intros [|j] H; simpl in *; try discriminate; auto. congruence.
  Qed.

  Lemma nth_opt_update_other (l : list T) i j f : i <> j -> nth_opt (update i f l) j = nth_opt l j.
  Proof.
    revert i j; induction l as [|y t IH]; intros [|i] [|j] H; simpl; try congruence; auto.
  Qed.

  Lemma nth_opt_In (l : list T) i x : nth_opt l i = Some x -> In x l.
  Proof. rewrite nth_opt_nth_error. apply nth_error_In. Qed.

  Lemma firstn_update_lt (f : T -> T) i n l : (i < n)%nat -> firstn n (update i f l) = update i f (firstn n l).
  Proof.
    revert i n; induction l as [|y t IH]; intros [|j] [|m] H; simpl; try lia; auto.
    f_equal. apply IH. lia.
  Qed.

  Lemma nth_app_l (l1 l2 : list T) i d : (i < length l1)%nat -> nth i (l1 ++ l2) d = nth i l1 d.
  Proof. intros H. apply app_nth1. exact H. Qed.

  Lemma NoDup_app_iff (l1 l2 : list T) :
    NoDup (l1 ++ l2) <-> NoDup l1 /\ NoDup l2 /\ (forall x, In x l1 -> In x l2 -> False).
  Proof.
    induction l1 as [|y t IH]; simpl.
    - intuition constructor.
    - rewrite !NoDup_cons_iff, IH, in_app_iff. intuition (subst; eauto).
  Qed.

  Lemma NoDup_firstn n (l : list T) : NoDup l -> NoDup (firstn n l).
  Proof.
    intros H. rewrite <- (firstn_skipn n l) in H. apply NoDup_app_iff in H. tauto.
  Qed.

  Lemma In_firstn n (l : list T) x : In x (firstn n l) -> In x l.
  Proof. intros H. rewrite <- (firstn_skipn n l). apply in_or_app. left; exact H. Qed.
End ListLemmas.

Lemma nth_opt_combine {T U} (l1 : list T) (l2 : list U) i :
  nth_opt (combine l1 l2) i =
  match nth_opt l1 i, nth_opt l2 i with Some a, Some b => Some (a, b) | _, _ => None end.
Proof.
  revert l2 i; induction l1 as [|x t IH]; intros [|y u] [|j]; simpl; auto.
  - destruct (nth_opt t j); reflexivity.
Qed.

Lemma combine_update {T U} (f1 : T -> T) (f2 : U -> U) g i (l1 : list T) (l2 : list U) :
  (forall x y, g (x, y) = (f1 x, f2 y)) ->
  combine (update i f1 l1) (update i f2 l2) = update i g (combine l1 l2).
Proof.
  intros Hg. revert i l2; induction l1 as [|x t IH]; intros [|j] [|y u]; simpl; auto; f_equal; auto.
Qed.

Lemma combine_app {T U} (l1 l1' : list T) (l2 l2' : list U) : length l1 = length l2 ->
  combine (l1 ++ l1') (l2 ++ l2') = combine l1 l2 ++ combine l1' l2'.
Proof.
  revert l2; induction l1 as [|x t IH]; intros [|y u] H; simpl in *; try discriminate; auto.
  f_equal. apply IH. lia.
Qed.

Lemma combine_map_r {T U V} (g : U -> V) (l1 : list T) (l2 : list U) :
  combine l1 (map g l2) = map (fun p => (fst p, g (snd p))) (combine l1 l2).
Proof. revert l2; induction l1 as [|x t IH]; intros [|y u]; simpl; auto. f_equal. apply IH. Qed.

(** [g'] agrees with [g] except at the id [a], which occurs exactly once (at position i) *)
Lemma map_update_nodup {U} (g g' : nat -> U) (f : U -> U) (l : list nat) i a :
  NoDup l -> nth_opt l i = Some a -> (forall j, j <> a -> g' j = g j) -> g' a = f (g a) ->
  map g' l = update i f (map g l).
Proof.
  intros Hnd Hi Hoth Ha. revert i Hi; induction Hnd as [|y t Hn Hd IH]; intros [|j] Hi; simpl in *; try discriminate.
  - injection Hi as ->. rewrite Ha. f_equal. apply map_ext_in. intros z Hz. apply Hoth. intros ->. auto.
  - rewrite Hoth; [|intros ->; apply Hn; eapply nth_opt_In; eauto]. f_equal. apply IH. exact Hi.
Qed.

(** ranges *)
Lemma map_nth_range_from {T} (pre l : list T) d :
  map (fun i => nth i (pre ++ l) d) (range_from (length pre) (length l)) = l.
Proof.
  revert pre; induction l as [|x t IH]; intros pre; simpl; auto. f_equal.
  - rewrite app_nth2 by lia. rewrite Nat.sub_diag. reflexivity.
  - specialize (IH (pre ++ [x])). rewrite <- app_assoc, app_length in IH. simpl in IH.
    rewrite Nat.add_1_r in IH. exact IH.
Qed.

Lemma map_nth_range {T} (l : list T) d : map (fun i => nth i l d) (range (length l)) = l.
Proof. exact (map_nth_range_from [] l d). Qed.

(** overwrite through a view *)
Lemma overwrite_spec l old : overwrite l old = l ++ skipn (length l) old.
Proof.
  revert old; induction l as [|x t IH]; intros old; simpl; auto.
  destruct old as [|y o]; rewrite IH; simpl; auto. destruct (length t); reflexivity.
Qed.

Lemma overwrite_length l old : (length l <= length old)%nat -> length (overwrite l old) = length old.
Proof. intros H. rewrite overwrite_spec, app_length, skipn_length. lia. Qed.

Lemma firstn_overwrite l old : firstn (length l) (overwrite l old) = l.
Proof.
  rewrite overwrite_spec. rewrite <- (Nat.add_0_r (length l)). rewrite firstn_app_2. simpl. apply app_nil_r.
Qed.

(** * stable argsort: sorting the decorated list and projecting *)
Section Argsort.
  Context {T : Type} (key : T -> Z).

  Definition argsort (l : list T) : list (nat * T) :=
    sort_asc (fun p => key (snd p)) (combine (range (length l)) l).

  Lemma argsort_snd l : map snd (argsort l) = sort_asc key l.
  Proof.
    unfold argsort. rewrite (sort_asc_map snd (fun p : nat * T => key (snd p)) key) by reflexivity.
    rewrite map_snd_combine; auto. apply range_length.
  Qed.

  Lemma combine_range_In (l : list T) k p d : In p (combine (range_from k (length l)) l) ->
    (k <= fst p)%nat /\ snd p = nth (fst p - k) l d.
  Proof.
    revert k; induction l as [|x t IH]; intros k H; simpl in *; [contradiction|].
    destruct H as [H|H].
    - subst p. simpl. rewrite Nat.sub_diag. split; [lia|reflexivity].
    - apply IH in H. destruct H as [H1 H2]. split; [lia|].
      rewrite H2. replace (fst p - k)%nat with (S (fst p - S k)) by lia. reflexivity.
  Qed.

  Lemma argsort_nth l d : map (fun i => nth i l d) (map fst (argsort l)) = sort_asc key l.
  Proof.
    rewrite <- argsort_snd, map_map. apply map_ext_in. intros p Hp.
    unfold argsort in Hp. apply sort_asc_In in Hp.
    apply (combine_range_In l O p d) in Hp. destruct Hp as [_ Hp]. rewrite Nat.sub_0_r in Hp. auto.
  Qed.
End Argsort.

(** the heap's [sorted_perm] (argsort of the sums alone) is the argsort of the pairs *)
Lemma sorted_perm_pairs {U} (vals : list Z) (ls : list U) : length vals = length ls ->
  sorted_perm vals = map fst (argsort (@fst Z U) (combine vals ls)).
Proof.
  intros H. unfold sorted_perm, argsort.
  set (g := fun p : nat * (Z * U) => (fst p, fst (snd p))).
  assert (E : combine (range (length vals)) vals = map g (combine (range (length (combine vals ls))) (combine vals ls))).
  { rewrite combine_length, <- H, Nat.min_id. unfold range. generalize O as k.
    revert ls H; induction vals as [|v t IH]; intros [|y u] H k; simpl in *; try discriminate; auto.
    unfold g at 1. simpl. f_equal. apply IH. lia. }
  rewrite E.
  rewrite <- (sort_asc_map g (fun p : nat * (Z * U) => fst (snd p)) (fun p : nat * Z => snd p)) by reflexivity.
  rewrite map_map. apply map_ext. intros p. reflexivity.
Qed.

Lemma sorted_perm_length vals : length (sorted_perm vals) = length vals.
Proof.
  unfold sorted_perm. rewrite map_length, sort_asc_length, combine_length, range_length. lia.
Qed.

Lemma sorted_perm_perm vals : Permutation (sorted_perm vals) (range (length vals)).
Proof.
  unfold sorted_perm. etransitivity; [apply Permutation_map, sort_asc_perm|].
  rewrite map_fst_combine; auto. apply range_length.
Qed.

(** the decorated sort applied to both components = stable sort of the pairs *)
Lemma sorted_perm_combine {U} (vals : list Z) (ls : list U) d : length vals = length ls ->
  combine (map (fun i => nth i vals 0) (sorted_perm vals)) (map (fun i => nth i ls d) (sorted_perm vals))
  = sort_asc fst (combine vals ls).
Proof.
  intros H. rewrite <- (argsort_nth (@fst Z U) (combine vals ls) (0, d)).
  rewrite <- (sorted_perm_pairs vals ls H).
  induction (sorted_perm vals) as [|i t IH]; simpl; auto.
  rewrite IH. f_equal. symmetry. apply combine_nth. exact H.
Qed.

Lemma sorted_perm_permutes {U} (vals : list Z) (l : list U) d : length vals = length l ->
  Permutation (map (fun i => nth i l d) (sorted_perm vals)) l.
Proof.
  intros H. etransitivity; [apply Permutation_map, sorted_perm_perm|].
  rewrite H. rewrite map_nth_range. reflexivity.
Qed.

(** * liveness bookkeeping of the abstract state *)
Section Plive.
  Context {A : Type}.
  Notation pstate := (@pstate A).
  (* [pure_step] and [kill] update with functions on this type, written out: stated with [pentry],
     the two update lemmas would not be found by [rewrite], which does not unfold it *)
  Notation entry := (option (bool * bins A)).

  Lemma plive_lt (ps : pstate) g e : plive ps g = Some e -> (g < length ps)%nat.
  Proof.
    unfold plive. destruct (nth_opt _ g) as [o|] eqn:E; [|discriminate].
    intros _. eapply nth_opt_Some_lt; eauto.
  Qed.

  Lemma plive_ge (ps : pstate) g : (length ps <= g)%nat -> plive ps g = None.
  Proof. intros H. unfold plive. rewrite nth_opt_None_ge by exact H. reflexivity. Qed.

  Lemma plive_update_same (ps : pstate) h (e : entry) : (h < length ps)%nat -> plive (update h (fun _ => e) ps) h = e.
  Proof.
    intros H. unfold plive. rewrite (nth_opt_update_same ps h _ _ (nth_opt_lt ps h None H)).
    destruct e; reflexivity.
  Qed.

  Lemma plive_update_other (ps : pstate) h g (f : entry -> entry) : h <> g -> plive (update h f ps) g = plive ps g.
  Proof. intros H. unfold plive. rewrite nth_opt_update_other by exact H. reflexivity. Qed.

  Lemma plive_app_l (ps l : pstate) g : (g < length ps)%nat -> plive (ps ++ l) g = plive ps g.
  Proof. intros H. unfold plive. rewrite nth_opt_app_l by exact H. reflexivity. Qed.

  Lemma plive_snoc_last (ps : pstate) e : plive (ps ++ [e]) (length ps) = e.
  Proof. unfold plive. rewrite nth_opt_snoc_last. destruct e; reflexivity. Qed.

  Lemma plive_snoc_ge (ps : pstate) e g : (length ps < g)%nat -> plive (ps ++ [e]) g = None.
  Proof. intros H. apply plive_ge. rewrite app_length. simpl. lia. Qed.

  Lemma plive_app_cases (ps : pstate) e g x : plive (ps ++ [e]) g = Some x ->
    ((g < length ps)%nat /\ plive ps g = Some x) \/ (g = length ps /\ e = Some x).
  Proof.
    intros H. destruct (lt_eq_lt_dec g (length ps)) as [[Hlt| ->]|Hgt].
    - left. rewrite plive_app_l in H by exact Hlt. auto.
    - right. rewrite plive_snoc_last in H. auto.
    - rewrite plive_snoc_ge in H by exact Hgt. discriminate.
  Qed.

  Lemma kill_length (ps : pstate) h : length (kill h ps) = length ps.
  Proof. apply update_length. Qed.

  Lemma plive_kill_other (ps : pstate) h g : h <> g -> plive (kill h ps) g = plive ps g.
  Proof. apply plive_update_other. Qed.

  Lemma plive_kill_same (ps : pstate) h : plive (kill h ps) h = None.
  Proof.
    destruct (Nat.lt_ge_cases h (length ps)) as [Hlt|Hge].
    - apply plive_update_same. exact Hlt.
    - apply plive_ge. rewrite kill_length. exact Hge.
  Qed.

  Lemma plive_kill (ps : pstate) h g e : plive (kill h ps) g = Some e -> g <> h /\ plive ps g = Some e.
  Proof.
    intros H. destruct (Nat.eq_dec h g) as [->|Hne].
    - rewrite plive_kill_same in H. discriminate.
    - rewrite plive_kill_other in H by exact Hne. auto.
  Qed.
  Lemma kills_length (ps : pstate) ds : length (fold_right kill ps ds) = length ps.
  Proof. induction ds as [|d t IH]; cbn [fold_right]; [reflexivity|]. rewrite kill_length. exact IH. Qed.

  Lemma plive_kills_other (ps : pstate) ds g : ~ In g ds -> plive (fold_right kill ps ds) g = plive ps g.
  Proof.
    induction ds as [|d t IH]; cbn [fold_right In]; intros H; [reflexivity|].
    rewrite plive_kill_other by tauto. apply IH. tauto.
  Qed.

  Lemma plive_kills_snoc (ps : pstate) ds e g x :
    plive ps g = Some x -> ~ In g ds -> plive (fold_right kill ps ds ++ [e]) g = Some x.
  Proof.
    intros Hl Hn. rewrite plive_app_l by (rewrite kills_length; eapply plive_lt; exact Hl).
    rewrite plive_kills_other by exact Hn. exact Hl.
  Qed.

  Lemma plive_kills (ps : pstate) ds g e : plive (fold_right kill ps ds) g = Some e -> ~ In g ds /\ plive ps g = Some e.
  Proof.
    induction ds as [|d t IH]; cbn [fold_right In]; intros H; [tauto|].
    apply plive_kill in H. destruct H as [Hne H]. apply IH in H. intuition.
  Qed.
End Plive.

(** * (b) the invariant, frame lemmas, preservation *)
Section HeapProofs.
  Context {A : Type} (valueof : A -> Z).
  Notation hstate := (@hstate A).
  Notation pstate := (@pstate A).

  (** ** heap tables *)
  Lemma buf_of_set_buf_same (st : hstate) bb f : (bb < length (bufs st))%nat -> buf_of (set_buf st bb f) bb = f (buf_of st bb).
  Proof. intros H. unfold buf_of, set_buf. cbn [bufs]. apply update_nth_same. exact H. Qed.
  Lemma buf_of_set_buf_other (st : hstate) bb f b : b <> bb -> buf_of (set_buf st bb f) b = buf_of st b.
  Proof. intros H. unfold buf_of, set_buf. cbn [bufs]. apply update_nth_other. auto. Qed.
  Lemma inner_of_set_inner_same (st : hstate) ii f : (ii < length (inners st))%nat -> inner_of (set_inner st ii f) ii = f (inner_of st ii).
  Proof. intros H. unfold inner_of, set_inner. cbn [inners]. apply update_nth_same. exact H. Qed.
  Lemma inner_of_set_inner_other (st : hstate) ii f i : i <> ii -> inner_of (set_inner st ii f) i = inner_of st i.
  Proof. intros H. unfold inner_of, set_inner. cbn [inners]. apply update_nth_other. auto. Qed.
  Lemma outer_of_set_outer_same (st : hstate) oo f : (oo < length (outers st))%nat -> outer_of (set_outer st oo f) oo = f (outer_of st oo).
  Proof. intros H. unfold outer_of, set_outer. cbn [outers]. apply update_nth_same. exact H. Qed.
  Lemma outer_of_set_outer_other (st : hstate) oo f o : o <> oo -> outer_of (set_outer st oo f) o = outer_of st o.
  Proof. intros H. unfold outer_of, set_outer. cbn [outers]. apply update_nth_other. auto. Qed.

  (** [alloc_inners] appends the new lists and returns consecutive fresh ids *)
  Lemma alloc_inners_spec (st : hstate) ls :
    alloc_inners st ls = (mk_hstate (bufs st) (inners st ++ ls) (outers st) (handles st),
                          range_from (length (inners st)) (length ls)).
  Proof.
    revert st; induction ls as [|l t IH]; intros st.
    - cbn [alloc_inners length range_from]. rewrite app_nil_r. destruct st; reflexivity.
    - cbn [alloc_inners]. unfold alloc_inner. rewrite IH. cbn [bufs inners outers handles length range_from].
      rewrite <- app_assoc, app_length. cbn [app length]. rewrite Nat.add_1_r. reflexivity.
  Qed.

  (** ** the per-handle invariant *)
  Definition ids_of (st : hstate) (hd : handle) : list nat :=
    match h_outer hd with Some o => outer_of st o | None => [] end.
  Definition kind_of (hd : handle) : bool := match h_outer hd with Some _ => true | None => false end.

  Record hwf (st : hstate) (hd : handle) (k : bool) (b : bins A) : Prop := mk_hwf {
    hw_abs : abs_handle st hd = b;                                   (* it shows the abstract value *)
    hw_len : v_len (h_view hd) = length b;
    hw_buf : (v_buf (h_view hd) < length (bufs st))%nat;              (* ids are allocated *)
    hw_fit : (v_len (h_view hd) <= length (buf_of st (v_buf (h_view hd))))%nat;
    hw_kind : kind_of hd = k;                                        (* h_outer = Some _ <-> k = true *)
    hw_outer : forall o, h_outer hd = Some o -> (o < length (outers st))%nat;
    hw_olen : forall o, h_outer hd = Some o -> length (outer_of st o) = v_len (h_view hd);
    hw_nodup : NoDup (ids_of st hd);                                 (* no inner list in two bins *)
    hw_ids : forall i, In i (ids_of st hd) -> (i < length (inners st))%nat }.
  Arguments hw_abs {st hd k b}. Arguments hw_len {st hd k b}. Arguments hw_buf {st hd k b}.
  Arguments hw_fit {st hd k b}. Arguments hw_kind {st hd k b}. Arguments hw_outer {st hd k b}.
  Arguments hw_olen {st hd k b}. Arguments hw_nodup {st hd k b}. Arguments hw_ids {st hd k b}.

  (** separation of two handles: no shared buffer, outer list or inner list *)
  Definition sep (st : hstate) (hd1 hd2 : handle) : Prop :=
    v_buf (h_view hd1) <> v_buf (h_view hd2) /\
    (forall o, h_outer hd1 = Some o -> h_outer hd2 <> Some o) /\
    (forall i, In i (ids_of st hd1) -> In i (ids_of st hd2) -> False).

  (** the simulation invariant: same handles in the same order; every LIVE handle is
      well-formed and shows its abstract value; LIVE handles are pairwise separated.
      Nothing is required of dead handles: they may alias live ones (the view made by
      remove_bins shares its buffer, the outer lists made by remove/add_empty/concatenate
      share their inner lists with the arguments), which is harmless exactly because
      the discipline never names them again. *)
  Definition Inv (st : hstate) (ps : pstate) : Prop :=
    length (handles st) = length ps /\
    (forall h hd k b, nth_opt (handles st) h = Some hd -> plive ps h = Some (k, b) -> hwf st hd k b) /\
    (forall h1 h2 hd1 hd2 e1 e2, h1 <> h2 ->
       nth_opt (handles st) h1 = Some hd1 -> nth_opt (handles st) h2 = Some hd2 ->
       plive ps h1 = Some e1 -> plive ps h2 = Some e2 -> sep st hd1 hd2).

  Lemma sep_sym st hd1 hd2 : sep st hd1 hd2 -> sep st hd2 hd1.
  Proof.
    intros (H1 & H2 & H3). repeat split.
    - auto.
    - intros o Ho Ho'. apply (H2 o Ho' Ho).
    - intros i Hi Hi'. apply (H3 i Hi' Hi).
  Qed.

  Lemma sep_mono st st' hd1 hd2 : sep st hd1 hd2 ->
    (forall i, In i (ids_of st' hd1) -> In i (ids_of st hd1)) ->
    (forall i, In i (ids_of st' hd2) -> In i (ids_of st hd2)) -> sep st' hd1 hd2.
  Proof. intros (H1 & H2 & H3) M1 M2. repeat split; auto. intros i Hi Hi'. apply (H3 i); auto. Qed.

  Lemma hwf_vals_length {st hd k b} : hwf st hd k b -> length (view_vals st (h_view hd)) = v_len (h_view hd).
  Proof. intros H. unfold view_vals. apply firstn_length_le. apply (hw_fit H). Qed.

  Lemma hwf_ids_length {st hd b} : hwf st hd true b -> length (ids_of st hd) = v_len (h_view hd).
  Proof.
    intros H. pose proof (hw_kind H) as Hk. pose proof (hw_olen H) as Ho.
    unfold kind_of, ids_of in *. destruct (h_outer hd) as [o|]; [|discriminate]. apply Ho. reflexivity.
  Qed.

  Lemma hwf_sums_outer {st hd b} : hwf st hd false b -> h_outer hd = None.
  Proof. intros H. pose proof (hw_kind H) as K. unfold kind_of in K. destruct (h_outer hd); [discriminate|reflexivity]. Qed.

  Lemma hwf_contents_outer {st hd b} : hwf st hd true b -> exists o, h_outer hd = Some o.
  Proof. intros H. pose proof (hw_kind H) as K. unfold kind_of in K. destruct (h_outer hd) as [o|]; [eauto|discriminate]. Qed.

  Lemma hwf_intro st hd :
    (v_buf (h_view hd) < length (bufs st))%nat ->
    (v_len (h_view hd) <= length (buf_of st (v_buf (h_view hd))))%nat ->
    (forall o, h_outer hd = Some o -> (o < length (outers st))%nat /\ length (outer_of st o) = v_len (h_view hd)) ->
    NoDup (ids_of st hd) -> (forall i, In i (ids_of st hd) -> (i < length (inners st))%nat) ->
    hwf st hd (kind_of hd) (abs_handle st hd).
  Proof.
    intros Hb Hf Ho Hn Hi. constructor; auto; try (intros o E; apply (Ho o E)).
    unfold abs_handle, view_vals, bin. destruct (h_outer hd) as [o|].
    - rewrite combine_length, map_length, firstn_length_le, (proj2 (Ho o eq_refl)) by exact Hf. lia.
    - rewrite map_length, firstn_length_le by exact Hf. reflexivity.
  Qed.

  Lemma hwf_lookup {st ps h k b} : Inv st ps -> plive ps h = Some (k, b) ->
    exists hd, nth_opt (handles st) h = Some hd /\ hwf st hd k b.
  Proof.
    intros (Hl & Hw & _) Hp. pose proof (plive_lt _ _ _ Hp) as Hlt. rewrite <- Hl in Hlt.
    exists (nth h (handles st) (mk_handle (mk_view O O) None)).
    pose proof (nth_opt_lt (handles st) h (mk_handle (mk_view O O) None) Hlt) as E.
    split; [exact E|]. eapply Hw; eauto.
  Qed.

  Lemma inv_sep {st ps h1 h2 hd1 hd2 e1 e2} : Inv st ps -> h1 <> h2 ->
    nth_opt (handles st) h1 = Some hd1 -> nth_opt (handles st) h2 = Some hd2 ->
    plive ps h1 = Some e1 -> plive ps h2 = Some e2 -> sep st hd1 hd2.
  Proof. intros (_ & _ & Hs). apply Hs. Qed.

  (** ** how a handle keeps its invariant when the state changes *)
  Lemma abs_handle_eq st st' hd :
    view_vals st' (h_view hd) = view_vals st (h_view hd) ->
    ids_of st' hd = ids_of st hd ->
    (forall i, In i (ids_of st hd) -> inner_of st' i = inner_of st i) ->
    abs_handle st' hd = abs_handle st hd.
  Proof.
    unfold abs_handle, ids_of. intros Hv Hi Hin. rewrite Hv. destruct (h_outer hd) as [o|]; [|reflexivity].
    rewrite Hi. f_equal. apply map_ext_in. exact Hin.
  Qed.

  Definition grown (st st' : hstate) : Prop :=
    (length (bufs st) <= length (bufs st') /\ length (inners st) <= length (inners st') /\
     length (outers st) <= length (outers st'))%nat.

  Lemma hwf_rebuild st st' hd k b :
    hwf st hd k b -> grown st st' ->
    length (buf_of st' (v_buf (h_view hd))) = length (buf_of st (v_buf (h_view hd))) ->
    Permutation (ids_of st' hd) (ids_of st hd) -> hwf st' hd k (abs_handle st' hd).
  Proof.
    intros Hw (L1 & L2 & L3) Hb Hp. rewrite <- (hw_kind Hw). apply hwf_intro.
    - pose proof (hw_buf Hw). lia.
    - rewrite Hb. apply (hw_fit Hw).
    - intros o Ho. pose proof (hw_outer Hw o Ho). pose proof (hw_olen Hw o Ho) as Hlen.
      apply Permutation_length in Hp. unfold ids_of in Hp. rewrite Ho in Hp. lia.
    - eapply Permutation_NoDup; [symmetry; exact Hp|]. apply (hw_nodup Hw).
    - intros i Hi. pose proof (hw_ids Hw i (Permutation_in _ Hp Hi)). lia.
  Qed.

  Lemma hwf_same st st' hd k b :
    hwf st hd k b -> grown st st' ->
    buf_of st' (v_buf (h_view hd)) = buf_of st (v_buf (h_view hd)) ->
    ids_of st' hd = ids_of st hd ->
    (forall i, In i (ids_of st hd) -> inner_of st' i = inner_of st i) -> hwf st' hd k b.
  Proof.
    intros Hw Hg Eb Ei Ein. rewrite <- (hw_abs Hw), <- (abs_handle_eq st st' hd); auto.
    - apply (hwf_rebuild st st' hd k b Hw Hg); rewrite ?Eb, ?Ei; reflexivity.
    - unfold view_vals. rewrite Eb. reflexivity.
  Qed.

  (** ** state extension (allocation only): live handles are unaffected *)
  Definition ext (st st' : hstate) : Prop :=
    (exists l, bufs st' = bufs st ++ l) /\ (exists l, inners st' = inners st ++ l) /\
    (exists l, outers st' = outers st ++ l).

  Lemma ext_trans st1 st2 st3 : ext st1 st2 -> ext st2 st3 -> ext st1 st3.
  Proof.
    intros ((l1 & E1) & (l2 & E2) & (l3 & E3)) ((m1 & F1) & (m2 & F2) & (m3 & F3)).
    repeat split; [exists (l1 ++ m1)|exists (l2 ++ m2)|exists (l3 ++ m3)]; rewrite app_assoc; congruence.
  Qed.

  Lemma ext_add_handle st h : ext st (add_handle st h).
  Proof. unfold add_handle. repeat split; exists []; cbn [bufs inners outers]; rewrite app_nil_r; reflexivity. Qed.

  Lemma ext_buf st st' b : ext st st' -> (b < length (bufs st))%nat -> buf_of st' b = buf_of st b.
  Proof. intros ((l & E) & _) H. unfold buf_of. rewrite E. apply app_nth1. exact H. Qed.
  Lemma ext_inner st st' i : ext st st' -> (i < length (inners st))%nat -> inner_of st' i = inner_of st i.
  Proof. intros (_ & (l & E) & _) H. unfold inner_of. rewrite E. apply app_nth1. exact H. Qed.
  Lemma ext_outer st st' o : ext st st' -> (o < length (outers st))%nat -> outer_of st' o = outer_of st o.
  Proof. intros (_ & _ & (l & E)) H. unfold outer_of. rewrite E. apply app_nth1. exact H. Qed.
  Lemma ext_grown {st st'} : ext st st' -> grown st st'.
  Proof. intros ((l1 & E1) & (l2 & E2) & (l3 & E3)). unfold grown. rewrite E1, E2, E3, !app_length. lia. Qed.

  Lemma ids_of_ext {st st' hd k b} : ext st st' -> hwf st hd k b -> ids_of st' hd = ids_of st hd.
  Proof.
    intros He Hw. unfold ids_of. destruct (h_outer hd) as [o|] eqn:Eo; [|reflexivity].
    apply ext_outer; auto. apply (hw_outer Hw). exact Eo.
  Qed.

  Lemma hwf_ext st st' hd k b : ext st st' -> hwf st hd k b -> hwf st' hd k b.
  Proof.
    intros He Hw. apply (hwf_same st); [exact Hw|apply ext_grown; exact He| | |].
    - apply ext_buf; [exact He|apply (hw_buf Hw)].
    - eapply ids_of_ext; eauto.
    - intros i Hi. apply ext_inner; [exact He|apply (hw_ids Hw i Hi)].
  Qed.

  (** ** in-place modification: only the objects of one handle are written *)
  Definition mod_only (st st' : hstate) (bb : nat) (I : list nat) (oo : option nat) : Prop :=
    length (bufs st') = length (bufs st) /\ length (inners st') = length (inners st) /\
    length (outers st') = length (outers st) /\
    (forall b, b <> bb -> buf_of st' b = buf_of st b) /\
    (forall i, ~ In i I -> inner_of st' i = inner_of st i) /\
    (forall o, oo <> Some o -> outer_of st' o = outer_of st o).

  Lemma mod_only_refl st bb I oo : mod_only st st bb I oo.
  Proof. repeat split; auto. Qed.

  Lemma mod_only_trans st1 st2 st3 bb I oo : mod_only st1 st2 bb I oo -> mod_only st2 st3 bb I oo -> mod_only st1 st3 bb I oo.
  Proof.
    intros (A1 & A2 & A3 & A4 & A5 & A6) (B1 & B2 & B3 & B4 & B5 & B6).
    repeat split; try congruence.
    - intros b Hb. rewrite B4, A4; auto.
    - intros i Hi. rewrite B5, A5; auto.
    - intros o Ho. rewrite B6, A6; auto.
  Qed.

  Lemma mod_set_buf st bb f I oo : mod_only st (set_buf st bb f) bb I oo.
  Proof.
    repeat split; auto.
    - unfold set_buf. cbn [bufs]. apply update_length.
    - intros b Hb. apply buf_of_set_buf_other. exact Hb.
  Qed.

  Lemma mod_set_inner st ii f bb I oo : In ii I -> mod_only st (set_inner st ii f) bb I oo.
  Proof.
    intros Hin. repeat split; auto.
    - unfold set_inner. cbn [inners]. apply update_length.
    - intros i Hi. apply inner_of_set_inner_other. intros ->. auto.
  Qed.

  Lemma mod_set_outer st o f bb I : mod_only st (set_outer st o f) bb I (Some o).
  Proof.
    repeat split; auto.
    - unfold set_outer. cbn [outers]. apply update_length.
    - intros o' Ho. apply outer_of_set_outer_other. congruence.
  Qed.

  Lemma mod_only_grown st st' bb I oo : mod_only st st' bb I oo -> grown st st'.
  Proof. intros (M1 & M2 & M3 & _). unfold grown. lia. Qed.

  (** the frame lemma: a handle separated from the written one is unaffected *)
  Lemma ids_of_frame st st' hd hdg :
    mod_only st st' (v_buf (h_view hd)) (ids_of st hd) (h_outer hd) -> sep st hd hdg ->
    ids_of st' hdg = ids_of st hdg.
  Proof.
    intros (_ & _ & _ & _ & _ & M6) (_ & S2 & _). unfold ids_of.
    destruct (h_outer hdg) as [o|] eqn:Eo; [|reflexivity]. apply M6. intros Ho. apply (S2 o Ho). reflexivity.
  Qed.

  Lemma hwf_frame st st' hd hdg kg bg :
    mod_only st st' (v_buf (h_view hd)) (ids_of st hd) (h_outer hd) ->
    sep st hd hdg -> hwf st hdg kg bg -> hwf st' hdg kg bg.
  Proof.
    intros Hm Hs Hw. apply (hwf_same st); [exact Hw|eapply mod_only_grown; exact Hm| |eapply ids_of_frame; eauto|].
    - destruct Hm as (_ & _ & _ & M4 & _), Hs as (S1 & _). apply M4. auto.
    - destruct Hm as (_ & _ & _ & _ & M5 & _), Hs as (_ & _ & S3). intros i Hi. apply M5. intros Hi'. apply (S3 i); auto.
  Qed.

  (** ** two generic preservation lemmas for the invariant *)
  (** in-place operation on [hd]: it now shows b' (whose length the shape conditions fix) *)
  Definition writes (st st' : hstate) (hd : handle) (b' : bins A) : Prop :=
    handles st' = handles st /\
    mod_only st st' (v_buf (h_view hd)) (ids_of st hd) (h_outer hd) /\
    abs_handle st' hd = b' /\
    length (buf_of st' (v_buf (h_view hd))) = length (buf_of st (v_buf (h_view hd))) /\
    Permutation (ids_of st' hd) (ids_of st hd).

  Lemma inv_inplace st ps st' h hd k b b' :
    Inv st ps -> nth_opt (handles st) h = Some hd -> plive ps h = Some (k, b) -> writes st st' hd b' ->
    Inv st' (update h (fun _ => Some (k, b')) ps).
  Proof.
    intros (Hl & Hw & Hs) Hn Hp (Hh & Hm & Ha & Hbl & Hperm).
    pose proof (plive_lt _ _ _ Hp) as Hlt.
    assert (Hold : forall g hdg e, nth_opt (handles st) g = Some hdg ->
              plive (update h (fun _ => Some (k, b')) ps) g = Some e ->
              exists e0, plive ps g = Some e0 /\ forall i, In i (ids_of st' hdg) -> In i (ids_of st hdg)).
    { intros g hdg e Hng Hpg. destruct (Nat.eq_dec h g) as [<-|Hne].
      - exists (k, b). split; [exact Hp|]. replace hdg with hd by congruence. intros i. apply Permutation_in. exact Hperm.
      - rewrite plive_update_other in Hpg by exact Hne. exists e. split; [exact Hpg|].
        rewrite (ids_of_frame st st' hd hdg Hm); [auto|]. apply (Hs h g hd hdg (k, b) e); auto. }
    split; [|split].
    - rewrite Hh, update_length. exact Hl.
    - intros g hdg kg bg Hng Hpg. rewrite Hh in Hng. destruct (Nat.eq_dec h g) as [<-|Hne].
      + rewrite plive_update_same in Hpg by exact Hlt. injection Hpg as <- <-. replace hdg with hd by congruence.
        rewrite <- Ha. exact (hwf_rebuild st st' hd k b (Hw _ _ _ _ Hn Hp) (mod_only_grown _ _ _ _ _ Hm) Hbl Hperm).
      + rewrite plive_update_other in Hpg by exact Hne.
        apply (hwf_frame st st' hd); [exact Hm|apply (Hs h g hd hdg (k, b) (kg, bg)); auto|eapply Hw; eauto].
    - intros h1 h2 hd1 hd2 e1 e2 Hne H1 H2 P1 P2. rewrite Hh in H1, H2.
      destruct (Hold _ _ _ H1 P1) as (e1' & P1' & I1). destruct (Hold _ _ _ H2 P2) as (e2' & P2' & I2).
      apply (sep_mono st); [apply (Hs h1 h2 hd1 hd2 e1' e2'); auto|exact I1|exact I2].
  Qed.

  (** allocating operation: [r] is the new state and the new handle *)
  Definition allocates (st : hstate) (r : hstate * handle) (k : bool) (b : bins A) : Prop :=
    ext st (fst r) /\ handles (fst r) = handles st /\ hwf (fst r) (snd r) k b /\
    (forall o, h_outer (snd r) = Some o -> (length (outers st) <= o)%nat).

  Lemma allocates_ext st st1 r k b : ext st st1 -> handles st1 = handles st -> allocates st1 r k b -> allocates st r k b.
  Proof.
    intros He Hh (He1 & Hh1 & Hw & Ho). pose proof (ext_grown He) as (_ & _ & L3).
    split; [eapply ext_trans; eauto|split; [congruence|split; [exact Hw|]]].
    intros o Hon. specialize (Ho o Hon). lia.
  Qed.

  (** [r] is built from new objects and objects of the handles hds: its outer list is new (by [allocates]),
      its buffer and each of its inner lists is new or belongs to one of hds *)
  Definition built_from (st : hstate) (hds : list handle) (r : hstate * handle) (k : bool) (b : bins A) : Prop :=
    allocates st r k b /\
    ((length (bufs st) <= v_buf (h_view (snd r)))%nat \/
     exists hd, In hd hds /\ v_buf (h_view (snd r)) = v_buf (h_view hd)) /\
    (forall i, In i (ids_of (fst r) (snd r)) ->
       (length (inners st) <= i)%nat \/ exists hd, In hd hds /\ In i (ids_of st hd)).

  (** building in two steps: first an entirely new handle hn, then from hn and hds *)
  Lemma built_from_via st st1 hn kn bn hds r k b :
    built_from st [] (st1, hn) kn bn -> (forall hd, In hd hds -> ids_of st1 hd = ids_of st hd) ->
    built_from st1 (hds ++ [hn]) r k b -> built_from st hds r k b.
  Proof.
    intros ((He & Hh & _) & Hbn & Hin) Hids (Ha & Hb & Hi). cbn [fst snd] in He, Hh, Hbn, Hin.
    pose proof (ext_grown He) as (L1 & L2 & _).
    split; [eapply allocates_ext; eauto|split].
    - destruct Hb as [Hb|(hd & Hd & E)]; [left; lia|].
      apply in_app_or in Hd. destruct Hd as [Hd|[<-|[]]]; [right; eauto|].
      rewrite E. destruct Hbn as [Hbn|(? & [] & _)]. left; exact Hbn.
    - intros i Hi'. destruct (Hi i Hi') as [Hf|(hd & Hd & E)]; [left; lia|].
      apply in_app_or in Hd. destruct Hd as [Hd|[<-|[]]].
      + right. exists hd. rewrite <- (Hids hd Hd). auto.
      + destruct (Hin i E) as [Hf|(? & [] & _)]. left; exact Hf.
  Qed.

  (** the handles whose objects are taken over are live and die (they are among ds) *)
  Lemma inv_alloc st ps ds hds r k b :
    Inv st ps -> built_from st hds r k b ->
    (forall hd, In hd hds -> exists d e, In d ds /\ nth_opt (handles st) d = Some hd /\ plive ps d = Some e) ->
    Inv (add_handle (fst r) (snd r)) (fold_right kill ps ds ++ [Some (k, b)]).
  Proof.
    destruct r as [st1 hn]. unfold built_from, allocates. cbn [fst snd].
    intros (Hl & Hw & Hs) ((He & Hh & Hwn & Ho) & Hb & Hi) Hdy.
    set (ps0 := fold_right kill ps ds). set (st' := add_handle st1 hn).
    assert (Hl0 : length ps0 = length ps) by apply kills_length.
    assert (He' : ext st st') by (eapply ext_trans; [exact He|apply ext_add_handle]).
    assert (Hh' : handles st' = handles st ++ [hn]) by (unfold st', add_handle; cbn [handles]; rewrite Hh; reflexivity).
    assert (Hcases : forall g hdg e, nth_opt (handles st') g = Some hdg -> plive (ps0 ++ [Some (k, b)]) g = Some e ->
              (nth_opt (handles st) g = Some hdg /\ plive ps0 g = Some e) \/ (hdg = hn /\ e = (k, b) /\ g = length ps0)).
    { intros g hdg e Hng Hpg. rewrite Hh' in Hng. apply plive_app_cases in Hpg. destruct Hpg as [[Hlt Hpg]|[-> E]].
      - left. rewrite nth_opt_app_l in Hng by lia. auto.
      - right. replace (length ps0) with (length (handles st)) in Hng by lia. rewrite nth_opt_snoc_last in Hng.
        repeat split; congruence. }
    (* a survivor is separated from the new handle: what that did not allocate belonged to an array that died *)
    assert (Hsep : forall g hdg e, nth_opt (handles st) g = Some hdg -> plive ps0 g = Some e ->
              hwf st hdg (fst e) (snd e) /\ sep st' hdg hn).
    { intros g hdg [kg bg] Hng Hpg. apply plive_kills in Hpg. destruct Hpg as [Hgd Hpg].
      pose proof (Hw _ _ _ _ Hng Hpg) as Wg. split; [exact Wg|].
      assert (Hdead : forall P : handle -> Prop, (exists hd, In hd hds /\ P hd) -> exists hd, P hd /\ sep st hdg hd).
      { intros P (hd & Hin & HP). destruct (Hdy hd Hin) as (d & e & Hd & Hnd & Hpd). exists hd. split; [exact HP|].
        apply (Hs g d hdg hd (kg, bg) e); auto. intros ->. contradiction. }
      repeat split.
      - destruct Hb as [Hb|Hb]; [pose proof (hw_buf Wg); lia|].
        destruct (Hdead _ Hb) as (hd & E & S1 & _). congruence.
      - intros o Hog Hon. pose proof (hw_outer Wg o Hog). specialize (Ho o Hon). lia.
      - intros i H1 H2. rewrite (ids_of_ext He' Wg) in H1.
        destruct (Hi i H2) as [Hf|Hd]; [pose proof (hw_ids Wg i H1); lia|].
        destruct (Hdead _ Hd) as (hd & Hin & _ & _ & S3). exact (S3 i H1 Hin). }
    split; [|split].
    - rewrite Hh', !app_length. cbn [length]. lia.
    - intros g hdg kg bg Hng Hpg. destruct (Hcases g hdg (kg, bg) Hng Hpg) as [[Hng' Hpg']|(-> & E & _)].
      + apply (hwf_ext st); [exact He'|]. apply (Hsep g hdg (kg, bg) Hng' Hpg').
      + injection E as -> ->. apply (hwf_ext st1); [apply ext_add_handle|exact Hwn].
    - intros h1 h2 hd1 hd2 e1 e2 Hne H1 H2 P1 P2.
      destruct (Hcases h1 hd1 e1 H1 P1) as [[H1' P1']|(-> & _ & ->)];
        destruct (Hcases h2 hd2 e2 H2 P2) as [[H2' P2']|(-> & _ & ->)].
      + destruct (Hsep _ _ _ H1' P1') as [W1 _]. destruct (Hsep _ _ _ H2' P2') as [W2 _].
        apply plive_kills in P1', P2'. destruct P1' as [_ P1'], P2' as [_ P2'].
        apply (sep_mono st); [apply (Hs h1 h2 hd1 hd2 e1 e2); assumption| |]; intros i Hi'.
        * rewrite <- (ids_of_ext He' W1). exact Hi'.
        * rewrite <- (ids_of_ext He' W2). exact Hi'.
      + apply (Hsep _ _ _ H1' P1').
      + apply sep_sym. apply (Hsep _ _ _ H2' P2').
      + congruence.
  Qed.

  (** * (c) effect lemmas *)
  (** ** allocation: every construction appends entries to the tables *)
  Definition grow (st : hstate) B (I : list (list A)) O : hstate :=
    mk_hstate (bufs st ++ B) (inners st ++ I) (outers st ++ O) (handles st).

  Lemma ext_grow st B I O : ext st (grow st B I O).
  Proof. repeat split; eexists; reflexivity. Qed.

  (** the handle on a new buffer holding vals, with a new outer list for the contents manager *)
  Definition fresh_handle (st : hstate) (vals : list Z) (keep : bool) : handle :=
    mk_handle (mk_view (length (bufs st)) (length vals)) (if keep then Some (length (outers st)) else None).

  Lemma fresh_sums st hds vals I O :
    built_from st hds (grow st [vals] I O, fresh_handle st vals false) false (map (fun s => (s, [])) vals).
  Proof.
    split; [|split; [left; apply le_n|contradiction]].
    split; [apply ext_grow|split; [reflexivity|split; [|discriminate]]].
    pose proof (hwf_intro (grow st [vals] I O) (fresh_handle st vals false)) as H.
    unfold abs_handle, view_vals, buf_of in H. cbn [grow fresh_handle h_outer h_view v_buf v_len bufs] in H.
    rewrite nth_middle, firstn_all in H. apply H; try discriminate.
    - rewrite app_length. cbn [length]. lia.
    - apply le_n.
    - constructor.
    - contradiction.
  Qed.

  (** the new outer list may hold any distinct allocated inner lists, old (shared) or new *)
  Lemma fresh_contents st vals I ids :
    length ids = length vals -> NoDup ids -> (forall i, In i ids -> (i < length (inners st ++ I))%nat) ->
    allocates st (grow st [vals] I [ids], fresh_handle st vals true) true
              (combine vals (map (fun i => nth i (inners st ++ I) []) ids)).
  Proof.
    intros Hl Hnd Hlt. split; [apply ext_grow|split; [reflexivity|split; [|intros o [= <-]; apply le_n]]].
    pose proof (hwf_intro (grow st [vals] I [ids]) (fresh_handle st vals true)) as H.
    unfold abs_handle, view_vals, buf_of, ids_of, outer_of, inner_of in H.
    cbn [grow fresh_handle h_outer h_view v_buf v_len bufs inners outers] in H.
    rewrite !nth_middle, firstn_all in H. apply H; try assumption.
    - rewrite app_length. cbn [length]. lia.
    - apply le_n.
    - intros o [= <-]. rewrite app_length, nth_middle. cbn [length]. lia.
  Qed.

  Lemma fresh_contents_ids st vals I ids : ids_of (grow st [vals] I [ids]) (fresh_handle st vals true) = ids.
  Proof. unfold ids_of, outer_of. cbn [grow fresh_handle h_outer outers]. apply nth_middle. Qed.

  Lemma fresh_contents_new st hds vals ls : length ls = length vals ->
    built_from st hds (grow st [vals] ls [range_from (length (inners st)) (length ls)], fresh_handle st vals true)
               true (combine vals ls).
  Proof.
    intros Hl. split; [|split; [left; apply le_n|]].
    - pose proof (fresh_contents st vals ls (range_from (length (inners st)) (length ls))) as H.
      rewrite map_nth_range_from in H. apply H; rewrite range_from_seq.
      + rewrite seq_length. exact Hl.
      + apply seq_NoDup.
      + intros i Hi. apply in_seq in Hi. rewrite app_length. lia.
    - cbn [fst snd]. rewrite fresh_contents_ids, range_from_seq. intros i Hi. apply in_seq in Hi. left. lia.
  Qed.

  Lemma combine_repeat {T U} (x : T) (y : U) n : combine (repeat x n) (repeat y n) = repeat (x, y) n.
  Proof. induction n as [|m IH]; simpl; [reflexivity|]. f_equal. exact IH. Qed.

  (** ** new_bins *)
  Lemma new_handle_spec (st : hstate) keep n : built_from st [] (new_handle st keep n) keep (new_bins n).
  Proof.
    unfold new_handle, alloc_buf. cbv beta iota zeta. destruct keep.
    - rewrite alloc_inners_spec. unfold alloc_outer. cbn [bufs inners outers handles].
      pose proof (fresh_contents_new st [] (repeat 0 n) (repeat [] n)) as H.
      rewrite combine_repeat in H. unfold fresh_handle in H. rewrite !repeat_length in *. apply H. reflexivity.
    - pose proof (fresh_sums st [] (repeat 0 n) [] []) as H.
      rewrite map_repeat_eq in H. unfold fresh_handle, grow in H. rewrite repeat_length, !app_nil_r in H. exact H.
  Qed.

  (** ** concatenation (shared by concatenate_bins and add_empty_bins) *)
  Definition concat_handles (st : hstate) (hd1 hd2 : handle) : hstate * handle :=
    let vals := view_vals st (h_view hd1) ++ view_vals st (h_view hd2) in
    match h_outer hd1, h_outer hd2 with
    | Some o1, Some o2 => (grow st [vals] [] [outer_of st o1 ++ outer_of st o2], fresh_handle st vals true)
    | _, _ => (grow st [vals] [] [], fresh_handle st vals false)
    end.

  Lemma concat_handles_spec st hd1 hd2 k b1 b2 :
    hwf st hd1 k b1 -> hwf st hd2 k b2 ->
    (forall i, In i (ids_of st hd1) -> In i (ids_of st hd2) -> False) ->
    built_from st [hd1; hd2] (concat_handles st hd1 hd2) k (b1 ++ b2).
  Proof.
    intros W1 W2 Hdis.
    pose proof (hwf_vals_length W1) as L1. pose proof (hwf_vals_length W2) as L2.
    pose proof (hw_kind W1) as K1. pose proof (hw_kind W2) as K2.
    pose proof (hw_abs W1) as A1. pose proof (hw_abs W2) as A2.
    unfold concat_handles, kind_of, abs_handle in *.
    destruct (h_outer hd1) as [o1|] eqn:E1; destruct (h_outer hd2) as [o2|] eqn:E2; try (exfalso; congruence);
      cbv zeta; [split; [|split; [left; apply le_n|]]|].
    - subst k. pose proof (hwf_ids_length W1) as O1. pose proof (hwf_ids_length W2) as O2.
      pose proof (hw_nodup W1) as N1. pose proof (hw_nodup W2) as N2.
      pose proof (hw_ids W1) as I1. pose proof (hw_ids W2) as I2.
      unfold ids_of in *. rewrite E1 in *. rewrite E2 in *.
      pose proof (fresh_contents st (view_vals st (h_view hd1) ++ view_vals st (h_view hd2)) []
                                 (outer_of st o1 ++ outer_of st o2)) as H.
      rewrite app_nil_r, map_app, combine_app in H by (rewrite map_length; lia).
      change (fun i => nth i (inners st) []) with (inner_of st) in H. rewrite A1, A2 in H. apply H.
      + rewrite !app_length. lia.
      + apply NoDup_app_iff. auto.
      + intros i Hi. apply in_app_or in Hi. destruct Hi; auto.
    - cbn [fst snd]. rewrite fresh_contents_ids. intros i Hi. right.
      apply in_app_or in Hi. destruct Hi; [exists hd1; unfold ids_of; rewrite E1|exists hd2; unfold ids_of; rewrite E2]; cbn [In]; auto.
    - rewrite <- A1, <- A2, <- K1, <- map_app. apply fresh_sums.
  Qed.

  (** ** in-place operations: the written handle *)
  (** bins[i] := (f1 sum, f2 contents): the write of add_item_to_bin and combine_bins *)
  Definition bump_handle (st : hstate) (hd : handle) (i : nat) (f1 : Z -> Z) (f2 : list A -> list A) : hstate :=
    let st1 := set_buf st (v_buf (h_view hd)) (update i f1) in
    match h_outer hd with
    | None => st1
    | Some ou => match nth_opt (outer_of st ou) i with Some inn => set_inner st1 inn f2 | None => st1 end
    end.

  (** g is what the write does to a bin; the sums manager never sees contents other than [] *)
  Lemma bump_handle_spec st hd k b i f1 f2 g :
    hwf st hd k b -> (i < length b)%nat ->
    (k = true -> forall s l, g (s, l) = (f1 s, f2 l)) -> (k = false -> forall s, g (s, []) = (f1 s, [])) ->
    writes st (bump_handle st hd i f1 f2) hd (update i g b).
  Proof.
    intros Hw Hi Hg1 Hg0. rewrite <- (hw_len Hw) in Hi. unfold bump_handle.
    set (st1 := set_buf st (v_buf (h_view hd)) (update i f1)).
    pose proof (buf_of_set_buf_same st _ (update i f1) (hw_buf Hw)) as Eb. fold st1 in Eb.
    destruct k.
    - destruct (hwf_contents_outer Hw) as [ou Ho]. rewrite Ho.
      set (inn := nth i (outer_of st ou) O).
      assert (Hinn : nth_opt (outer_of st ou) i = Some inn) by (apply nth_opt_lt; rewrite (hw_olen Hw ou Ho); exact Hi).
      rewrite Hinn. set (st' := set_inner st1 inn f2).
      assert (Hin : In inn (ids_of st hd)) by (unfold ids_of; rewrite Ho; eapply nth_opt_In; eauto).
      change (buf_of st1 (v_buf (h_view hd))) with (buf_of st' (v_buf (h_view hd))) in Eb.
      split; [reflexivity|split; [eapply mod_only_trans; [apply mod_set_buf|apply mod_set_inner; exact Hin]|]].
      split; [|split; [rewrite Eb; apply update_length|reflexivity]].
      unfold abs_handle, view_vals. rewrite Ho, Eb, firstn_update_lt by exact Hi.
      change (outer_of st' ou) with (outer_of st ou).
      rewrite (map_update_nodup (inner_of st) (inner_of st') f2 (outer_of st ou) i inn), (combine_update f1 f2 g).
      + rewrite <- (hw_abs Hw). unfold abs_handle, view_vals. rewrite Ho. reflexivity.
      + apply Hg1. reflexivity.
      + pose proof (hw_nodup Hw) as Hn. unfold ids_of in Hn. rewrite Ho in Hn. exact Hn.
      + exact Hinn.
      + intros j Hj. exact (inner_of_set_inner_other st1 inn f2 j Hj).
      + exact (inner_of_set_inner_same st1 inn f2 (hw_ids Hw inn Hin)).
    - pose proof (hwf_sums_outer Hw) as Ho. rewrite Ho.
      split; [reflexivity|split; [apply mod_set_buf|]].
      split; [|split; [rewrite Eb; apply update_length|]].
      + unfold abs_handle, view_vals. rewrite Ho, Eb, firstn_update_lt by exact Hi.
        rewrite <- (hw_abs Hw). unfold abs_handle, view_vals. rewrite Ho.
        apply map_update. intros s. symmetry. apply Hg0. reflexivity.
      + unfold ids_of. rewrite Ho. reflexivity.
  Qed.

  Lemma hwf_read {st hd k b i x} : hwf st hd k b -> nth_opt b i = Some x ->
    nth_opt (view_vals st (h_view hd)) i = Some (fst x) /\
    match h_outer hd with
    | Some o => exists inn, nth_opt (outer_of st o) i = Some inn /\ inner_of st inn = snd x
    | None => snd x = []
    end.
  Proof.
    intros Hw. rewrite <- (hw_abs Hw). unfold abs_handle, bin. destruct (h_outer hd) as [o|].
    - rewrite nth_opt_combine, nth_opt_map. destruct (nth_opt (view_vals _ _) i); [|discriminate].
      destruct (nth_opt (outer_of st o) i) as [inn|]; [|discriminate]. intros [= <-]. eauto.
    - rewrite nth_opt_map. destruct (nth_opt (view_vals _ _) i); [|discriminate]. intros [= <-]. auto.
  Qed.

  (** sort_by_ascending_sum: ndarray.sort() through the view (sums manager); the stable argsort applied
      to the sums and, in place, to the outer list (contents manager) *)
  Definition sort_handle (st : hstate) (hd : handle) : hstate :=
    let vals := view_vals st (h_view hd) in
    match h_outer hd with
    | None => set_buf st (v_buf (h_view hd)) (overwrite (sort_asc (fun x => x) vals))
    | Some ou =>
        let perm := sorted_perm vals in
        let st1 := set_buf st (v_buf (h_view hd)) (overwrite (map (fun i => nth i vals 0) perm)) in
        set_outer st1 ou (fun _ => map (fun i => nth i (outer_of st1 ou) O) perm)
    end.

  Lemma sort_handle_spec st hd k b : hwf st hd k b -> writes st (sort_handle st hd) hd (sort_bins b).
  Proof.
    intros Hw. pose proof (hwf_vals_length Hw) as Lv. unfold sort_handle. destruct k.
    - destruct (hwf_contents_outer Hw) as [ou Ho]. rewrite Ho. cbv zeta.
      set (vals := view_vals st (h_view hd)) in *. set (perm := sorted_perm vals).
      set (st1 := set_buf st _ _). set (st' := set_outer st1 ou _).
      pose proof (hwf_ids_length Hw) as Li. unfold ids_of in Li. rewrite Ho in Li.
      assert (Lp : length perm = v_len (h_view hd)) by (unfold perm; rewrite sorted_perm_length; exact Lv).
      assert (Eb : buf_of st' (v_buf (h_view hd)) =
                   overwrite (map (fun i => nth i vals 0) perm) (buf_of st (v_buf (h_view hd)))).
      { change (buf_of st' (v_buf (h_view hd))) with (buf_of st1 (v_buf (h_view hd))).
        apply buf_of_set_buf_same. apply (hw_buf Hw). }
      assert (Eo : outer_of st' ou = map (fun i => nth i (outer_of st ou) O) perm).
      { unfold st'. rewrite outer_of_set_outer_same; [reflexivity|]. apply (hw_outer Hw ou Ho). }
      split; [reflexivity|split; [rewrite Ho; eapply mod_only_trans; [apply mod_set_buf|apply mod_set_outer]|]].
      split; [|split].
      + unfold abs_handle. rewrite Ho. unfold view_vals. rewrite Eb, Eo.
        rewrite <- Lp at 1. rewrite <- (map_length (fun i => nth i vals 0) perm), firstn_overwrite.
        change (inner_of st') with (inner_of st). rewrite map_map.
        rewrite (map_ext (fun i => inner_of st (nth i (outer_of st ou) O))
                         (fun i => nth i (map (inner_of st) (outer_of st ou)) (inner_of st O)))
          by (intros i; symmetry; apply map_nth).
        unfold perm. rewrite sorted_perm_combine by (rewrite map_length; lia).
        rewrite <- (hw_abs Hw). unfold abs_handle, sort_bins. rewrite Ho. reflexivity.
      + rewrite Eb. apply overwrite_length. rewrite map_length, Lp. apply (hw_fit Hw).
      + unfold ids_of. rewrite Ho, Eo. apply sorted_perm_permutes. lia.
    - pose proof (hwf_sums_outer Hw) as Ho. rewrite Ho. cbv zeta.
      set (sorted := sort_asc (fun x => x) (view_vals st (h_view hd))).
      assert (Ls : length sorted = v_len (h_view hd)) by (unfold sorted; rewrite sort_asc_length; exact Lv).
      pose proof (buf_of_set_buf_same st _ (overwrite sorted) (hw_buf Hw)) as Eb.
      split; [reflexivity|split; [apply mod_set_buf|split; [|split]]].
      + unfold abs_handle. rewrite Ho. unfold view_vals. rewrite Eb, <- Ls, firstn_overwrite.
        rewrite <- (hw_abs Hw). unfold abs_handle, sort_bins. rewrite Ho. unfold sorted.
        apply (sort_asc_map (fun s : Z => (s, @nil A)) (fun x => x) fst). intros s. reflexivity.
      + rewrite Eb. apply overwrite_length. rewrite Ls. apply (hw_fit Hw).
      + unfold ids_of. rewrite Ho. reflexivity.
  Qed.

  (** ** copy_bins and remove_bins *)
  Definition copy_handle (st : hstate) (hd : handle) : hstate * handle :=
    let vals := view_vals st (h_view hd) in
    match h_outer hd with
    | None => (grow st [vals] [] [], fresh_handle st vals false)
    | Some ou =>
        let ls := map (inner_of st) (outer_of st ou) in
        (grow st [vals] ls [range_from (length (inners st)) (length ls)], fresh_handle st vals true)
    end.

  Lemma copy_handle_spec st hd k b : hwf st hd k b ->
    built_from st [] (copy_handle st hd) k b.
  Proof.
    intros Hw. pose proof (hwf_vals_length Hw) as Lv.
    pose proof (hw_kind Hw) as K. pose proof (hw_abs Hw) as Ha.
    unfold copy_handle, kind_of, abs_handle in *. destruct (h_outer hd) as [ou|] eqn:Eo; cbv zeta; subst k b.
    - apply fresh_contents_new. rewrite map_length, Lv. apply (hw_olen Hw ou Eo).
    - apply fresh_sums.
  Qed.

  (** a handle on the first m bins of hd: a shorter view on the same buffer and, for the contents
      manager, a new outer list holding the first m inner lists *)
  Lemma prefix_handle st hd k b m O hn :
    hwf st hd k b -> (m <= v_len (h_view hd))%nat ->
    h_view hn = mk_view (v_buf (h_view hd)) m -> kind_of hn = kind_of hd ->
    (forall o, h_outer hn = Some o -> o = length (outers st) /\ O = [firstn m (ids_of st hd)]) ->
    built_from st [hd] (grow st [] [] O, hn) k (firstn m b).
  Proof.
    intros Hw Hm Ev Ek Ho. set (st' := grow st [] [] O).
    pose proof (ext_grow st [] [] O) as He. fold st' in He. pose proof (ext_grown He) as (L1 & L2 & _).
    pose proof (ext_buf _ _ _ He (hw_buf Hw)) as Eb. pose proof (hw_buf Hw) as Hb. pose proof (hw_fit Hw) as Hf.
    assert (Ei : forall o, h_outer hn = Some o -> outer_of st' o = firstn m (ids_of st hd)).
    { intros o E. destruct (Ho o E) as [-> ->]. apply nth_middle. }
    assert (Hin : forall i, In i (ids_of st' hn) -> In i (ids_of st hd)).
    { intros i. unfold ids_of at 1. destruct (h_outer hn) as [o|]; [|contradiction]. rewrite (Ei o eq_refl). apply In_firstn. }
    assert (Ea : abs_handle st' hn = firstn m b).
    { rewrite <- (hw_abs Hw). pose proof (hw_ids Hw) as Hi. revert Ek Ei Hi.
      unfold abs_handle, view_vals, kind_of, ids_of, bin. rewrite Ev. cbn [v_buf v_len]. rewrite Eb.
      destruct (h_outer hn) as [o'|], (h_outer hd) as [o|]; try discriminate; intros _ Ei Hi.
      - rewrite (Ei o' eq_refl), combine_firstn, firstn_firstn, Nat.min_l, firstn_map by exact Hm. f_equal.
        apply map_ext_in. intros i Hi'. apply (ext_inner _ _ _ He). apply Hi. eapply In_firstn; eauto.
      - rewrite firstn_map, firstn_firstn, Nat.min_l by exact Hm. reflexivity. }
    split; [split; [exact He|split; [reflexivity|split]]|split]; cbn [fst snd].
    - rewrite <- Ea, <- (hw_kind Hw), <- Ek. apply hwf_intro; rewrite ?Ev; cbn [v_buf v_len].
      + lia.
      + rewrite Eb. lia.
      + intros o E. destruct (Ho o E) as [-> ->]. unfold st', grow, outer_of. cbn [outers]. rewrite app_length, nth_middle, firstn_length.
        assert (K : k = true) by (rewrite <- (hw_kind Hw), <- Ek; unfold kind_of; rewrite E; reflexivity). subst k.
        pose proof (hwf_ids_length Hw). cbn [length]. lia.
      + unfold ids_of. destruct (h_outer hn) as [o|]; [|constructor]. rewrite (Ei o eq_refl). apply NoDup_firstn, (hw_nodup Hw).
      + intros i Hi. pose proof (hw_ids Hw i (Hin i Hi)). lia.
    - intros o E. destruct (Ho o E) as [-> _]. apply le_n.
    - right. exists hd. rewrite Ev. cbn [In v_buf]. auto.
    - intros i Hi. right. exists hd. cbn [In]. auto.
  Qed.

  Definition remove_handle (st : hstate) (hd : handle) (n : nat) : hstate * handle :=
    let v := mk_view (v_buf (h_view hd)) (v_len (h_view hd) - n) in
    match h_outer hd with
    | None => (grow st [] [] [], mk_handle v None)
    | Some ou =>
        let old := outer_of st ou in
        (grow st [] [] [firstn (length old - n) old], mk_handle v (Some (length (outers st))))
    end.

  Lemma remove_handle_spec st hd k b n : hwf st hd k b ->
    built_from st [hd] (remove_handle st hd n) k (remove_bins b n).
  Proof.
    intros Hw. unfold remove_bins, remove_handle. rewrite <- (hw_len Hw).
    destruct (h_outer hd) as [ou|] eqn:Eo; cbv zeta; rewrite ?(hw_olen Hw ou Eo);
      apply (prefix_handle st hd k b); try exact Hw; try lia; try reflexivity; unfold kind_of, ids_of; rewrite Eo; cbn [h_outer].
    - reflexivity.
    - intros o [= <-]. split; reflexivity.
    - reflexivity.
    - discriminate.
  Qed.

  (** ** the allocating branches of [step], as [add_handle] of the constructions above *)
  Lemma step_copy_eq st h hd : nth_opt (handles st) h = Some hd ->
    step valueof st (OpCopy h) = add_handle (fst (copy_handle st hd)) (snd (copy_handle st hd)).
  Proof.
    intros Hn. cbn [step]. rewrite Hn. unfold copy_handle, alloc_buf, grow. cbv beta iota zeta.
    destruct (h_outer hd) as [ou|]; [|rewrite !app_nil_r; reflexivity].
    rewrite alloc_inners_spec. unfold alloc_outer. reflexivity.
  Qed.

  Lemma step_remove_eq st h hd n : nth_opt (handles st) h = Some hd ->
    step valueof st (OpRemove h n) = add_handle (fst (remove_handle st hd n)) (snd (remove_handle st hd n)).
  Proof.
    intros Hn. cbn [step]. rewrite Hn. unfold remove_handle, alloc_outer, grow, add_handle. cbv beta iota zeta.
    destruct (h_outer hd) as [ou|]; cbn [fst snd bufs inners outers handles]; rewrite ?app_nil_r; reflexivity.
  Qed.

  Lemma step_concat_eq st h1 h2 hd1 hd2 :
    nth_opt (handles st) h1 = Some hd1 -> nth_opt (handles st) h2 = Some hd2 -> kind_of hd1 = kind_of hd2 ->
    step valueof st (OpConcat h1 h2) = add_handle (fst (concat_handles st hd1 hd2)) (snd (concat_handles st hd1 hd2)).
  Proof.
    intros H1 H2 K. cbn [step]. rewrite H1, H2. unfold concat_handles, alloc_buf, alloc_outer, grow, kind_of in *.
    cbv beta iota zeta. destruct (h_outer hd1) as [o1|]; destruct (h_outer hd2) as [o2|]; try discriminate;
      rewrite !app_nil_r; reflexivity.
  Qed.

  Lemma step_addempty_eq st h hd n :
    nth_opt (handles st) h = Some hd ->
    let r := new_handle st (kind_of hd) n in kind_of (snd r) = kind_of hd ->
    step valueof st (OpAddEmpty h n) = add_handle (fst (concat_handles (fst r) hd (snd r))) (snd (concat_handles (fst r) hd (snd r))).
  Proof.
    intros Hn r. cbn [step]. rewrite Hn.
    change (match h_outer hd with Some _ => true | None => false end) with (kind_of hd). fold r.
    destruct r as [st1 hn]. cbn [fst snd]. intros K.
    unfold concat_handles, alloc_buf, alloc_outer, grow, kind_of in *.
    cbv beta iota zeta. destruct (h_outer hd) as [o1|]; destruct (h_outer hn) as [o2|]; try discriminate;
      rewrite !app_nil_r; reflexivity.
  Qed.

  (** ** the in-place branches of [step] *)
  Lemma step_add_eq st h hd x i : nth_opt (handles st) h = Some hd -> (i < v_len (h_view hd))%nat ->
    step valueof st (OpAdd h x i) = bump_handle st hd i (fun s => s + valueof x) (fun l => l ++ [x]).
  Proof. intros Hn Hi. cbn [step]. rewrite Hn, (proj2 (Nat.ltb_lt _ _) Hi). reflexivity. Qed.

  Lemma step_sort_eq st h hd : nth_opt (handles st) h = Some hd -> step valueof st (OpSort h) = sort_handle st hd.
  Proof. intros Hn. cbn [step]. rewrite Hn. reflexivity. Qed.

  Lemma step_combine_eq st h1 i1 h2 i2 hd1 hd2 k b1 b2 x :
    nth_opt (handles st) h1 = Some hd1 -> nth_opt (handles st) h2 = Some hd2 ->
    hwf st hd1 k b1 -> hwf st hd2 k b2 -> (i1 < length b1)%nat -> nth_opt b2 i2 = Some x ->
    step valueof st (OpCombine h1 i1 h2 i2) = bump_handle st hd1 i1 (fun s => s + fst x) (fun l => l ++ snd x).
  Proof.
    intros N1 N2 W1 W2 Hi1 Ex. pose proof (nth_opt_Some_lt _ _ _ Ex) as Hi2.
    rewrite <- (hw_len W1) in Hi1. rewrite <- (hw_len W2) in Hi2.
    destruct (hwf_read W2 Ex) as [Ev Hc].
    cbn [step]. rewrite N1, N2, (proj2 (Nat.ltb_lt _ _) Hi1), (proj2 (Nat.ltb_lt _ _) Hi2). cbn [andb].
    rewrite (nth_opt_nth _ _ _ 0 Ev). unfold bump_handle.
    pose proof (hw_kind W1) as K1. pose proof (hw_kind W2) as K2. unfold kind_of in K1, K2.
    destruct (h_outer hd1) as [o1|], (h_outer hd2) as [o2|]; try congruence.
    destruct Hc as (in2 & E2 & <-). unfold outer_of in *. cbn [set_buf outers]. rewrite E2.
    destruct (nth_opt (nth o1 (outers st) []) i1); reflexivity.
  Qed.

  (** * (d) the one-step simulation *)
  Lemma sim_new st ps keep n : Inv st ps ->
    Inv (step valueof st (OpNew keep n)) (pure_step valueof ps (OpNew keep n)).
  Proof.
    intros HI. cbn [step pure_step]. pose proof (new_handle_spec st keep n) as Hr.
    destruct (new_handle st keep n) as [st1 hn].
    apply (inv_alloc st ps [] [] (st1, hn)); [exact HI|exact Hr|contradiction].
  Qed.

  Lemma sim_copy st ps h : Inv st ps -> disciplined ps (OpCopy h) ->
    Inv (step valueof st (OpCopy h)) (pure_step valueof ps (OpCopy h)).
  Proof.
    intros HI [[k b] Hp]. destruct (hwf_lookup HI Hp) as (hd & Hn & Hw).
    rewrite (step_copy_eq _ _ _ Hn). cbn [pure_step]. rewrite Hp.
    apply (inv_alloc st ps [] []); [exact HI|apply copy_handle_spec; exact Hw|contradiction].
  Qed.

  Lemma sim_addempty st ps h n : Inv st ps -> disciplined ps (OpAddEmpty h n) ->
    Inv (step valueof st (OpAddEmpty h n)) (pure_step valueof ps (OpAddEmpty h n)).
  Proof.
    intros HI [[k b] Hp]. destruct (hwf_lookup HI Hp) as (hd & Hn & Hw).
    pose proof (new_handle_spec st (kind_of hd) n) as Hr. pose proof Hr as ((He & _ & Hwn & _) & _ & Hin).
    rewrite (step_addempty_eq _ _ _ _ Hn (hw_kind Hwn)). cbn [pure_step]. rewrite Hp.
    destruct (new_handle st (kind_of hd) n) as [st1 hn]. cbn [fst snd] in *.
    rewrite (hw_kind Hw) in Hwn, Hr.
    pose proof (ids_of_ext He Hw) as Ei.
    apply (inv_alloc st ps [h] [hd]); [exact HI| |intros ? [<-|[]]; exists h, (k, b); cbn [In]; auto].
    apply (built_from_via st st1 hn k (new_bins n)); [exact Hr|intros ? [<-|[]]; exact Ei|].
    apply concat_handles_spec; [apply (hwf_ext st); assumption|exact Hwn|].
    intros i H1 H2. rewrite Ei in H1. pose proof (hw_ids Hw i H1).
    destruct (Hin i H2) as [Hf|(? & [] & _)]. lia.
  Qed.

  Lemma sim_remove st ps h n : Inv st ps -> disciplined ps (OpRemove h n) ->
    Inv (step valueof st (OpRemove h n)) (pure_step valueof ps (OpRemove h n)).
  Proof.
    intros HI (k & b & Hp & _). destruct (hwf_lookup HI Hp) as (hd & Hn & Hw).
    rewrite (step_remove_eq _ _ _ _ Hn). cbn [pure_step]. rewrite Hp.
    apply (inv_alloc st ps [h] [hd]); [exact HI|apply remove_handle_spec; exact Hw|].
    intros ? [<-|[]]. exists h, (k, b). cbn [In]. auto.
  Qed.

  Lemma sim_concat st ps h1 h2 : Inv st ps -> disciplined ps (OpConcat h1 h2) ->
    Inv (step valueof st (OpConcat h1 h2)) (pure_step valueof ps (OpConcat h1 h2)).
  Proof.
    intros HI (Hne & k & b1 & b2 & P1 & P2).
    destruct (hwf_lookup HI P1) as (hd1 & N1 & W1).
    destruct (hwf_lookup HI P2) as (hd2 & N2 & W2).
    rewrite (step_concat_eq _ _ _ _ _ N1 N2)
      by (rewrite (hw_kind W1), (hw_kind W2); reflexivity).
    cbn [pure_step]. rewrite P1, P2.
    destruct (inv_sep HI Hne N1 N2 P1 P2) as (_ & _ & S3).
    apply (inv_alloc st ps [h2; h1] [hd1; hd2]); [exact HI|apply concat_handles_spec; assumption|].
    intros ? [<-|[<-|[]]]; [exists h1, (k, b1)|exists h2, (k, b2)]; cbn [In]; auto.
  Qed.

  Lemma sim_add st ps h x i : Inv st ps -> disciplined ps (OpAdd h x i) ->
    Inv (step valueof st (OpAdd h x i)) (pure_step valueof ps (OpAdd h x i)).
  Proof.
    intros HI (k & b & Hp & Hi). destruct (hwf_lookup HI Hp) as (hd & Hn & Hw).
    rewrite (step_add_eq _ _ _ _ _ Hn) by (rewrite (hw_len Hw); exact Hi). cbn [pure_step]. rewrite Hp.
    apply (inv_inplace st ps _ h hd k b); [exact HI|exact Hn|exact Hp|].
    apply (bump_handle_spec st hd k); [exact Hw|exact Hi| |]; intros ->; reflexivity.
  Qed.

  Lemma sim_sort st ps h : Inv st ps -> disciplined ps (OpSort h) ->
    Inv (step valueof st (OpSort h)) (pure_step valueof ps (OpSort h)).
  Proof.
    intros HI [[k b] Hp]. destruct (hwf_lookup HI Hp) as (hd & Hn & Hw).
    rewrite (step_sort_eq _ _ _ Hn). cbn [pure_step]. rewrite Hp.
    apply (inv_inplace st ps _ h hd k b); [exact HI|exact Hn|exact Hp|exact (sort_handle_spec st hd k b Hw)].
  Qed.

  Lemma sim_combine st ps h1 i1 h2 i2 : Inv st ps -> disciplined ps (OpCombine h1 i1 h2 i2) ->
    Inv (step valueof st (OpCombine h1 i1 h2 i2)) (pure_step valueof ps (OpCombine h1 i1 h2 i2)).
  Proof.
    intros HI (k & b1 & b2 & P1 & P2 & Hi1 & Hi2).
    destruct (hwf_lookup HI P1) as (hd1 & N1 & W1).
    destruct (hwf_lookup HI P2) as (hd2 & N2 & W2).
    pose proof (nth_opt_lt b2 i2 (0, []) Hi2) as Ex. set (x := nth i2 b2 (0, [])) in Ex.
    rewrite (step_combine_eq _ _ _ _ _ _ _ _ _ _ _ N1 N2 W1 W2 Hi1 Ex). cbn [pure_step]. rewrite P1, P2.
    unfold combine_bins. rewrite Ex.
    apply (inv_inplace st ps _ h1 hd1 k b1); [exact HI|exact N1|exact P1|].
    apply (bump_handle_spec st hd1 k); [exact W1|exact Hi1|intros _; reflexivity|].
    (* sums manager: bins2[i2] has no contents either *)
    intros -> s. destruct (hwf_read W2 Ex) as [_ Hc]. rewrite (hwf_sums_outer W2) in Hc.
    unfold combine_bin. cbn [fst snd]. rewrite Hc. reflexivity.
  Qed.

  Theorem step_sim st ps o : Inv st ps -> disciplined ps o ->
    Inv (step valueof st o) (pure_step valueof ps o).
  Proof.
    intros HI Hd. destruct o as [keep n|h x i|h|h|h n|h n|h1 h2|h1 i1 h2 i2].
    - apply sim_new; auto.
    - apply sim_add; auto.
    - apply sim_copy; auto.
    - apply sim_sort; auto.
    - apply sim_addempty; auto.
    - apply sim_remove; auto.
    - apply sim_concat; auto.
    - apply sim_combine; auto.
  Qed.

  (** * (e) the fold *)
  Lemma inv_empty : Inv empty_state [].
  Proof.
    split; [reflexivity|split].
    - intros h hd k b Hn. destruct h; discriminate.
    - intros h1 h2 hd1 hd2 e1 e2 _ Hn. destruct h1; discriminate.
  Qed.

  Lemma fold_sim ops : forall st ps, Inv st ps -> disciplined_run valueof ps ops ->
    Inv (fold_left (step valueof) ops st) (fold_left (pure_step valueof) ops ps).
  Proof.
    induction ops as [|o t IH]; intros st ps HI Hd; cbn [fold_left]; [exact HI|].
    destruct Hd as [Ho Ht]. apply IH; [apply step_sim; auto|exact Ht].
  Qed.

  Theorem run_inv ops : disciplined_run valueof [] ops -> Inv (run valueof ops) (pure_run valueof ops).
  Proof. intros Hd. apply fold_sim; [apply inv_empty|exact Hd]. Qed.

  Theorem run_handles_length ops : disciplined_run valueof [] ops ->
    length (handles (run valueof ops)) = length (pure_run valueof ops).
  Proof. intros Hd. apply (run_inv ops Hd). Qed.

  Lemma inv_abs st ps h k b : Inv st ps -> plive ps h = Some (k, b) -> abs st h = Some b.
  Proof.
    intros HI Hp. destruct (hwf_lookup HI Hp) as (hd & Hn & Hw).
    unfold abs. rewrite Hn. rewrite (hw_abs Hw). reflexivity.
  Qed.

  (** C16: every live array shows exactly the documented result *)
  Theorem heap_refines_pure : forall ops, disciplined_run valueof [] ops ->
    forall h k b, plive (pure_run valueof ops) h = Some (k, b) -> abs (run valueof ops) h = Some b.
  Proof. intros ops Hd h k b Hp. eapply inv_abs; [apply run_inv; exact Hd|exact Hp]. Qed.

  (** the boolean discipline test evaluated by the harness (extracted) implies the
      discipline of the theorems *)
  Lemma disciplined_b_sound ps (o : op (A := A)) : disciplined_b ps o = true -> disciplined ps o.
  Proof.
    destruct o as [keep n|h x i|h|h|h n|h n|h1 h2|h1 i1 h2 i2]; cbn [disciplined_b disciplined]; intros H.
    - exact I.
    - destruct (plive ps h) as [[k b]|]; [|discriminate]. exists k, b. split; [reflexivity|apply Nat.ltb_lt; exact H].
    - destruct (plive ps h) as [e|]; [|discriminate]. exists e; reflexivity.
    - destruct (plive ps h) as [e|]; [|discriminate]. exists e; reflexivity.
    - destruct (plive ps h) as [e|]; [|discriminate]. exists e; reflexivity.
    - destruct (plive ps h) as [[k b]|]; [|discriminate]. exists k, b. split; [reflexivity|apply Nat.leb_le; exact H].
    - apply andb_prop in H. destruct H as [Hn H]. split.
      + intros E. subst h2. rewrite Nat.eqb_refl in Hn. discriminate.
      + destruct (plive ps h1) as [[k1 b1]|]; [|discriminate]. destruct (plive ps h2) as [[k2 b2]|]; [|discriminate].
        apply Bool.eqb_prop in H. subst k2. exists k1, b1, b2. split; reflexivity.
    - destruct (plive ps h1) as [[k1 b1]|]; [|discriminate]. destruct (plive ps h2) as [[k2 b2]|]; [|discriminate].
      apply andb_prop in H. destruct H as [H Hi2]. apply andb_prop in H. destruct H as [Hk Hi1].
      apply Bool.eqb_prop in Hk. subst k2. exists k1, b1, b2.
      repeat split; [apply Nat.ltb_lt; exact Hi1|apply Nat.ltb_lt; exact Hi2].
  Qed.

  Lemma disciplined_run_b_sound (ops : list (op (A := A))) : forall ps,
    disciplined_run_b valueof ps ops = true -> disciplined_run valueof ps ops.
  Proof.
    induction ops as [|o t IH]; intros ps H; cbn [disciplined_run_b disciplined_run] in *; [exact I|].
    apply andb_prop in H. destruct H as [Ho Ht]. split; [apply disciplined_b_sound; exact Ho|apply IH; exact Ht].
  Qed.

  (** C16 for the sequences the harness accepts: the boolean test suffices *)
  Theorem heap_refines_pure_b : forall ops, disciplined_run_b valueof [] ops = true ->
    forall h k b, plive (pure_run valueof ops) h = Some (k, b) -> abs (run valueof ops) h = Some b.
  Proof. intros ops Hd. apply heap_refines_pure. apply disciplined_run_b_sound. exact Hd. Qed.

End HeapProofs.

Print Assumptions run_inv.
Print Assumptions run_handles_length.
Print Assumptions heap_refines_pure.
Print Assumptions heap_refines_pure_b.
