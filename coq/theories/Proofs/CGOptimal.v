(** Optimality of the model of complete_greedy.py (property C02): a run without a time
    limit returns a partition whose objective value is the optimum over all partitions,
    for every objective and every combination of the four pruning switches.
    Generic branch-and-bound soundness: branching is complete up to symmetry, every
    prune is admissible, the seen-set only skips vertices whose twin is (or will be)
    explored. *)
From Prtpy Require Import Base.Prelude Model.Binner Model.Objectives Model.CG Model.Greedy
  Spec.Partition Proofs.BaseLemmas Proofs.BinnerLemmas Proofs.ObjectivesProofs
  Proofs.OracleSpec Proofs.CoveringProofs Proofs.CGProofs.
From Coq Require Import Sorting.Sorted Arith ZifyBool.

(** ================= A. completions of a vector of sums ================= *)

(** f is obtained from s by adding each value of vals to some position of s *)
Definition Comp (s vals f : list Z) : Prop :=
  exists ps, map fst ps = vals /\ Forall (fun p => (snd p < length s)%nat) ps /\
             CoveringProofs.lrun ps s = f.

Lemma Comp_nil s f : Comp s [] f <-> f = s.
Proof.
  split.
  - intros (ps & Hm & _ & Hr). destruct ps as [|p ps]; [|discriminate]. symmetry. exact Hr.
  - intros ->. exists []. repeat split. constructor.
Qed.

Lemma Comp_cons s v vals f :
  Comp s (v :: vals) f <->
  exists i, (i < length s)%nat /\ Comp (update i (fun z => z + v) s) vals f.
Proof.
  split.
  - intros (ps & Hm & Hf & Hr). destruct ps as [|[v' i] ps]; [discriminate|].
    cbn [map fst] in Hm. inversion Hm; subst v' vals.
    inversion Hf as [|p ps' Hi Hf']; subst p ps'. cbn [snd] in Hi.
    exists i. split; [exact Hi|]. exists ps. split; [reflexivity|]. split.
    + rewrite update_length. exact Hf'.
    + exact Hr.
  - intros (i & Hi & ps & Hm & Hf & Hr). exists ((v, i) :: ps). split; [cbn [map fst]; rewrite Hm; reflexivity|].
    split.
    + constructor; [exact Hi|]. rewrite update_length in Hf. exact Hf.
    + exact Hr.
Qed.

Lemma Comp_Attainable k vs f : Attainable k vs f <-> Comp (repeat 0 k) vs f.
Proof. unfold Comp. rewrite repeat_length. apply Attainable_pairs. Qed.

(** completions are invariant under permutation of the start vector, up to permutation *)
Lemma Comp_perm vals : forall s s' f, Permutation s s' -> Comp s vals f ->
  exists f', Comp s' vals f' /\ Permutation f f'.
Proof.
  induction vals as [|v vals IH]; intros s s' f P H.
  - apply Comp_nil in H. subst f. exists s'. split; [apply Comp_nil; reflexivity|exact P].
  - apply Comp_cons in H. destruct H as (i & Hi & H).
    destruct (perm_update (fun z => z + v) 0 s s' P i Hi) as (j & Hj & _ & P').
    destruct (IH _ _ f P' H) as (f' & H' & Pf).
    exists f'. split; [|exact Pf]. apply Comp_cons. exists j. split; [exact Hj|exact H'].
Qed.

(** with non-negative values a completion dominates the start vector entrywise, each entry
    grows by at most the total, and the total grows by exactly the total *)
Lemma Comp_bounds vals : Forall (fun v => 0 <= v) vals -> forall s f, Comp s vals f ->
  length f = length s /\ zsum f = zsum s + zsum vals /\
  forall j, nth j s 0 <= nth j f 0 <= nth j s 0 + zsum vals.
Proof.
  induction 1 as [|v vals Hv Hvals IH]; intros s f H.
  - apply Comp_nil in H. subst f. change (zsum []) with 0. split; [reflexivity|]. split; [lia|]. intros j. lia.
  - apply Comp_cons in H. destruct H as (i & Hi & H).
    destruct (IH _ _ H) as (Hl & Hs & Hn). rewrite update_length in Hl.
    pose proof (zsum_nonneg vals Hvals) as Hnn.
    split; [exact Hl|]. split.
    + rewrite Hs, zsum_update by exact Hi. rewrite zsum_cons. lia.
    + intros j. specialize (Hn j). rewrite zsum_cons.
      destruct (Nat.eq_dec i j) as [E|E].
      * subst j. rewrite update_nth_same in Hn by exact Hi. lia.
      * rewrite update_nth_other in Hn by exact E. lia.
Qed.

Lemma nth_le_Forall2 : forall s f : list Z, length f = length s ->
  (forall j, nth j s 0 <= nth j f 0) -> Forall2 Z.le s f.
Proof.
  induction s as [|a s IH]; intros [|c f] Hl Hn; cbn [length] in Hl; try discriminate; constructor.
  - exact (Hn O).
  - apply IH; [lia|]. intros j. exact (Hn (S j)).
Qed.

Lemma Comp_dominates vals s f : Forall (fun v => 0 <= v) vals -> Comp s vals f -> Forall2 Z.le s f.
Proof.
  intros Hv H. destruct (Comp_bounds vals Hv s f H) as (Hl & _ & Hn).
  apply nth_le_Forall2; [exact Hl|]. intros j. apply Hn.
Qed.

Lemma nth_ge_zmin (f : list Z) j : (j < length f)%nat -> zmin f <= nth j f 0.
Proof.
  intros Hj. pose proof (zmin_le f) as H. rewrite Forall_forall in H. apply H. apply nth_In. exact Hj.
Qed.

Lemma nth_le_zmax (f : list Z) j : (j < length f)%nat -> nth j f 0 <= zmax f.
Proof. intros Hj. apply zmax_ge_in. apply nth_In. exact Hj. Qed.

Lemma hd_nth0 (s : list Z) : hd 0 s = nth O s 0.
Proof. destruct s; reflexivity. Qed.

Lemma skipn_S_tail {T} (x : T) t : forall d l, skipn d l = x :: t -> skipn (S d) l = t.
Proof.
  induction d as [|d IH]; intros l H.
  - cbn [skipn] in H. subst l. reflexivity.
  - destruct l as [|y l]; [discriminate|]. cbn [skipn] in H. apply IH in H.
    change (skipn (S (S d)) (y :: l)) with (skipn (S d) l). exact H.
Qed.

(** adding to an entry that stays below the maximum keeps the maximum *)
Lemma zmax_update_fits (s : list Z) i v : (i < length s)%nat -> 0 <= v ->
  nth i s 0 + v <= zmax s -> zmax (update i (fun z => z + v) s) = zmax s.
Proof.
  intros Hi Hv Hfit. set (s' := update i (fun z => z + v) s).
  assert (Hl : length s' = length s) by apply update_length.
  assert (Hnth : forall j, (j < length s)%nat -> nth j s 0 <= nth j s' 0 <= zmax s).
  { intros j Hj. unfold s'. pose proof (nth_le_zmax s j Hj). destruct (Nat.eq_dec i j) as [<-|E].
    - rewrite update_nth_same by exact Hi. lia.
    - rewrite update_nth_other by exact E. lia. }
  assert (Hne : s <> []) by (intros ->; cbn [length] in Hi; lia).
  assert (Hne' : s' <> []) by (intros E; rewrite E in Hl; cbn [length] in Hl; lia).
  apply Z.le_antisymm.
  - destruct (In_nth _ _ 0 (zmax_in _ Hne')) as (j & Hj & Ej). rewrite <- Ej. apply Hnth. lia.
  - destruct (In_nth _ _ 0 (zmax_in _ Hne)) as (j & Hj & Ej). rewrite <- Ej.
    etransitivity; [apply Hnth; exact Hj|apply nth_le_zmax; lia].
Qed.

Lemma fold_update0 vals : forall s : list Z,
  fold_left (fun s0 v => update O (fun z => z + v) s0) vals s = update O (fun z => z + zsum vals) s.
Proof.
  induction vals as [|v vals IH]; intros s; cbn [fold_left].
  - change (zsum []) with 0. destruct s as [|a s]; cbn [update]; [reflexivity|]. f_equal. lia.
  - rewrite IH, zsum_cons. destruct s as [|a s]; cbn [update]; [reflexivity|]. f_equal. lia.
Qed.

Section CGOptimal.
  Context {A : Type} (valueof : A -> Z).

  (** ================= B. branching is complete, prunes are admissible ================= *)
  Section Bounds.
    Variables (keep : bool) (o : objective) (flags : cg_flags) (k : nat).
    Hypothesis Hk : (1 <= k)%nat.

    Lemma cg_sums_nonempty (b : bins A) : length b = k -> sums b <> [].
    Proof.
      intros Hl E. apply (f_equal (@length Z)) in E. rewrite sums_length, Hl in E.
      cbn [length] in E. lia.
    Qed.

    (** every completion of a vertex is, up to the order of the bins, a completion of
        one of its k potential children *)
    Theorem cg_branching_complete : forall (b : bins A) x vals f, length b = k ->
      Comp (sums b) (valueof x :: vals) f ->
      exists bi f', (bi < k)%nat /\ Comp (sums (cg_child valueof keep b x bi)) vals f' /\
                    Permutation f f'.
    Proof.
      intros b x vals f Hl H. apply Comp_cons in H. destruct H as (i & Hi & H).
      rewrite sums_length, Hl in Hi.
      destruct (Comp_perm vals (update i (fun z => z + valueof x) (sums b))
                  (sums (cg_child valueof keep b x i)) f) as (f' & H' & P).
      - symmetry. apply cg_child_sums.
      - exact H.
      - exists i, f'. auto.
    Qed.

    (** the fast bound never exceeds the value of a completion of that child *)
    Theorem cg_fast_bound_admissible : forall (cur : list Z) x R bi vals lbv f,
      length cur = k -> (bi < k)%nat -> 0 <= valueof x -> Forall (fun v => 0 <= v) vals ->
      R = zsum vals ->
      cg_fast_lb valueof o flags k bi cur x R = Some lbv ->
      Comp (update bi (fun z => z + valueof x) cur) vals f ->
      lbv <= value o f false.
    Proof.
      intros cur x R bi vals lbv f Hl Hbi Hx Hv HR E H.
      destruct (Comp_bounds vals Hv _ _ H) as (Hlf & _ & Hn). rewrite update_length in Hlf.
      unfold cg_fast_lb in E. destruct (use_fast_lower_bound flags); [|discriminate].
      destruct o as [| | |kk|kk]; try discriminate.
      - (* MaxSmallest *)
        inversion E as [E']. clear E E'. unfold value, head0. rewrite hd_nth0.
        pose proof (Hn O) as H0. pose proof (nth_ge_zmin f O ltac:(lia)) as Hz0.
        destruct bi as [|bi'].
        + rewrite update_nth_same in H0 by lia.
          destruct (Nat.ltb 1 k) eqn:E1.
          * apply Nat.ltb_lt in E1. pose proof (Hn 1%nat) as H1.
            rewrite update_nth_other in H1 by lia.
            pose proof (nth_ge_zmin f 1%nat ltac:(lia)) as Hz1. lia.
          * lia.
        + rewrite update_nth_other in H0 by lia. lia.
      - (* MinLargest *)
        inversion E as [E']. clear E E'. unfold value, last0. apply Z.max_lub.
        + pose proof (Hn bi) as Hb. rewrite update_nth_same in Hb by lia.
          pose proof (nth_le_zmax f bi ltac:(lia)). lia.
        + assert (Hne : cur <> []) by (intros ->; cbn [length] in Hl; lia).
          pose proof (last_In cur 0 Hne) as Hin.
          apply (In_nth _ _ 0) in Hin. destruct Hin as (j & Hj & Ej).
          pose proof (Hn j) as Hb. pose proof (nth_le_zmax f j ltac:(lia)) as Hm.
          destruct (Nat.eq_dec bi j) as [Eq|Eq].
          * subst j. rewrite update_nth_same in Hb by lia. lia.
          * rewrite update_nth_other in Hb by exact Eq. lia.
    Qed.

    (** the objective's lower bound on the child never exceeds the value of a completion *)
    Lemma cg_lower_bound_prune_sound (b : bins A) x bi R vals lb f :
      length b = k -> (bi < k)%nat -> 0 <= valueof x -> Forall (fun v => 0 <= v) vals ->
      R = zsum vals ->
      lower_bound o (sums (cg_child valueof keep b x bi)) R true = Some lb ->
      Comp (update bi (fun z => z + valueof x) (sums b)) vals f ->
      lb <= value o f false.
    Proof.
      intros Hl Hbi Hx Hv HR E H.
      destruct (Comp_perm vals (update bi (fun z => z + valueof x) (sums b))
                  (sums (cg_child valueof keep b x bi)) f) as (f' & H' & P).
      - symmetry. apply cg_child_sums.
      - exact H.
      - rewrite (value_perm o f f' P).
        destruct (Comp_bounds vals Hv _ _ H') as (_ & Hs & _).
        apply (lower_bound_admissible o (sums (cg_child valueof keep b x bi)) f' R true lb).
        + apply cg_sums_nonempty. rewrite cg_child_length. exact Hl.
        + intros _. apply cg_child_sorted.
        + apply (Comp_dominates vals); assumption.
        + rewrite Hs, HR. reflexivity.
        + exact E.
    Qed.

    Lemma cg_pruned_sound (b : bins A) x bi R vals bestv f :
      length b = k -> (bi < k)%nat -> 0 <= valueof x -> Forall (fun v => 0 <= v) vals ->
      R = zsum vals ->
      cg_pruned valueof keep o flags k bi b (sums b) x R bestv = true ->
      Comp (update bi (fun z => z + valueof x) (sums b)) vals f ->
      exists bv, bestv = Some bv /\ bv <= value o f false.
    Proof.
      intros Hl Hbi Hx Hv HR E H. unfold cg_pruned in E. apply orb_true_iff in E.
      destruct E as [E|E].
      - destruct (cg_fast_lb valueof o flags k bi (sums b) x R) as [lbv|] eqn:Ef; [|discriminate].
        destruct bestv as [bv|]; [|discriminate]. cbn [lb_ge_bestv ge_bestv] in E.
        exists bv. split; [reflexivity|].
        pose proof (cg_fast_bound_admissible (sums b) x R bi vals lbv f) as Hadm.
        rewrite sums_length in Hadm. specialize (Hadm Hl Hbi Hx Hv HR Ef H). lia.
      - apply andb_true_iff in E. destruct E as [_ E].
        destruct (lower_bound o (sums (cg_child valueof keep b x bi)) R true) as [lb|] eqn:El;
          [|discriminate].
        destruct bestv as [bv|]; [|discriminate]. cbn [lb_ge_bestv ge_bestv] in E.
        exists bv. split; [reflexivity|].
        pose proof (cg_lower_bound_prune_sound b x bi R vals lb f Hl Hbi Hx Hv HR El H). lia.
    Qed.

    (** heuristic 3 *)
    Lemma cg_sums_fold_add0 rest : forall b : bins A,
      sums (fold_left (fun bb y => add_item valueof keep bb y O) rest b) =
      fold_left (fun s0 v => update O (fun z => z + v) s0) (map valueof rest) (sums b).
    Proof.
      induction rest as [|x t IH]; intros b; cbn [fold_left map]; [reflexivity|].
      rewrite IH, add_item_sums. reflexivity.
    Qed.

    Lemma cg_h3bins_sums rest (b : bins A) :
      Permutation (sums (cg_h3bins valueof keep rest b))
                  (update O (fun z => z + zsum (map valueof rest)) (sums b)).
    Proof.
      unfold cg_h3bins. rewrite sort_bins_sums_perm, cg_sums_fold_add0, fold_update0. reflexivity.
    Qed.

    (** the heuristic-3 leaf "everything into the smallest bin" keeps the largest sum *)
    Lemma h3_leaf_max (b : bins A) rest : length b = k -> StronglySorted Z.le (sums b) ->
      Forall (fun v => 0 <= v) (map valueof rest) ->
      zsum (map valueof rest) + head0 (sums b) <= last0 (sums b) ->
      zmax (sums (cg_h3bins valueof keep rest b)) = zmax (sums b).
    Proof.
      intros Hl Hs Hv Hle. rewrite (zmax_perm _ _ (cg_h3bins_sums rest b)).
      unfold head0, last0 in Hle. rewrite hd_nth0, (last_sorted_zmax _ Hs) in Hle.
      apply zmax_update_fits; [rewrite sums_length; lia|apply zsum_nonneg; exact Hv|lia].
    Qed.

    (** when heuristic 3 fires, that leaf is at least as good as every completion of the vertex *)
    Theorem cg_h3_sound : forall (b : bins A) rest f,
      length b = k -> StronglySorted Z.le (sums b) ->
      Forall (fun v => 0 <= v) (map valueof rest) ->
      cg_h3_cond valueof o flags rest (sums b) = true ->
      Comp (sums b) (map valueof rest) f ->
      value o (sums (cg_h3bins valueof keep rest b)) false <= value o f false.
    Proof.
      intros b rest f Hl Hs Hv Hc H. unfold cg_h3_cond in Hc.
      apply andb_true_iff in Hc. destruct Hc as [Hc Hle].
      apply andb_true_iff in Hc. destruct Hc as [_ Ho].
      destruct o as [| | |kk|kk]; try discriminate. clear Ho. unfold value.
      rewrite (h3_leaf_max b rest Hl Hs Hv) by lia.
      (* a completion dominates the vertex entrywise *)
      destruct (Comp_bounds _ Hv _ _ H) as (Hlf & _ & Hn).
      destruct (In_nth _ _ 0 (zmax_in _ (cg_sums_nonempty b Hl))) as (j & Hj & Ej). rewrite <- Ej.
      etransitivity; [apply Hn|apply nth_le_zmax; lia].
    Qed.

    (** the global lower bound *)
    Theorem cg_glb_admissible : forall vals g f, Forall (fun v => 0 <= v) vals ->
      lower_bound o (repeat 0 k) (zsum vals) true = Some g ->
      Attainable k vals f -> g <= value o f false.
    Proof.
      intros vals g f Hv E H. apply Comp_Attainable in H.
      destruct (Comp_bounds vals Hv _ _ H) as (_ & Hs & _).
      apply (lower_bound_admissible o (repeat 0 k) f (zsum vals) true g).
      - destruct k as [|n]; [lia|discriminate].
      - intros _. apply cg_repeat0_sorted.
      - apply (Comp_dominates vals); assumption.
      - exact Hs.
      - exact E.
    Qed.
  End Bounds.

  (** ================= C. the search invariant ================= *)
  Section Search.
    Variables (keep : bool) (o : objective) (flags : cg_flags) (k : nat) (glb : option Z).
    Variable sorted : list A.
    Hypothesis Hk : (1 <= k)%nat.
    Hypothesis Hnn : Forall (fun x => 0 <= valueof x) sorted.
    Hypothesis Hglb : forall g f, glb = Some g ->
      Comp (repeat 0 k) (map valueof sorted) f -> g <= value o f false.
    Notation explore := (cg_explore valueof keep o flags None k glb).
    Notation children := (cg_children valueof keep o flags k).

    (** the values still to be placed at depth d *)
    Definition vals_at (d : nat) : list Z := map valueof (skipn d sorted).

    Lemma vals_at_nonneg d : Forall (fun v => 0 <= v) (vals_at d).
    Proof.
      unfold vals_at. rewrite Forall_map.
      pose proof Hnn as H. rewrite <- (firstn_skipn d sorted) in H.
      apply Forall_app in H. exact (proj2 H).
    Qed.

    (** the incumbent value fv is at least as good as every completion of (s, vals) *)
    Definition CovV (fv : option Z) (s vals : list Z) : Prop :=
      forall f, Comp s vals f -> exists v, fv = Some v /\ v <= value o f false.

    Lemma CovV_mono fv fv' s vals : better_or_equal fv' fv -> CovV fv s vals -> CovV fv' s vals.
    Proof.
      intros Hb H f Hf. destruct (H f Hf) as (v & E & Hv). subst fv.
      destruct fv' as [v'|]; cbn in Hb; [|contradiction]. exists v'. split; [reflexivity|lia].
    Qed.

    Lemma CovV_perm fv s s' vals : Permutation s s' -> CovV fv s vals -> CovV fv s' vals.
    Proof.
      intros P H f Hf.
      destruct (Comp_perm vals s' s f (Permutation_sym P) Hf) as (f' & Hf' & Pf).
      destruct (H f' Hf') as (v & E & Hv). exists v. split; [exact E|].
      rewrite (value_perm o f f' Pf). exact Hv.
    Qed.

    (** a stopped state (only the global bound stops a run without limit) is optimal *)
    Definition GOpt (st : @cg_state A) : Prop :=
      cg_stop st = true -> CovV (cg_bestv st) (repeat 0 k) (vals_at 0).

    (** every recorded state deeper than d has been explored: it is covered *)
    Definition SeenInv (d : nat) (st : @cg_state A) : Prop :=
      forall d' ns, In (d', ns) (cg_seen st) -> (d < d')%nat -> CovV (cg_bestv st) ns (vals_at d').

    Definition Vtx (d : nat) (b : bins A) (rest : list A) : Prop :=
      rest = skipn d sorted /\ length b = k /\ StronglySorted Z.le (sums b).

    (** what exploring the vertices [cs] of depth d from [st] establishes for the final [st'] *)
    Definition Post (d : nat) (cs : list (bins A)) (st st' : @cg_state A) : Prop :=
      GOpt st' /\
      (forall e, In e (cg_seen st') -> In e (cg_seen st) \/ (d < fst e)%nat) /\
      (cg_stop st' = false ->
       SeenInv d st' /\ forall c, In c cs -> CovV (cg_bestv st') (sums c) (vals_at d)).

    (** -- leaves -- *)
    Lemma leaf_spec (b : bins A) st : cg_stop st = false ->
      cg_seen (cg_leaf o None glb b st) = cg_seen st /\
      better_or_equal (cg_bestv (cg_leaf o None glb b st)) (cg_bestv st) /\
      (exists v, cg_bestv (cg_leaf o None glb b st) = Some v /\ v <= value o (sums b) false) /\
      (cg_stop (cg_leaf o None glb b st) = true ->
       exists v g, cg_bestv (cg_leaf o None glb b st) = Some v /\ glb = Some g /\ v <= g).
    Proof.
      intros Hs. rewrite cg_leaf_eq, cg_enter_nolimit by exact Hs.
      cbn [cg_bestv cg_seen cg_first cg_ticks].
      destruct (lt_bestv (value o (sums b) false) (cg_bestv st)) eqn:El;
        cbn [cg_seen cg_bestv cg_stop].
      - split; [reflexivity|]. split; [apply boe_lt_bestv; exact El|].
        split; [exists (value o (sums b) false); split; [reflexivity|lia]|].
        intros Hst. destruct glb as [g|]; [|discriminate].
        exists (value o (sums b) false), g. split; [reflexivity|]. split; [reflexivity|]. lia.
      - split; [reflexivity|]. split; [apply boe_refl|]. split; [|discriminate].
        destruct (cg_bestv st) as [bv|]; cbn [lt_bestv] in El; [|discriminate].
        exists bv. split; [reflexivity|lia].
    Qed.

    Lemma leaf_post d (b bl : bins A) st :
      cg_stop st = false -> SeenInv d st ->
      (forall f, Comp (sums b) (vals_at d) f -> value o (sums bl) false <= value o f false) ->
      Post d [b] st (cg_leaf o None glb bl st).
    Proof.
      intros Hs Hsi Hleaf.
      destruct (leaf_spec bl st Hs) as (Hseen & Hboe & (v & Ev & Hv) & Hstop).
      split; [|split].
      - intros Hst. destruct (Hstop Hst) as (v' & g & Ev' & Eg & Hle).
        intros f Hf. exists v'. split; [exact Ev'|].
        pose proof (Hglb g f Eg Hf) as Hg. lia.
      - intros e He. rewrite Hseen in He. left. exact He.
      - intros _. split.
        + intros d' ns Hin Hd. rewrite Hseen in Hin.
          eapply CovV_mono; [exact Hboe|]. apply Hsi; assumption.
        + intros c [<-|[]] f Hf. exists v. split; [exact Ev|]. specialize (Hleaf f Hf). lia.
    Qed.

    (** -- generation of the children -- *)
    Lemma children_seen_src idxs (b : bins A) cur x R d : forall prev bestv seen e,
      In e (snd (children idxs b cur x R d prev bestv seen)) ->
      In e seen \/
      exists c, In c (fst (children idxs b cur x R d prev bestv seen)) /\ e = (S d, sums c).
    Proof.
      intros prev bestv seen e He. rewrite cg_children_seen in He. apply in_app_or in He.
      destruct He as [He|He]; [right|left; exact He].
      destruct (use_set_of_seen_states flags); [|destruct He].
      apply in_rev, in_map_iff in He. destruct He as (c & Ec & Hc).
      exists c. split; [exact Hc|symmetry; exact Ec].
    Qed.

    (** branching + pruning + skipping lose nothing: if, at the end, the incumbent fv covers
        every generated child and every state of the next depth that was already recorded,
        then it covers every potential child *)
    Section Cover.
      Variables (fv bestv : option Z) (b : bins A) (x : A) (R : Z) (d : nat) (vals : list Z).
      Hypothesis Hlen : length b = k.
      Hypothesis Hx : 0 <= valueof x.
      Hypothesis Hvals : Forall (fun v => 0 <= v) vals.
      Hypothesis HR : R = zsum vals.
      Hypothesis Hfv : better_or_equal fv bestv.

      Definition childs (i : nat) : list Z := update i (fun z => z + valueof x) (sums b).

      Lemma cover_same_sum bi : (bi < k)%nat -> CovV fv (childs bi) vals ->
        forall p i, Some (nth bi (sums b) 0) = Some p -> (i < k)%nat -> nth i (sums b) 0 = p ->
        CovV fv (childs i) vals.
      Proof.
        intros Hbi Hc p i Ep Hi Ei. inversion Ep; subst p.
        eapply CovV_perm; [|exact Hc]. unfold childs.
        apply cg_update_perm; rewrite ?sums_length; try lia. reflexivity.
      Qed.

      Lemma children_cover : forall idxs prev seen,
        (forall i, In i idxs -> (i < k)%nat) ->
        (forall c, In c (fst (children idxs b (sums b) x R d prev bestv seen)) ->
                   CovV fv (sums c) vals) ->
        (forall ns, In (S d, ns) seen -> CovV fv ns vals) ->
        (forall p i, prev = Some p -> (i < k)%nat -> nth i (sums b) 0 = p -> CovV fv (childs i) vals) ->
        forall i, In i idxs -> CovV fv (childs i) vals.
      Proof.
        induction idxs as [|bi idxs IH]; intros prev seen Hidx Hch Hseen Hprev i Hi; [destruct Hi|].
        assert (Hbi : (bi < k)%nat) by (apply Hidx; left; reflexivity).
        assert (Hidx' : forall j, In j idxs -> (j < k)%nat) by (intros j Hj; apply Hidx; right; exact Hj).
        rewrite cg_children_cons in Hch. cbv zeta in Hch.
        destruct (cg_prev_skip prev (nth bi (sums b) 0)) eqn:Ep.
        - (* equal to the previous sum *)
          destruct Hi as [Hi|Hi]; [|eapply IH; eassumption].
          subst i. destruct prev as [p|]; cbn [cg_prev_skip] in Ep; [|discriminate].
          apply Z.eqb_eq in Ep. apply (Hprev p bi eq_refl Hbi Ep).
        - assert (Hthis : CovV fv (childs bi) vals ->
                    (forall c, In c (fst (children idxs b (sums b) x R d (Some (nth bi (sums b) 0))
                                            bestv seen)) -> CovV fv (sums c) vals) ->
                    CovV fv (childs i) vals).
          { intros Hc Hch'. destruct Hi as [Hi|Hi]; [subst i; exact Hc|].
            eapply IH; [exact Hidx'|exact Hch'|exact Hseen|exact (cover_same_sum bi Hbi Hc)|exact Hi]. }
          destruct (cg_pruned valueof keep o flags k bi b (sums b) x R bestv) eqn:Epr.
          + (* pruned by a bound *)
            apply Hthis; [|exact Hch].
            intros f Hf.
            destruct (cg_pruned_sound keep o flags k Hk b x bi R vals bestv f Hlen Hbi Hx Hvals HR Epr Hf)
              as (bv & Eb & Hbv).
            subst bestv. destruct fv as [v|]; cbn in Hfv; [|contradiction].
            exists v. split; [reflexivity|lia].
          + destruct (cg_seen_skip flags d (sums (cg_child valueof keep b x bi)) seen) eqn:Esk.
            * (* an equal state was recorded *)
              apply Hthis; [|exact Hch].
              eapply CovV_perm; [apply cg_child_sums|]. apply Hseen. apply (cg_seen_skip_In flags). exact Esk.
            * (* generated *)
              cbn [fst] in Hch.
              assert (Hnb : CovV fv (childs bi) vals).
              { eapply CovV_perm; [apply cg_child_sums|]. apply Hch. left. reflexivity. }
              destruct Hi as [Hi|Hi]; [subst i; exact Hnb|].
              eapply IH; [exact Hidx'| | |exact (cover_same_sum bi Hbi Hnb)|exact Hi].
              -- intros c Hc. apply Hch. right. exact Hc.
              -- intros ns Hns. unfold cg_seen_add in Hns.
                 destruct (use_set_of_seen_states flags); [|apply Hseen; exact Hns].
                 destruct Hns as [Hns|Hns]; [|apply Hseen; exact Hns].
                 inversion Hns; subst ns. apply Hch. left. reflexivity.
      Qed.

      (** hence it covers the parent *)
      Lemma parent_cover seen :
        (forall c, In c (fst (children (rev (range k)) b (sums b) x R d None bestv seen)) ->
                   CovV fv (sums c) vals) ->
        (forall ns, In (S d, ns) seen -> CovV fv ns vals) ->
        CovV fv (sums b) (valueof x :: vals).
      Proof.
        intros Hch Hseen f Hf. apply Comp_cons in Hf. destruct Hf as (i & Hi & Hf).
        rewrite sums_length, Hlen in Hi.
        refine (children_cover (rev (range k)) None seen _ Hch Hseen _ i _ f Hf).
        - intros j Hj. apply cg_In_rev_range. exact Hj.
        - intros p j Ep. discriminate.
        - apply cg_In_rev_range. exact Hi.
      Qed.
    End Cover.

    (** -- exploration -- *)
    Lemma fold_stopped t d cs : forall st, cg_stop st = true ->
      fold_left (fun s c => explore t d c s) cs st = st.
    Proof.
      induction cs as [|c cs IHcs]; intros st Hs; cbn [fold_left]; [reflexivity|].
      rewrite cg_explore_stopped by exact Hs. apply IHcs. exact Hs.
    Qed.

    Lemma fold_post t d
      (IH : forall b st, Vtx (S d) b t -> GOpt st -> (cg_stop st = false -> SeenInv (S d) st) ->
                         Post (S d) [b] st (explore t (S d) b st)) :
      forall cs st0, Forall (fun c => Vtx (S d) c t) cs -> GOpt st0 ->
        (cg_stop st0 = false -> SeenInv (S d) st0) ->
        Post (S d) cs st0 (fold_left (fun s c => explore t (S d) c s) cs st0).
    Proof.
      induction cs as [|c cs IHcs]; intros st0 Hcs HG Hsi; cbn [fold_left].
      - split; [exact HG|]. split; [intros e He; left; exact He|].
        intros Hs. split; [apply Hsi; exact Hs|]. intros c Hc. destruct Hc.
      - inversion Hcs as [|c' cs' Hc Hcs']; subst c' cs'.
        destruct (IH c st0 Hc HG Hsi) as (HG1 & Hgrow1 & Hpost1).
        destruct (IHcs (explore t (S d) c st0) Hcs' HG1 (fun Hs => proj1 (Hpost1 Hs)))
          as (HGf & Hgrowf & Hpostf).
        split; [exact HGf|]. split.
        + intros e He. destruct (Hgrowf e He) as [H|H]; [|right; exact H].
          apply Hgrow1 in H. exact H.
        + intros Hs. destruct (Hpostf Hs) as (Hsif & Hcov). split; [exact Hsif|].
          intros c' Hc'. destruct Hc' as [Hc'|Hc']; [subst c'|apply Hcov; exact Hc'].
          (* the first child was covered when its subtree was left, and the incumbent only improves *)
          assert (Hs1 : cg_stop (explore t (S d) c st0) = false).
          { destruct (cg_stop (explore t (S d) c st0)) eqn:E; [|reflexivity].
            rewrite (fold_stopped t (S d) cs _ E) in Hs. congruence. }
          eapply CovV_mono; [apply cg_fold_le|]. apply (proj2 (Hpost1 Hs1)). left. reflexivity.
    Qed.

    Lemma explore_post : forall rest d b st, Vtx d b rest -> GOpt st ->
      (cg_stop st = false -> SeenInv d st) -> Post d [b] st (explore rest d b st).
    Proof.
      induction rest as [|x t IH]; intros d b st (Hrest & Hlen & Hsorted) HG Hsi;
        destruct (cg_stop st) eqn:Hs;
        try (rewrite cg_explore_stopped by exact Hs;
             split; [exact HG|]; split; [intros e He; left; exact He|intros Hc; congruence]).
      - (* a complete partition *)
        rewrite cg_explore_nil. apply leaf_post; [exact Hs|apply Hsi; reflexivity|].
        intros f Hf. unfold vals_at in Hf. rewrite <- Hrest in Hf. cbn [map] in Hf.
        apply Comp_nil in Hf. subst f. lia.
      - rewrite cg_explore_cons, cg_enter_nolimit by exact Hs.
        set (st1 := {| cg_best := cg_best st; cg_bestv := cg_bestv st; cg_seen := cg_seen st;
                       cg_stop := false; cg_ticks := S (cg_ticks st); cg_first := cg_first st |}).
        assert (Hvd : vals_at d = valueof x :: map valueof t).
        { unfold vals_at. rewrite <- Hrest. reflexivity. }
        assert (Hvt : vals_at (S d) = map valueof t).
        { unfold vals_at. rewrite (skipn_S_tail x t d sorted (eq_sym Hrest)). reflexivity. }
        pose proof (vals_at_nonneg d) as Hnnd. rewrite Hvd in Hnnd.
        inversion Hnnd as [|v0 l0 Hx Hnnt]; subst v0 l0.
        destruct (cg_h3_cond valueof o flags (x :: t) (sums b)) eqn:Eh3.
        + (* heuristic 3 *)
          refine (leaf_post d b (cg_h3bins valueof keep (x :: t) b) st1 eq_refl (Hsi eq_refl) _).
          intros f Hf. rewrite Hvd in Hf.
          apply (cg_h3_sound keep o flags k Hk b (x :: t) f Hlen Hsorted); [|exact Eh3|exact Hf].
          cbn [map]. constructor; assumption.
        + cbv zeta.
          set (r := children (rev (range k)) b (sums b) x (zsum (map valueof t)) d None
                             (cg_bestv st1) (cg_seen st1)).
          set (st2 := {| cg_best := cg_best st1; cg_bestv := cg_bestv st1; cg_seen := snd r;
                         cg_stop := false; cg_ticks := cg_ticks st1; cg_first := cg_first st1 |}).
          assert (Hsrc : forall e, In e (snd r) ->
                    In e (cg_seen st) \/ exists c, In c (fst r) /\ e = (S d, sums c)).
          { intros e He. apply (children_seen_src _ _ _ _ _ _ _ _ _ e He). }
          assert (Hchv : Forall (fun c => Vtx (S d) c t) (rev (fst r))).
          { apply Forall_rev. eapply Forall_impl; [|apply cg_children_spec]. cbv beta.
            intros c (bi & _ & Ec). subst c. split; [|split].
            - symmetry. apply (skipn_S_tail x t d sorted). symmetry. exact Hrest.
            - rewrite cg_child_length. exact Hlen.
            - apply cg_child_sorted. }
          assert (HG2 : GOpt st2) by (intros Hc; discriminate Hc).
          assert (Hsi2 : cg_stop st2 = false -> SeenInv (S d) st2).
          { intros _ d' ns Hin Hd. change (cg_seen st2) with (snd r) in Hin.
            destruct (Hsrc _ Hin) as [H|(c & _ & Ec)].
            - apply (Hsi eq_refl d' ns H). lia.
            - inversion Ec. lia. }
          destruct (fold_post t d (fun b0 st0 => IH (S d) b0 st0) (rev (fst r)) st2 Hchv HG2 Hsi2)
            as (HGf & Hgrowf & Hpostf).
          set (stf := fold_left (fun s c => explore t (S d) c s) (rev (fst r)) st2) in *.
          assert (Hmono : better_or_equal (cg_bestv stf) (cg_bestv st)).
          { apply (cg_fold_le valueof keep o flags None k glb t (S d) (rev (fst r)) st2). }
          split; [exact HGf|]. split.
          * intros e He. destruct (Hgrowf e He) as [H|H]; [|right; lia].
            change (cg_seen st2) with (snd r) in H.
            destruct (Hsrc _ H) as [H'|(c & _ & Ec)]; [left; exact H'|right].
            subst e. cbn [fst]. lia.
          * intros Hsf. destruct (Hpostf Hsf) as (Hsif & Hcov).
            assert (Hold : forall ns, In (S d, ns) (cg_seen st) ->
                                      CovV (cg_bestv stf) ns (map valueof t)).
            { intros ns Hns. rewrite <- Hvt. eapply CovV_mono; [exact Hmono|].
              apply (Hsi eq_refl (S d) ns Hns). lia. }
            assert (Hnew : forall c, In c (fst r) -> CovV (cg_bestv stf) (sums c) (map valueof t)).
            { intros c Hc. rewrite <- Hvt. apply Hcov. apply -> in_rev. exact Hc. }
            split.
            -- intros d' ns Hin Hd. destruct (Nat.eq_dec d' (S d)) as [E|E].
               ++ subst d'. rewrite Hvt.
                  destruct (Hgrowf _ Hin) as [H|H]; [|cbn [fst] in H; lia].
                  change (cg_seen st2) with (snd r) in H.
                  destruct (Hsrc _ H) as [H'|(c & Hc & Ec)]; [apply Hold; exact H'|].
                  inversion Ec; subst ns. apply Hnew. exact Hc.
               ++ apply Hsif; [exact Hin|lia].
            -- intros c [<-|[]]. rewrite Hvd.
               apply (parent_cover (cg_bestv stf) (cg_bestv st) b x (zsum (map valueof t)) d
                        (map valueof t) Hlen Hx Hnnt eq_refl Hmono (cg_seen st)).
               ++ exact Hnew.
               ++ exact Hold.
    Qed.
    (** at the end of the whole run the incumbent covers the root *)
    Lemma explore_root :
      CovV (cg_bestv (explore sorted O (new_bins k) (cg_init_state flags k)))
           (repeat 0 k) (map valueof sorted).
    Proof.
      destruct (cg_fresh_root (A := A) flags k) as (_ & _ & _ & Hle & Hlen & Hsorted).
      destruct (explore_post sorted O (new_bins k) (cg_init_state flags k)) as (HG & _ & Hpost).
      - split; [reflexivity|]. split; assumption.
      - intros Hc. discriminate Hc.
      - intros _ d' ns Hin Hd. unfold cg_seen_le in Hle. rewrite Forall_forall in Hle.
        apply Hle in Hin. cbn [fst] in Hin. lia.
      - destruct (cg_stop (explore sorted O (new_bins k) (cg_init_state flags k))) eqn:Hst.
        + exact (HG Hst).
        + destruct (Hpost eq_refl) as (_ & Hc). specialize (Hc _ (or_introl eq_refl)).
          rewrite new_bins_sums in Hc. exact Hc.
    Qed.
  End Search.

  (** ================= D. optimality (C02) ================= *)
  (** the returned value is a lower bound of every attainable value (any contents manager) *)
  Theorem cg_optimal_lower : forall keep o flags k items b, (1 <= k)%nat ->
    Forall (fun x => 0 <= valueof x) items ->
    cg valueof keep o flags None k items = Some b ->
    forall s, Attainable k (map valueof items) s -> value o (sums b) false <= value o s false.
  Proof.
    intros keep o flags k items b Hk Hnn E s Hs.
    pose proof (sort_desc_perm valueof items) as Psort.
    assert (Hnn' : Forall (fun x => 0 <= valueof x) (sort_desc valueof items)).
    { eapply Permutation_Forall; [symmetry; exact Psort|exact Hnn]. }
    unfold cg in E. rewrite cg_run_eq in E.
    pose proof (cg_run_bv_ok valueof keep o flags None k items) as Hbv. rewrite cg_run_eq in Hbv.
    destruct (explore_root keep o flags k
                (lower_bound o (repeat 0 k) (zsum (map valueof (sort_desc valueof items))) true)
                (sort_desc valueof items) Hk Hnn') with (f := s) as (v & Ev & Hv).
    - intros g f Eg Hf. apply (cg_glb_admissible o k Hk _ g f) in Eg; [exact Eg| |].
      + rewrite Forall_map. exact Hnn'.
      + apply Comp_Attainable. exact Hf.
    - apply Comp_Attainable. eapply Attainable_perm; [|exact Hs].
      apply Permutation_map. symmetry. exact Psort.
    - rewrite (cg_bv_ok_some o _ b Hbv E) in Ev. inversion Ev; subst v. exact Hv.
  Qed.

  (** MAIN THEOREM (C02): without a time limit, complete greedy returns an optimal partition,
      for every objective and every combination of the pruning switches *)
  Theorem cg_optimal : forall o flags k items b, (1 <= k)%nat ->
    Forall (fun x => 0 <= valueof x) items ->
    cg valueof true o flags None k items = Some b ->
    Opt o k (map valueof items) (value o (sums b) false).
  Proof.
    intros o flags k items b Hk Hnn E. split.
    - exists (sums b). split; [|reflexivity]. apply partition_attainable.
      apply (cg_safe valueof o flags None k items b Hk E).
    - apply (cg_optimal_lower true o flags k items b Hk Hnn E).
  Qed.

  (** the same for the sums-only run *)
  Theorem cg_optimal_sums : forall o flags k items b, (1 <= k)%nat ->
    Forall (fun x => 0 <= valueof x) items ->
    cg valueof false o flags None k items = Some b ->
    Opt o k (map valueof items) (value o (sums b) false).
  Proof.
    intros o flags k items b Hk Hnn E.
    pose proof (cg_erase valueof o flags None k items) as Her. rewrite E in Her.
    destruct (cg valueof true o flags None k items) as [b0|] eqn:E0; [|discriminate].
    cbn [option_map] in Her. inversion Her; subst b. rewrite erase_sums.
    apply (cg_optimal o flags k items b0 Hk Hnn E0).
  Qed.

  Corollary cg_optimal_noseen : forall o flags k items b, (1 <= k)%nat ->
    use_set_of_seen_states flags = false ->
    Forall (fun x => 0 <= valueof x) items ->
    cg valueof true o flags None k items = Some b ->
    Opt o k (map valueof items) (value o (sums b) false).
  Proof. intros o flags k items b Hk _. apply cg_optimal. exact Hk. Qed.

  (** ================= E. heuristic 3: the first solution still has the LPT value ================= *)

  (** LPT keeps the maximum when the remaining total fits on top of the smallest sum *)
  Lemma lpt_max_fits : forall (vals s : list Z), s <> [] -> Forall (fun v => 0 <= v) vals ->
    zmin s + zsum vals <= zmax s -> zmax (fold_left lpt_step vals s) = zmax s.
  Proof.
    induction vals as [|v vals IH]; intros s Hne Hv Hfit; cbn [fold_left]; [reflexivity|].
    inversion Hv as [|v0 l0 Hv0 Hvt]; subst v0 l0. rewrite zsum_cons in Hfit.
    pose proof (zsum_nonneg vals Hvt) as HT.
    destruct (argmin_spec s Hne) as (Hi & Hmin & _).
    assert (Hm : nth (argmin s) s 0 = zmin s).
    { pose proof (zmin_le s) as H1. rewrite Forall_forall in H1, Hmin.
      pose proof (H1 _ (nth_In s 0 Hi)). pose proof (Hmin _ (zmin_in s Hne)). lia. }
    assert (Hmax : zmax (lpt_step s v) = zmax s)
      by (apply zmax_update_fits; [exact Hi|exact Hv0|lia]).
    assert (Hl' : length (lpt_step s v) = length s) by apply update_length.
    rewrite <- Hmax. apply IH; [|exact Hvt|].
    - intros E0. rewrite E0 in Hl'. destruct s; [congruence|discriminate].
    - pose proof (nth_ge_zmin (lpt_step s v) (argmin s) ltac:(lia)) as Hz.
      unfold lpt_step in Hz at 2. rewrite update_nth_same in Hz by exact Hi. lia.
  Qed.

  Lemma lpt_sums_map rest : forall s,
    lpt_sums valueof s rest = fold_left lpt_step (map valueof rest) s.
  Proof. induction rest as [|x t IH]; intros s; cbn [map fold_left]; [reflexivity|apply IH]. Qed.

  Section FirstH3.
    Variables (keep : bool) (flags : cg_flags) (k : nat) (glb : option Z).
    Hypothesis Hk : (1 <= k)%nat.
    Notation explore := (cg_explore valueof keep MinLargest flags None k glb).

    Lemma first_h3_explore : forall rest d b st, cg_fresh k d b st ->
      Forall (fun v => 0 <= v) (map valueof rest) ->
      exists f, cg_first (explore rest d b st) = Some f /\
                zmax (sums f) = zmax (lpt_sums valueof (sums b) rest).
    Proof.
      induction rest as [|x t IH]; intros d b st Hfr Hv.
      - destruct Hfr as (Hs & Hb & Hf & _). exists b.
        rewrite cg_explore_nil, cg_leaf_none by assumption. cbn [cg_first].
        rewrite Hf. split; reflexivity.
      - destruct (cg_h3_cond valueof MinLargest flags (x :: t) (sums b)) eqn:Eh3.
        + (* heuristic 3 fires: both its leaf and LPT keep the current largest sum *)
          destruct Hfr as (Hs & Hb & Hf & _ & Hlen & Hsorted).
          exists (cg_h3bins valueof keep (x :: t) b). split.
          * rewrite cg_explore_cons, cg_enter_nolimit, Eh3 by exact Hs.
            rewrite cg_leaf_none by (try reflexivity; exact Hb). cbn [cg_first].
            rewrite Hf. reflexivity.
          * unfold cg_h3_cond in Eh3. apply andb_true_iff in Eh3. destruct Eh3 as [_ Hle].
            rewrite (h3_leaf_max keep k Hk b (x :: t) Hlen Hsorted Hv) by lia.
            unfold head0, last0 in Hle.
            rewrite (hd_sorted_zmin _ Hsorted), (last_sorted_zmax _ Hsorted) in Hle.
            rewrite lpt_sums_map. symmetry.
            apply lpt_max_fits; [apply (cg_sums_nonempty k Hk); exact Hlen|exact Hv|lia].
        + destruct (cg_descend valueof keep MinLargest flags k glb Hk x t d b st Hfr Eh3)
            as (c & st' & cs & -> & Hfr' & Hq).
          inversion Hv as [|v0 l0 Hx Hvt]; subst v0 l0.
          destruct (IH (S d) c st' Hfr' Hvt) as (f & Ef & Pf).
          exists f. split; [apply cg_fold_le; exact Ef|].
          rewrite Pf. unfold lpt_sums at 2. cbn [fold_left]. apply zmax_perm.
          apply cg_lpt_sums_perm. exact Hq.
    Qed.
  End FirstH3.

  (** for MinLargest the first solution has the LPT objective value, whatever the switches
      (in particular with heuristic 3 active, where its sums may differ from LPT's) *)
  Theorem cg_first_h3_value : forall flags limit k items f, (1 <= k)%nat ->
    Forall (fun x => 0 <= valueof x) items ->
    cg_first (cg_run valueof true MinLargest flags limit k items) = Some f ->
    value MinLargest (sums f) false = value MinLargest (sums (greedy valueof true k items)) false.
  Proof.
    intros flags limit k items f Hk Hnn E.
    apply cg_first_limit in E. rewrite cg_run_eq in E.
    destruct (first_h3_explore true flags k
                (lower_bound MinLargest (repeat 0 k) (zsum (map valueof (sort_desc valueof items))) true)
                Hk (sort_desc valueof items) O (new_bins k) (cg_init_state flags k)
                (cg_fresh_root flags k))
      as (f' & Ef & Pf).
    - rewrite Forall_map. eapply Permutation_Forall; [symmetry; apply sort_desc_perm|exact Hnn].
    - rewrite E in Ef. inversion Ef; subst f'. unfold value. rewrite Pf.
      unfold greedy. rewrite cg_greedy_sums. reflexivity.
  Qed.
End CGOptimal.

(** non-vacuity: the doctest instances of complete_greedy.py *)
Example cg_optimal_ex1 :
  option_map (fun b => value MinDiff (sums b) false)
    (cg (fun v => v) true MinDiff (mk_flags true true false true) None 3 [46; 39; 27; 26; 16; 13; 10])
  = Some 8.
Proof. vm_compute. reflexivity. Qed.

(** the hypothesis "values >= 0" of cg_optimal is necessary: with a negative value the
    bound-based prunes are not admissible (the unpruned search finds max = 0) *)
Example cg_optimal_needs_nonneg :
  option_map (fun b => value MinLargest (sums b) false)
    (cg (fun v => v) true MinLargest (mk_flags true true false true) None 2 [3; -2; -2]) = Some 1
  /\ option_map (fun b => value MinLargest (sums b) false)
    (cg (fun v => v) true MinLargest (mk_flags false false false false) None 2 [3; -2; -2]) = Some 0.
Proof. vm_compute. split; reflexivity. Qed.

Print Assumptions cg_branching_complete.
Print Assumptions cg_fast_bound_admissible.
Print Assumptions cg_h3_sound.
Print Assumptions cg_glb_admissible.
Print Assumptions cg_optimal_lower.
Print Assumptions cg_optimal.
Print Assumptions cg_optimal_sums.
Print Assumptions cg_optimal_noseen.
Print Assumptions cg_first_h3_value.
