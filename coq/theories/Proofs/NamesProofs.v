(** C07: the answer does not depend on how the items are presented.

    Every algorithm of the model is polymorphic in the item type [A] and reads an item only
    through [valueof : A -> Z].  Running it on named items and then forgetting the names
    ([map_bins valueof]) IS the run on the plain values (item type [Z], valueof := [fun v : Z => v]).

    Already proved elsewhere for the contents-keeping binner (NOT re-proved here, see the index at
    the end of this file):
      greedy_names, roundrobin_names            Proofs/GreedyProofs.v
      ff_names, ffd_names, bf_names, bfd_names  Proofs/PackingProofs.v
      dec_names, tt_names, tq_names             Proofs/CoveringProofs.v
      dp_names                                  Proofs/DPProofs.v
    This file adds kk (Karmarkar-Karp), cg (complete greedy, every objective / flag / limit) and
    cbldm, for both binners where the algorithm has a [keep] parameter.  For kk, the complete
    search of ckk and cg the lock-step lemma is stated for ANY map of the bins-arrays with the
    commutation properties the run needs ([KKProofs.kk_map], [KKProofs.ckk_run_map],
    [CGProofs.cg_run_map]): forgetting the names is one instance, forgetting the contents another.

    Convention: plain values use [fun v : Z => v] (notation [idv]) as their valueof, as in the
    files above.  It is convertible with [@id Z] and with [zid].

    The general "stable sort commutes with a key-preserving map" lemmas are
    [BaseLemmas.sort_asc_map] / [BaseLemmas.sort_desc_map]; they are not duplicated: the
    specialisations to the projection [valueof] are [sort_asc_names] / [sort_desc_names]. *)
From Prtpy Require Import Base.Prelude Base.Perms Model.Binner Model.Objectives Model.Greedy Model.Packing
  Model.Covering Model.KK Model.CG Model.DP Model.CBLDM Proofs.BaseLemmas Proofs.BinnerLemmas Proofs.EraseLemmas
  Spec.Partition Proofs.GreedyProofs Proofs.PackingProofs Proofs.CoveringProofs Proofs.DPProofs
  Proofs.KKProofs Proofs.CGProofs Proofs.CBLDMProofs Proofs.CKKOptimal Proofs.MetaProofs.
From Coq Require Import Sorting.Sorted.

Local Notation idv := (fun v : Z => v).

Lemma nm_last_opt_map {T U : Type} (f : T -> U) (l : list T) :
  last_opt (map f l) = option_map f (last_opt l).
Proof. unfold last_opt. rewrite <- map_rev. destruct (rev l) as [|y r]; reflexivity. Qed.

(** * Stable sorts commute with the projection to values *)

Section Names.
  Context {A : Type} (valueof : A -> Z).

  Lemma sort_asc_names (l : list A) : map valueof (sort_asc valueof l) = sort_asc idv (map valueof l).
  Proof. apply (sort_asc_map valueof valueof idv). intros y. reflexivity. Qed.

  Lemma sort_desc_names (l : list A) : map valueof (sort_desc valueof l) = sort_desc idv (map valueof l).
  Proof. apply (sort_desc_map valueof valueof idv). intros y. reflexivity. Qed.

  (** * The projection of bins and its commutation with the bins-array operations *)

  Local Notation mb := (map_bins valueof).

  Definition pbin (bn : bin A) : bin Z := (fst bn, map valueof (snd bn)).

  Lemma mb_map (b : bins A) : mb b = map pbin b.
  Proof. reflexivity. Qed.

  Lemma mb_nil : mb [] = [].
  Proof. reflexivity. Qed.

  Lemma pbin_fst (bn : bin A) : fst (pbin bn) = fst bn.
  Proof. reflexivity. Qed.

  Lemma pbin_snd_length (bn : bin A) : length (snd (pbin bn)) = length (snd bn).
  Proof. unfold pbin. cbn [snd]. apply map_length. Qed.

  Lemma pbin_empty : pbin empty_bin = empty_bin.
  Proof. reflexivity. Qed.

  Lemma pbin_combine (b1 b2 : bin A) : pbin (combine_bin b1 b2) = combine_bin (pbin b1) (pbin b2).
  Proof. unfold pbin, combine_bin. cbn [fst snd]. rewrite map_app. reflexivity. Qed.

  Lemma mb_length (b : bins A) : length (mb b) = length b.
  Proof. unfold map_bins. apply map_length. Qed.

  Lemma mb_rev (b : bins A) : mb (rev b) = rev (mb b).
  Proof. unfold map_bins. apply map_rev. Qed.

  Lemma mb_sort_bins (b : bins A) : mb (sort_bins b) = sort_bins (mb b).
  Proof. unfold sort_bins. rewrite !mb_map. apply sort_asc_map. intros bn. reflexivity. Qed.

  Lemma mb_bin_at (b : bins A) (i : nat) : bin_at (mb b) i = pbin (bin_at b i).
  Proof. unfold bin_at. rewrite mb_map, <- pbin_empty. apply map_nth. Qed.

  Section WithKeep.
    Variable keep : bool.

    (** * Karmarkar-Karp *)

    Lemma mb_singleton_bins (k : nat) (x : A) :
      mb (singleton_bins valueof keep k x) = singleton_bins idv keep k (valueof x).
    Proof. unfold singleton_bins. rewrite map_bins_add_item, map_bins_new_bins. reflexivity. Qed.

    Lemma mb_zip_combine (b1 b2 : bins A) : mb (zip_combine b1 b2) = zip_combine (mb b1) (mb b2).
    Proof. apply (map_zip_combine pbin). exact pbin_combine. Qed.

    Lemma mb_kk_combine (b1 b2 : bins A) : mb (kk_combine b1 b2) = kk_combine (mb b1) (mb b2).
    Proof. unfold kk_combine. rewrite mb_zip_combine, mb_rev. reflexivity. Qed.

    Theorem kk_names (k : nat) (items : list A) :
      rmap (map_bins valueof) (kk valueof keep k items) = kk idv keep k (map valueof items).
    Proof.
      exact (kk_map mb (map_bins_sums valueof) mb_sort_bins valueof idv valueof keep keep (fun _ => eq_refl)
               mb_singleton_bins k items mb_kk_combine).
    Qed.

    (** * complete greedy ([cg_run_map] with G := [map_bins valueof]) *)

    Definition pcg (st : cg_state (A:=A)) : cg_state (A:=Z) :=
      mk_cg (option_map mb (cg_best st)) (cg_bestv st) (cg_seen st) (cg_stop st) (cg_ticks st)
            (option_map mb (cg_first st)).

    Lemma pcg_best st : cg_best (pcg st) = option_map mb (cg_best st).
    Proof. reflexivity. Qed.
    Theorem cg_run_names (o : objective) (flags : cg_flags) (limit : option nat) (k : nat) (items : list A) :
      cg_run idv keep o flags limit k (map valueof items) = pcg (cg_run valueof keep o flags limit k items).
    Proof.
      exact (cg_run_map valueof idv keep keep valueof mb (fun _ => eq_refl) (map_bins_sums valueof) mb_sort_bins
               (map_bins_add_item valueof keep) (map_bins_new_bins valueof) o flags limit k items).
    Qed.

    Theorem cg_names (o : objective) (flags : cg_flags) (limit : option nat) (k : nat) (items : list A) :
      option_map (map_bins valueof) (cg valueof keep o flags limit k items) =
      cg idv keep o flags limit k (map valueof items).
    Proof. unfold cg. rewrite cg_run_names. reflexivity. Qed.
  End WithKeep.

  (** * CBLDM (always a contents-keeping binner) *)

  Definition pcb (st : cb_state (A:=A)) : cb_state (A:=Z) :=
    mk_cb (option_map mb (cb_best st)) (cb_delta st) (cb_opt st) (cb_ticks st).

  Lemma mb_sum_diff (p : bins A) : sum_diff (mb p) = sum_diff p.
  Proof. unfold sum_diff. rewrite !mb_bin_at, !pbin_fst. reflexivity. Qed.

  Lemma mb_len_diff (p : bins A) : len_diff (mb p) = len_diff p.
  Proof. unfold len_diff. rewrite !mb_bin_at, !pbin_snd_length. reflexivity. Qed.

  Lemma pcb_leaf_step (d : Z) (p : bins A) (st : cb_state) :
    leaf_step d (mb p) (pcb st) = pcb (leaf_step d p st).
  Proof.
    unfold leaf_step. rewrite mb_len_diff, mb_sum_diff. change (cb_delta (pcb st)) with (cb_delta st).
    destruct ((len_diff p <=? d) && lt_delta (sum_diff p) (cb_delta st)); reflexivity.
  Qed.

  Lemma pcb_pruned (d : Z) (subs : list (bins A)) (st : cb_state) :
    pruned d (map mb subs) (pcb st) = pruned d subs st.
  Proof.
    unfold pruned, prune_bound. rewrite !map_map.
    rewrite (map_ext _ _ mb_sum_diff), (map_ext _ _ mb_len_diff). reflexivity.
  Qed.

  Lemma mb_reorder (n : nat) (subs : list (bins A)) : reorder n (map mb subs) = map mb (reorder n subs).
  Proof.
    unfold reorder. rewrite map_length. destruct (Nat.leb _ _); [|reflexivity].
    symmetry. apply sort_asc_map. intros p. rewrite mb_sum_diff. reflexivity.
  Qed.

  Lemma mb_merge_bin (x y : bin A) : merge_bin (pbin x) (pbin y) = pbin (merge_bin x y).
  Proof. unfold merge_bin. rewrite !pbin_combine, pbin_empty. reflexivity. Qed.

  Lemma mb_mk_comb (a b : bins A) : mk_comb (mb a) (mb b) = mb (mk_comb a b).
  Proof. unfold mk_comb. rewrite !mb_bin_at, !mb_merge_bin, mb_sort_bins. reflexivity. Qed.

  Lemma mb_mk_split (a b : bins A) : mk_split (mb a) (mb b) = mb (mk_split a b).
  Proof. unfold mk_split. rewrite !mb_bin_at, !mb_merge_bin, mb_sort_bins. reflexivity. Qed.

  Lemma pcb_part (n : nat) (d : Z) (limit : option nat) (fuel : nat) :
    forall (subs : list (bins A)) (st : cb_state),
      cb_part n d limit fuel (map mb subs) (pcb st) = pcb (cb_part n d limit fuel subs st).
  Proof.
    induction fuel as [fuel IH] using lt_wf_ind. intros subs st. rewrite !cb_part_unfold.
    change (tick (pcb st)) with (pcb (tick st)).
    change (stop limit (pcb (tick st))) with (stop limit (tick st)).
    destruct (stop limit (tick st)); [reflexivity|].
    destruct subs as [|p [|q l]]; [reflexivity|apply pcb_leaf_step|].
    change (map mb (p :: q :: l)) with (mb p :: mb q :: map mb l) at 1.
    change (mb p :: mb q :: map mb l) with (map mb (p :: q :: l)).
    rewrite pcb_pruned. destruct (pruned d (p :: q :: l) (tick st)); [reflexivity|].
    rewrite mb_reorder. destruct fuel as [|f]; [reflexivity|].
    destruct (reorder n (p :: q :: l)) as [|a [|b rest]]; [reflexivity|reflexivity|].
    cbn [map]. rewrite mb_mk_comb, mb_mk_split, <- !(map_last mb), !(IH f (Nat.lt_succ_diag_r f)).
    reflexivity.
  Qed.
End Names.

(** projection of the value returned by cbldm *)
Definition map_cbldm_out {A B} (f : A -> B) (o : cbldm_out A) : cbldm_out B :=
  match o with CbPlaceholder => CbPlaceholder | CbBins b => CbBins (map_bins f b) end.

Theorem cbldm_names {A : Type} (valueof : A -> Z) (k : nat) (items : list A) (tl_positive : bool)
        (d : Z) (d_is_int : bool) (limit : option nat) :
  rmap (fun r => (map_cbldm_out valueof (fst r), snd r)) (cbldm valueof k items tl_positive d d_is_int limit) =
  cbldm idv k (map valueof items) tl_positive d d_is_int limit.
Proof.
  unfold cbldm.
  destruct (negb (Nat.eqb k 2)); [reflexivity|].
  destruct (negb tl_positive); [reflexivity|].
  destruct ((d <? 1) || negb d_is_int); [reflexivity|].
  cbv zeta. rewrite <- sort_desc_names, nm_last_opt_map.
  destruct (last_opt (sort_desc valueof items)) as [l|]; cbn [option_map]; [|reflexivity].
  cbv beta. destruct (valueof l <? 0); [reflexivity|].
  rewrite map_length.
  replace (map (fun x : Z => add_item idv true (new_bins 2) x 1) (map valueof (sort_desc valueof items)))
    with (map (map_bins valueof) (map (fun x : A => add_item valueof true (new_bins 2) x 1) (sort_desc valueof items))).
  - change (@mk_cb Z None None false O) with (pcb valueof (@mk_cb A None None false O)).
    rewrite pcb_part. cbn [rmap fst snd].
    match goal with
    | |- context [pcb valueof ?X] => destruct X as [bst dl op tk]
    end.
    destruct bst as [b|]; reflexivity.
  - rewrite !map_map. apply map_ext. intros x.
    rewrite map_bins_add_item, map_bins_new_bins. reflexivity.
Qed.

(** * ckk (and snp / rnp, which call it): what survives of C07

    ckk de-duplicates the combinations of two bins-arrays by the *names* of the items
    ([combo_key], [sort_names]).  With distinct names two items of equal value are different, with
    plain values ([nameof := idv]) they are the same: the named run explores combinations that
    the plain run has dropped, and the contents of the bins are sorted by name, not by value.
    So the exact equation [rmap (map_bins valueof) (ckk valueof nameof true k items) =
    ckk idv idv true k (map valueof items)] is false even for injective names: *)
Example ckk_names_exact_false :
  let items := [(105, 9); (101, 8); (103, 8); (104, 9); (102, 4)] in
  NoDup (map fst items) /\
  rmap (map_bins snd) (ckk snd fst true 2 items) = Ok [(18, [9; 9]); (20, [8; 4; 8])] /\
  ckk idv idv true 2 (map snd items) = Ok [(18, [9; 9]); (20, [4; 8; 8])].
Proof.
  vm_compute. repeat split; try reflexivity.
  repeat (constructor; [intros H; cbn [In] in H; intuition discriminate|]). constructor.
Qed.

(** What is provable from the optimality of ckk (Proofs/CKKOptimal.v) alone: both runs reach the optimal
    difference, so they agree on the objective value; for two bins this determines the sums.
    (Equal sums for every k: Proofs/CKKManagersProofs.v, [ckk_names_sums].) *)
Theorem ckk_names_value {A : Type} (valueof nameof : A -> Z) (k : nat) (items : list A) (b : bins A) (b' : bins Z) :
  (1 <= k)%nat -> items <> [] -> Forall (fun x => 0 <= valueof x) items ->
  names_ok valueof nameof items ->
  ckk valueof nameof true k items = Ok b ->
  ckk idv idv true k (map valueof items) = Ok b' ->
  value MinDiff (sums b) false = value MinDiff (sums b') false.
Proof.
  intros Hk Hne Hpos HN Hb Hb'.
  pose proof (ckk_optimal valueof nameof k items b Hk Hne Hpos HN Hb) as O1.
  assert (Hne' : map valueof items <> []) by (destruct items; [congruence|discriminate]).
  assert (Hpos' : Forall (fun v : Z => 0 <= v) (map valueof items)) by (rewrite Forall_map; exact Hpos).
  pose proof (ckk_optimal_values idv k (map valueof items) b' Hk Hne' Hpos' Hb') as O2.
  rewrite map_id in O2. exact (Opt_unique _ _ _ _ _ O1 O2).
Qed.

(** a result of ckk: a partition whose sums are ascending *)
Lemma ckk_result_shape {A : Type} (valueof nameof : A -> Z) (k : nat) (items : list A) (b : bins A) :
  (1 <= k)%nat -> items <> [] -> ckk valueof nameof true k items = Ok b ->
  length (sums b) = k /\ StronglySorted Z.le (sums b) /\ zsum (sums b) = zsum (map valueof items).
Proof.
  intros Hk Hne Hb.
  destruct (ckk_partition valueof nameof k items Hk Hne) as (b1 & Hb1 & HP & HL & HW).
  rewrite Hb in Hb1. injection Hb1 as <-.
  split; [unfold sums; rewrite map_length; exact HL|]. split.
  - unfold ckk in Hb.
    destruct (ckk_part (ckk_run valueof nameof true true None k items)) as [b0|]; [|discriminate].
    injection Hb as <-. apply sort_bins_sorted.
  - rewrite (wf_total valueof b HW). apply zsum_perm, Permutation_map. exact HP.
Qed.

Theorem ckk_names_sums_2 {A : Type} (valueof nameof : A -> Z) (items : list A) (b : bins A) (b' : bins Z) :
  items <> [] -> Forall (fun x => 0 <= valueof x) items ->
  names_ok valueof nameof items ->
  ckk valueof nameof true 2 items = Ok b ->
  ckk idv idv true 2 (map valueof items) = Ok b' ->
  sums b = sums b'.
Proof.
  intros Hne Hpos HN Hb Hb'.
  pose proof (ckk_names_value valueof nameof 2 items b b' (le_S _ _ (le_n 1)) Hne Hpos HN Hb Hb') as HV.
  assert (Hne' : map valueof items <> []) by (destruct items; [congruence|discriminate]).
  destruct (ckk_result_shape valueof nameof 2 items b (le_S _ _ (le_n 1)) Hne Hb) as (L1 & S1 & T1).
  destruct (ckk_result_shape idv idv 2 (map valueof items) b' (le_S _ _ (le_n 1)) Hne' Hb') as (L2 & S2 & T2).
  rewrite map_id in T2.
  destruct (sums b) as [|s1 [|s2 [|s3 r]]]; try discriminate L1.
  destruct (sums b') as [|t1 [|t2 [|t3 r']]]; try discriminate L2.
  inversion S1 as [|x1 l1 _ F1]; subst x1 l1. apply Forall_inv in F1.
  inversion S2 as [|x2 l2 _ F2]; subst x2 l2. apply Forall_inv in F2.
  cbn [value zmax zmin zmax_list zmin_list] in HV. cbn [zsum fold_right] in T1, T2.
  assert (s1 = t1) by lia. assert (s2 = t2) by lia. subst. reflexivity.
Qed.

(* The general statement
     ckk_names_sums : forall A valueof nameof k items, names_ok valueof nameof items ->
       rmap sums (ckk valueof nameof true k items) = rmap sums (ckk idv idv true k (map valueof items))
   (every k, no hypothesis on the values, also for ckk_generator and for any two presentations of the
   same values) is proved in Proofs/CKKManagersProofs.v ([ckk_names_sums], [ckk_names_sums_gen],
   [ckk_generator_names_sums]); it holds because the children of a CKK search node are de-duplicated
   by their sums (Model/KK.v [ckk_children]): both managers and all presentations explore the same
   tree.  It subsumes [ckk_names_value] and [ckk_names_sums_2] above, which follow from optimality alone.
   The same statement for [snp] and [rnp] (Model/SNP.v): Proofs/SNPNamesProofs.v. *)

(** * Concrete instances (one per family), both sides evaluated *)

Example kk_names_ex :
  let items := [(101, 5); (102, 3); (103, 5); (104, 2); (105, 7); (106, 3)] in
  kk snd true 3 items =
    Ok [(8, [(103, 5); (102, 3)]); (8, [(101, 5); (106, 3)]); (9, [(105, 7); (104, 2)])] /\
  kk idv true 3 (map snd items) = Ok [(8, [5; 3]); (8, [5; 3]); (9, [7; 2])] /\
  rmap (map_bins snd) (kk snd true 3 items) = kk idv true 3 (map snd items) /\
  rmap (map_bins snd) (kk snd false 3 items) = kk idv false 3 (map snd items).
Proof. vm_compute. repeat split; reflexivity. Qed.

Example cg_names_ex :
  let items := [(101, 5); (102, 3); (103, 5); (104, 2); (105, 7); (106, 3)] in
  let fl := mk_flags true true true true in
  cg snd true MinLargest fl None 3 items =
    Some [(8, [(103, 5); (106, 3)]); (8, [(101, 5); (102, 3)]); (9, [(105, 7); (104, 2)])] /\
  cg idv true MinLargest fl None 3 (map snd items) = Some [(8, [5; 3]); (8, [5; 3]); (9, [7; 2])] /\
  option_map (map_bins snd) (cg snd true MinLargest fl None 3 items) =
    cg idv true MinLargest fl None 3 (map snd items) /\
  option_map (map_bins snd) (cg snd true MaxSmallest (mk_flags true false false true) (Some 12%nat) 2 items) =
    cg idv true MaxSmallest (mk_flags true false false true) (Some 12%nat) 2 (map snd items).
Proof. vm_compute. repeat split; reflexivity. Qed.

Example cbldm_names_ex :
  let items := [(101, 5); (102, 3); (103, 5); (104, 2); (105, 7); (106, 3)] in
  cbldm snd 2 items true 1 true None =
    Ok (CbBins [(12, [(104, 2); (101, 5); (103, 5)]); (13, [(106, 3); (105, 7); (102, 3)])], 17%nat) /\
  cbldm idv 2 (map snd items) true 1 true None = Ok (CbBins [(12, [2; 5; 5]); (13, [3; 7; 3])], 17%nat) /\
  rmap (fun r => (map_cbldm_out snd (fst r), snd r)) (cbldm snd 2 items true 1 true (Some 5%nat)) =
    cbldm idv 2 (map snd items) true 1 true (Some 5%nat).
Proof. vm_compute. repeat split; reflexivity. Qed.

(** * Index of the C07 family *)

(** proved in this file *)
Check @sort_asc_names.
Check @sort_desc_names.
Check @kk_names.
Check @cg_run_names.
Check @cg_names.
Check @cbldm_names.
Check @ckk_names_value.
Check @ckk_names_sums_2.
(** proved elsewhere (contents-keeping binner), listed here for reference *)
Check @GreedyProofs.greedy_names.
Check @GreedyProofs.roundrobin_names.
Check @PackingProofs.ff_names.
Check @PackingProofs.ffd_names.
Check @PackingProofs.bf_names.
Check @PackingProofs.bfd_names.
Check @CoveringProofs.dec_names.
Check @CoveringProofs.tt_names.
Check @CoveringProofs.tq_names.
Check @DPProofs.dp_names.

Print Assumptions sort_asc_names.
Print Assumptions sort_desc_names.
Print Assumptions kk_names.
Print Assumptions cg_run_names.
Print Assumptions cg_names.
Print Assumptions cbldm_names.
Print Assumptions ckk_names_value.
Print Assumptions ckk_names_sums_2.
