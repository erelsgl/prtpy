(** C10: the approximation guarantee of the three-quarters bin-covering heuristic
    (Model/Covering.v [cover_threequarters], prtpy/packing/cflz_covering.py [threequarters];
    Csirik, Frenk, Labbe, Zhang 1999, the "improved simple" heuristic):
        3 * OPT <= 4 * (number of bins filled) + 11   ([threequarters_ratio_strong]; C10 states it with + 16).

    Method: a weighting argument with a run-dependent parameter D, 0 < D <= C.
    [W4 C D v] is, in units where a covered bin must weigh 6 D, a staircase with ramps of
    slope 6 (per unit of value): 0 .. 2D on [0, D/3], flat 2D up to C/2 - D/6, a ramp
    through (C/2, 3D) up to 4D, flat 4D up to C - D/3, a ramp up to 6D at C.
    (D = C gives six times the capped value.)
    Every set of values reaching C weighs at least 6 D ([W4_valid], hence by [opt_weight]
    of CoverRatioProofs OPT * 6 D <= total weight).  On the side of the heuristic
    ([tq_weights]) the total weight is at most 8 D per filled bin plus 22 D, where
      D = min (C, 3 (C - x), 9 (C - 2 y))   ([Dfin])
    over the big items x < C and the medium items y (except the largest) that are left when
    the small items run out (D = C when the big and medium items run out first):
    - a bin of the main loop opened by a big item, or by two medium items lying on the
      ramp, weighs at most 8 D ([binX], [binY_pair]); at most one bin is opened by a pair
      whose smaller item lies on the flat part, it weighs at most 9 D (allowance [Bud]);
    - in the finishing phases ([finish_B], [good_A]) the decreasing subroutine is followed
      with a potential depending on the level of the open bin ([acct], [PX], [PY], [PZ]):
      left-over big items weigh <= 4 D (two per bin), medium ones <= 8 D / 3 (three per bin).
    Result: 18 * OPT <= 24 * bins + 66, i.e. 3 * OPT <= 4 * bins + 11. *)
From Prtpy Require Import Base.Prelude Model.Binner Model.Covering Spec.Partition
  Proofs.BaseLemmas Proofs.BinnerLemmas Proofs.CoveringProofs Proofs.EnumProofs Proofs.CoverRatioProofs.
From Coq Require Import Sorting.Sorted ZifyBool.

(** ---- the weights ---- *)

Definition W4 (C D v : Z) : Z :=
  if 3 * v <? C then Z.min (6 * v) (2 * D)
  else if 2 * v <? C then Z.max (2 * D) (3 * D - 3 * C + 6 * v)
  else Z.min (6 * D) (Z.max (6 * D - 6 * (C - v)) (Z.min (4 * D) (3 * D + 3 * (2 * v - C)))).

Lemma W4_nonneg C D v : 0 < D -> D <= C -> 0 <= v -> 0 <= W4 C D v.
Proof.
  intros HD HDC Hv. unfold W4.
  destruct (3 * v <? C) eqn:E3; [lia|]. destruct (2 * v <? C) eqn:E2; lia.
Qed.

Lemma W4_third C D v : 3 * v < C -> W4 C D v = Z.min (6 * v) (2 * D).
Proof. intros H. unfold W4. destruct (3 * v <? C) eqn:E; [reflexivity|lia]. Qed.

(** values below C/3: with total value a and total weight b, for k = 0, 1, 2
    min (2 (k+1) D) (2 k D + 6 a - 2 k C) <= b.
    Step k for one more value v: if 6 v <= 2 D the weight grows as fast as 6 a; otherwise it
    grows by 2 D and step k - 1 is used, since 6 v < 2 C. *)
Lemma third_weight C D Q : 0 < D -> D <= C ->
  Forall (fun v => 0 <= v /\ 3 * v < C) Q ->
  0 <= zsum Q /\ 0 <= zsum (map (W4 C D) Q) /\
  Z.min (2 * D) (6 * zsum Q) <= zsum (map (W4 C D) Q) /\
  Z.min (4 * D) (2 * D + 6 * zsum Q - 2 * C) <= zsum (map (W4 C D) Q) /\
  Z.min (6 * D) (4 * D + 6 * zsum Q - 4 * C) <= zsum (map (W4 C D) Q).
Proof.
  intros HD HDC HQ. induction HQ as [|v Q [Hv0 Hv] HQ IH]; cbn [map].
  - change (zsum []) with 0. lia.
  - rewrite !zsum_cons, W4_third by exact Hv. destruct IH as (I0 & I1 & I2 & I3 & I4).
    clear HQ. set (a := zsum Q) in *. set (b := zsum (map (W4 C D) Q)) in *.
    split; [lia|]. split; [lia|]. split; [|split].
    + clear I3 I4. lia.
    + clear I4. lia.
    + clear I2. lia.
Qed.

Lemma W4_med C D y : C <= 3 * y -> 2 * y < C -> W4 C D y = Z.max (2 * D) (3 * D - 3 * C + 6 * y).
Proof.
  intros H3 H2. unfold W4. destruct (3 * y <? C) eqn:E3; [lia|].
  destruct (2 * y <? C) eqn:E2; [reflexivity|lia].
Qed.

Lemma W4_big C D x : 0 < C -> C <= 2 * x ->
  W4 C D x = Z.min (6 * D) (Z.max (6 * D - 6 * (C - x)) (Z.min (4 * D) (3 * D + 3 * (2 * x - C)))).
Proof.
  intros HC H2. unfold W4. destruct (3 * x <? C) eqn:E3; [lia|].
  destruct (2 * x <? C) eqn:E2; [lia|reflexivity].
Qed.

Lemma WX_ge C D x : 0 < D -> D <= C -> C <= 2 * x -> 3 * D <= W4 C D x.
Proof. intros HD HDC Hx. rewrite W4_big by lia. lia. Qed.

Lemma WY_ge C D y : C <= 3 * y -> 2 * y < C -> 2 * D <= W4 C D y.
Proof. intros Hy1 Hy2. rewrite W4_med by assumption. lia. Qed.

(** The sets that reach C with at most one value x >= C/2 and at most two values y in
    [C/3, C/2), the rest (total a, weight b) below C/3; each needs one or two steps of the
    staircase of [third_weight]. *)
Lemma case00 C D a b : D <= C -> Z.min (6 * D) (4 * D + 6 * a - 4 * C) <= b -> C <= a -> 6 * D <= b.
Proof. lia. Qed.

Lemma case10 C D a b x : 0 < D -> D <= C -> 0 <= b -> Z.min (2 * D) (6 * a) <= b ->
  Z.min (4 * D) (2 * D + 6 * a - 2 * C) <= b -> C <= 2 * x ->
  C <= x + a -> 6 * D <= W4 C D x + b.
Proof. intros HD HDC B0 I0 I1 Hx H. rewrite W4_big by lia. lia. Qed.

Lemma case01 C D a b y : D <= C -> Z.min (4 * D) (2 * D + 6 * a - 2 * C) <= b ->
  C <= 3 * y -> 2 * y < C -> C <= y + a -> 6 * D <= W4 C D y + b.
Proof. intros HDC I1 Hy1 Hy2 H. rewrite W4_med by assumption. lia. Qed.

Lemma case02 C D a b y1 y2 : Z.min (2 * D) (6 * a) <= b ->
  C <= 3 * y1 -> 2 * y1 < C -> C <= 3 * y2 -> 2 * y2 < C ->
  C <= y1 + y2 + a -> 6 * D <= W4 C D y1 + W4 C D y2 + b.
Proof. intros I0 Hy1 Hy1' Hy2 Hy2' H. rewrite !W4_med by assumption. lia. Qed.

Lemma case11 C D a b x y : 0 < D -> D <= C -> 0 <= b -> Z.min (2 * D) (6 * a) <= b ->
  C <= 2 * x -> C <= 3 * y -> 2 * y < C ->
  C <= x + y + a -> 6 * D <= W4 C D x + W4 C D y + b.
Proof. intros HD HDC B0 I0 Hx Hy Hy' H. rewrite W4_big, W4_med by lia. lia. Qed.

Definition wz (C D : Z) (l : list Z) : Z := zsum (map (W4 C D) l).

Lemma wz_cons C D v l : wz C D (v :: l) = W4 C D v + wz C D l.
Proof. reflexivity. Qed.

Lemma wz_nonneg C D l : 0 < D -> D <= C -> Forall (fun v => 0 <= v) l -> 0 <= wz C D l.
Proof.
  intros HD HDC H. apply zsum_nonneg. rewrite Forall_map.
  eapply Forall_impl; [|exact H]. intros v Hv. apply W4_nonneg; assumption.
Qed.

(** the case analysis: at most one value >= C/2 and at most two in [C/3, C/2) matter *)
Lemma valid3 C D XS YS ZS : 0 < D -> D <= C ->
  Forall (fun v => C <= 2 * v) XS -> Forall (fun v => C <= 3 * v /\ 2 * v < C) YS ->
  Forall (fun v => 0 <= v /\ 3 * v < C) ZS ->
  C <= zsum XS + zsum YS + zsum ZS -> 6 * D <= wz C D XS + wz C D YS + wz C D ZS.
Proof.
  intros HD HDC HX HY HZ Hsum. assert (HC : 0 < C) by lia.
  destruct (third_weight C D ZS HD HDC HZ) as (A0 & B0 & I0 & I1 & I2). fold (wz C D ZS) in B0, I0, I1, I2.
  assert (HXn : Forall (fun v => 0 <= v) XS).
  { eapply Forall_impl; [|exact HX]. cbv beta. intros v Hv. lia. }
  assert (HYn : Forall (fun v => 0 <= v) YS).
  { eapply Forall_impl; [|exact HY]. cbv beta. intros v Hv. lia. }
  destruct XS as [|x1 [|x2 XS]].
  - change (zsum []) with 0 in Hsum. change (wz C D []) with 0.
    destruct YS as [|y1 [|y2 [|y3 YS]]].
    + change (zsum []) with 0 in Hsum. change (wz C D []) with 0.
      pose proof (case00 C D _ _ HDC I2). lia.
    + inversion HY as [|? ? [Hy1 Hy1'] _]; subst.
      rewrite wz_cons. change (wz C D []) with 0. rewrite zsum_cons in Hsum.
      change (zsum []) with 0 in Hsum.
      pose proof (case01 C D _ _ y1 HDC I1 Hy1 Hy1'). lia.
    + inversion HY as [|? ? [Hy1 Hy1'] HY2]; subst.
      inversion HY2 as [|? ? [Hy2 Hy2'] _]; subst.
      rewrite !wz_cons. change (wz C D []) with 0. rewrite !zsum_cons in Hsum.
      change (zsum []) with 0 in Hsum.
      pose proof (case02 C D _ _ y1 y2 I0 Hy1 Hy1' Hy2 Hy2'). lia.
    + inversion HY as [|? ? [Hy1 Hy1'] HY2]; subst.
      inversion HY2 as [|? ? [Hy2 Hy2'] HY3]; subst.
      inversion HY3 as [|? ? [Hy3 Hy3'] HY4]; subst.
      inversion HYn as [|? ? _ HYn2]; subst. inversion HYn2 as [|? ? _ HYn3]; subst.
      inversion HYn3 as [|? ? _ HYn4]; subst.
      rewrite !wz_cons. pose proof (wz_nonneg C D YS HD HDC HYn4).
      pose proof (WY_ge C D y1 Hy1 Hy1'). pose proof (WY_ge C D y2 Hy2 Hy2').
      pose proof (WY_ge C D y3 Hy3 Hy3'). lia.
  - inversion HX as [|? ? Hx1 _]; subst. rewrite wz_cons. change (wz C D []) with 0.
    rewrite zsum_cons in Hsum. change (zsum []) with 0 in Hsum.
    destruct YS as [|y1 [|y2 YS]].
    + change (zsum []) with 0 in Hsum. change (wz C D []) with 0.
      pose proof (case10 C D _ _ x1 HD HDC B0 I0 I1 Hx1). lia.
    + inversion HY as [|? ? [Hy1 Hy1'] _]; subst.
      rewrite wz_cons. change (wz C D []) with 0. rewrite zsum_cons in Hsum.
      change (zsum []) with 0 in Hsum.
      pose proof (case11 C D _ _ x1 y1 HD HDC B0 I0 Hx1 Hy1 Hy1'). lia.
    + inversion HY as [|? ? [Hy1 Hy1'] HY2]; subst.
      inversion HY2 as [|? ? [Hy2 Hy2'] _]; subst.
      inversion HYn as [|? ? _ HYn2]; subst. inversion HYn2 as [|? ? _ HYn3]; subst.
      rewrite !wz_cons. pose proof (wz_nonneg C D YS HD HDC HYn3).
      pose proof (WX_ge C D x1 HD HDC Hx1).
      pose proof (WY_ge C D y1 Hy1 Hy1'). pose proof (WY_ge C D y2 Hy2 Hy2'). lia.
  - inversion HX as [|? ? Hx1 HX2]; subst. inversion HX2 as [|? ? Hx2 _]; subst.
    inversion HXn as [|? ? _ HXn2]; subst. inversion HXn2 as [|? ? _ HXn3]; subst.
    rewrite !wz_cons. pose proof (wz_nonneg C D XS HD HDC HXn3).
    pose proof (wz_nonneg C D YS HD HDC HYn).
    pose proof (WX_ge C D x1 HD HDC Hx1). pose proof (WX_ge C D x2 HD HDC Hx2). lia.
Qed.

Lemma filter_Forall_both {T} (P : T -> Prop) (p : T -> bool) l :
  Forall P l -> Forall (fun x => P x /\ p x = true) (filter p l).
Proof.
  intros H. apply Forall_forall. intros x Hx. apply filter_In in Hx. destruct Hx as [Hx Hp].
  rewrite Forall_forall in H. split; [apply H; exact Hx|exact Hp].
Qed.

Definition idz4 (v : Z) : Z := v.

(** every set of values that reaches C weighs at least 6 D *)
Lemma W4_valid C D Q : 0 < D -> D <= C -> Forall (fun v => 0 <= v) Q ->
  C <= zsum Q -> 6 * D <= wz C D Q.
Proof.
  intros HD HDC HQ Hsum. assert (HC : 0 < C) by lia.
  pose proof (classes_perm idz4 C Q HC) as HP.
  rewrite <- (zsum_perm _ _ HP), !zsum_app in Hsum.
  unfold wz. rewrite <- (zsum_perm _ _ (Permutation_map (W4 C D) HP)), !map_app, !zsum_app.
  rewrite Z.add_assoc in Hsum |- *. apply valid3; try assumption.
  - eapply Forall_impl; [|apply (filter_Forall_both _ (is_big idz4 C) Q HQ)].
    unfold is_big, idz4. cbv beta. intros v [_ Hv]. lia.
  - eapply Forall_impl; [|apply (filter_Forall_both _ (is_medium idz4 C) Q HQ)].
    unfold is_medium, idz4. cbv beta. intros v [_ Hv]. lia.
  - eapply Forall_impl; [|apply (filter_Forall_both _ (is_small idz4 C) Q HQ)].
    unfold is_small, idz4. cbv beta. intros v [Hv0 Hv]. lia.
Qed.

(** ---- arithmetic facts about the weights of the three classes ---- *)

Lemma Wz_le C D z : 3 * z < C -> W4 C D z <= 6 * z /\ W4 C D z <= 2 * D.
Proof. intros H3. rewrite W4_third by exact H3. lia. Qed.

(** an opener x >= C/2 whose gap is at most D/3 (or D = C) leaves room 6 (C - x) below 6 D *)
Lemma Wx_open C D x : 0 < D -> D <= C -> C <= 2 * x -> x < C ->
  D = C \/ 3 * (C - x) <= D -> W4 C D x <= 6 * D - 6 * (C - x).
Proof. intros HD HDC H2 HxC HDx. rewrite W4_big by lia. lia. Qed.

Lemma Wx_le C D x : 0 < D -> D <= C -> C <= 2 * x -> W4 C D x <= 6 * D.
Proof. intros HD HDC H2. rewrite W4_big by lia. lia. Qed.

(** remaining big items weigh at most 4 D once D <= 3 (C - x) *)
Lemma Wx_rest C D x : 0 < D -> C <= 2 * x -> D <= 3 * (C - x) -> W4 C D x <= 4 * D.
Proof. intros HD H2 HDx. rewrite W4_big by lia. lia. Qed.

(** medium items: never more than 3 D; exactly on the ramp when 3 (C - 2 y) <= D *)
Lemma Wy_le C D y : 0 < D -> C <= 3 * y -> 2 * y < C -> W4 C D y <= 3 * D.
Proof. intros HD H3 H2. rewrite W4_med by assumption. lia. Qed.

Lemma Wy_ramp C D y : C <= 3 * y -> 2 * y < C -> 3 * (C - 2 * y) <= D ->
  W4 C D y = 3 * D - 3 * C + 6 * y.
Proof. intros H3 H2 HDy. rewrite W4_med by assumption. lia. Qed.

Lemma Wy_flat C D y : C <= 3 * y -> 2 * y < C -> D < 3 * (C - 2 * y) -> W4 C D y = 2 * D.
Proof. intros H3 H2 HDy. rewrite W4_med by assumption. lia. Qed.

(** remaining medium items weigh at most 8 D / 3 once D <= 9 (C - 2 y) *)
Lemma Wy_rest C D y : 0 < D -> C <= 3 * y -> 2 * y < C -> D <= 9 * (C - 2 * y) ->
  3 * W4 C D y <= 8 * D.
Proof. intros HD H3 H2 HDy. rewrite W4_med by assumption. lia. Qed.

Section CoverRatio34.
  Context {A : Type} (valueof : A -> Z).

  Notation add1 := (add_to_bin valueof true).
  Notation vsum := (InExTree.vsum valueof).
  Notation wsum4 C D := (wsum valueof (W4 C D)).

  Lemma vsum4_app l1 l2 : vsum (l1 ++ l2) = vsum l1 + vsum l2.
  Proof. apply vsum_app. Qed.

  (** the three classes of items *)
  Definition bigp (C : Z) (a : A) : Prop := C <= 2 * valueof a.
  Definition medp (C : Z) (a : A) : Prop := C <= 3 * valueof a /\ 2 * valueof a < C.
  Definition smp (C : Z) (a : A) : Prop := 0 < valueof a /\ 3 * valueof a < C.

  (** ---- accounting: three times the weight of the bins closed after [bs] and of the
      current bin is at most 24 D per closed bin, plus E, plus a potential of the
      level of the current bin ---- *)
  Definition acct (C D : Z) (bs : bins A) (E : Z) (P : Z -> Z) (st : cstate (A:=A)) : Prop :=
    0 <= fst (snd st) < C /\
    exists new, fst st = bs ++ new /\
      3 * (wsum4 C D (contents new) + wsum4 C D (snd (snd st)))
        <= 24 * D * Z.of_nat (length new) + E + P (fst (snd st)).

  Lemma acct_weaken C D bs E P E' P' st : acct C D bs E P st ->
    E + P (fst (snd st)) <= E' + P' (fst (snd st)) -> acct C D bs E' P' st.
  Proof.
    intros (Hf & new & H1 & H2) Hle. split; [exact Hf|]. exists new. split; [exact H1|]. lia.
  Qed.

  (** one step of the decreasing subroutine *)
  Lemma acct_step C D bs E P E' P' st x : acct C D bs E P st -> 0 <= valueof x ->
    (C <= fst (snd st) + valueof x ->
       E + P (fst (snd st)) + 3 * W4 C D (valueof x) <= 24 * D + E' + P' 0) ->
    (fst (snd st) + valueof x < C ->
       E + P (fst (snd st)) + 3 * W4 C D (valueof x) <= E' + P' (fst (snd st) + valueof x)) ->
    0 < C -> acct C D bs E' P' (cover_add valueof true C st x).
  Proof.
    intros (Hf & new & H1 & H2) Hx Hclose Hkeep HC. unfold acct, cover_add. cbv zeta.
    cbn [add_to_bin fst snd].
    destruct (fst (snd st) + valueof x >=? C) eqn:Ecmp.
    - cbn [fst snd empty_bin]. split; [lia|]. exists (new ++ [add1 x (snd st)]).
      split; [rewrite H1, app_assoc; reflexivity|].
      rewrite contents_snoc, app_length, Nat2Z.inj_add. cbn [length add_to_bin snd].
      rewrite !wsum_app, wsum_cons, !wsum_nil.
      assert (Hc : C <= fst (snd st) + valueof x) by lia. specialize (Hclose Hc).
      change (Z.of_nat 1) with 1. lia.
    - cbn [add_to_bin fst snd]. split; [lia|]. exists new. split; [exact H1|].
      rewrite wsum_app, wsum_cons, wsum_nil.
      assert (Hk : fst (snd st) + valueof x < C) by lia. specialize (Hkeep Hk). lia.
  Qed.

  (** the decreasing subroutine on items satisfying [ok], with a fixed potential *)
  Lemma acct_dec C D bs E P (ok : A -> Prop) : 0 < C ->
    (forall x, ok x -> 0 <= valueof x) ->
    (forall f x, ok x -> 0 <= f < C -> C <= f + valueof x ->
       P f + 3 * W4 C D (valueof x) <= 24 * D + P 0) ->
    (forall f x, ok x -> 0 <= f < C -> f + valueof x < C ->
       P f + 3 * W4 C D (valueof x) <= P (f + valueof x)) ->
    forall l st, Forall ok l -> acct C D bs E P st ->
      acct C D bs E P (dec_sub valueof true C st l).
  Proof.
    intros HC Hnn Hclose Hkeep. unfold dec_sub.
    induction l as [|x t IH]; intros st Hl Hst; cbn [fold_left]; [exact Hst|].
    inversion Hl as [|x0 t0 Hx Ht]; subst x0 t0. apply IH; [exact Ht|].
    pose proof Hst as (Hf & _).
    apply (acct_step C D bs E P E P st x Hst); [apply Hnn; exact Hx| | |exact HC].
    - intros Hc. specialize (Hclose _ x Hx Hf Hc). lia.
    - intros Hk. specialize (Hkeep _ x Hx Hf Hk). lia.
  Qed.

  (** ---- the potentials of the finishing phases ---- *)
  Definition P0 (f : Z) : Z := 0.
  Definition PX (C D f : Z) : Z := if 2 * f <? C then 0 else 12 * D.
  Definition PY (C D f : Z) : Z := if 3 * f <? C then 0 else if 3 * f <? 2 * C then 8 * D else 16 * D.
  Definition PZ (f : Z) : Z := 18 * f.

  (** items >= C: each closes a bin of weight <= 6 D *)
  Lemma acct_huge C D bs E l st : 0 < C -> 0 < D -> D <= C ->
    Forall (fun x => C <= valueof x) l -> acct C D bs E P0 st ->
    acct C D bs E P0 (dec_sub valueof true C st l).
  Proof.
    intros HC HD HDC. apply (acct_dec C D bs E P0 (fun x => C <= valueof x) HC).
    - intros x Hx. lia.
    - intros f x Hx Hf Hc. unfold P0. pose proof (Wx_le C D (valueof x) HD HDC). lia.
    - intros f x Hx Hf Hk. lia.
  Qed.

  (** items in [C/2, C) of weight <= 4 D: two of them close a bin *)
  Lemma acct_big C D bs E l st : 0 < C -> 0 < D ->
    Forall (fun x => bigp C x /\ D <= 3 * (C - valueof x)) l -> acct C D bs E (PX C D) st ->
    acct C D bs E (PX C D) (dec_sub valueof true C st l).
  Proof.
    intros HC HD. apply (acct_dec C D bs E (PX C D) _ HC).
    - intros x [Hx _]. unfold bigp in Hx. lia.
    - intros f x [Hx HDx] Hf Hc. pose proof (Wx_rest C D (valueof x) HD Hx HDx).
      unfold PX. destruct (2 * f <? C); destruct (2 * 0 <? C) eqn:E0; lia.
    - intros f x [Hx HDx] Hf Hk. pose proof (Wx_rest C D (valueof x) HD Hx HDx).
      unfold bigp in Hx. unfold PX. destruct (2 * f <? C) eqn:E1; [|lia].
      destruct (2 * (f + valueof x) <? C) eqn:E2; lia.
  Qed.

  (** items in [C/3, C/2) of weight <= 8 D / 3: three of them close a bin *)
  Lemma acct_med C D bs E l st : 0 < C -> 0 < D ->
    Forall (fun y => medp C y /\ D <= 9 * (C - 2 * valueof y)) l -> acct C D bs E (PY C D) st ->
    acct C D bs E (PY C D) (dec_sub valueof true C st l).
  Proof.
    intros HC HD. apply (acct_dec C D bs E (PY C D) _ HC).
    - intros y [[Hy _] _]. lia.
    - intros f y [[Hy1 Hy2] HDy] Hf Hc. pose proof (Wy_rest C D (valueof y) HD Hy1 Hy2 HDy).
      unfold PY. destruct (3 * 0 <? C) eqn:E0; [|lia].
      destruct (3 * f <? C); [lia|]. destruct (3 * f <? 2 * C); lia.
    - intros f y [[Hy1 Hy2] HDy] Hf Hk. pose proof (Wy_rest C D (valueof y) HD Hy1 Hy2 HDy).
      unfold PY. destruct (3 * f <? C) eqn:E1.
      + destruct (3 * (f + valueof y) <? C) eqn:E2; [lia|].
        destruct (3 * (f + valueof y) <? 2 * C); lia.
      + destruct (3 * f <? 2 * C) eqn:E3; [|lia].
        destruct (3 * (f + valueof y) <? C) eqn:E2; [lia|].
        destruct (3 * (f + valueof y) <? 2 * C) eqn:E4; lia.
  Qed.

  (** items below C/3 with D = C: the weight is six times the value *)
  Lemma acct_small C bs E l st : 0 < C ->
    Forall (smp C) l -> acct C C bs E PZ st -> acct C C bs E PZ (dec_sub valueof true C st l).
  Proof.
    intros HC. apply (acct_dec C C bs E PZ (smp C) HC).
    - intros x [Hx _]. lia.
    - intros f x [Hx0 Hx3] Hf Hc. unfold PZ.
      destruct (Wz_le C C (valueof x)) as [H1 H2]; lia.
    - intros f x [Hx0 Hx3] Hf Hk. unfold PZ.
      destruct (Wz_le C C (valueof x)) as [H1 H2]; lia.
  Qed.

  (** ---- the parameter D of a run ---- *)
  Notation desc := (StronglySorted (fun a b : A => valueof b <= valueof a)).

  (** admissible parameters, given the big and medium items still available *)
  Definition Dok (C : Z) (big medium : list A) (D : Z) : Prop :=
    0 < D /\ D <= C /\
    (D = C \/
     (exists x, In x big /\ valueof x < C /\ D = 3 * (C - valueof x)) \/
     (exists y, In y (tl medium) /\ D = 9 * (C - 2 * valueof y))).

  Lemma Dok_incl C b1 m1 b2 m2 D : incl b1 b2 -> incl (tl m1) (tl m2) ->
    Dok C b1 m1 D -> Dok C b2 m2 D.
  Proof.
    intros Hb Hm (H1 & H2 & H3). split; [exact H1|]. split; [exact H2|].
    destruct H3 as [H3|[(x & Hx & H3)|(y & Hy & H3)]]; [left; exact H3|right; left|right; right].
    - exists x. split; [apply Hb; exact Hx|exact H3].
    - exists y. split; [apply Hm; exact Hy|exact H3].
  Qed.

  Lemma Dok_C C big medium : 0 < C -> Dok C big medium C.
  Proof. intros HC. split; [exact HC|]. split; [lia|]. left. reflexivity. Qed.

  Definition cands (C : Z) (big medium : list A) : list Z :=
    map (fun x => 3 * (C - valueof x)) (filter (fun x => valueof x <? C) big) ++
    map (fun y => 9 * (C - 2 * valueof y)) (tl medium).

  Definition Dfin (C : Z) (big medium : list A) : Z := zmin_list C (cands C big medium).

  Lemma Forall_tl {T} (P : T -> Prop) (l : list T) : Forall P l -> Forall P (tl l).
  Proof. intros H. destruct l as [|a t]; [constructor|]. inversion H; assumption. Qed.

  Lemma Dfin_spec C big medium : 0 < C -> Forall (medp C) medium ->
    Dok C big medium (Dfin C big medium) /\
    Forall (fun x => valueof x < C -> Dfin C big medium <= 3 * (C - valueof x)) big /\
    Forall (fun y => Dfin C big medium <= 9 * (C - 2 * valueof y)) (tl medium).
  Proof.
    intros HC Hm. unfold Dfin. set (D := zmin_list C (cands C big medium)).
    destruct (zmin_list_le C (cands C big medium)) as [HleC Hall]. fold D in HleC, Hall.
    unfold cands in Hall. apply Forall_app in Hall. destruct Hall as [Hb Hy].
    rewrite Forall_map in Hb, Hy. apply Forall_tl in Hm.
    assert (Hcase : D = C \/
      (exists x, In x big /\ valueof x < C /\ D = 3 * (C - valueof x)) \/
      (exists y, In y (tl medium) /\ D = 9 * (C - 2 * valueof y))).
    { destruct (zmin_list_in C (cands C big medium)) as [H|H]; fold D in H; [left; exact H|right].
      unfold cands in H. apply in_app_or in H. destruct H as [H|H]; apply in_map_iff in H.
      - left. destruct H as (x & Hx & Hin). apply filter_In in Hin. destruct Hin as [Hin Hlt].
        exists x. split; [exact Hin|]. split; [lia|]. symmetry. exact Hx.
      - right. destruct H as (y & Hy' & Hin). exists y. split; [exact Hin|]. symmetry. exact Hy'. }
    split; [|split].
    - split; [|split; [exact HleC|exact Hcase]].
      destruct Hcase as [H|[(x & _ & Hx & H)|(y & Hin & H)]]; [lia|lia|].
      rewrite Forall_forall in Hm. destruct (Hm y Hin) as [_ H2]. lia.
    - apply Forall_forall. intros x Hx Hlt. rewrite Forall_forall in Hb. apply Hb.
      apply filter_In. split; [exact Hx|lia].
    - exact Hy.
  Qed.

  (** a descending list splits into the items >= C and the items < C *)
  Lemma desc_split C (l : list A) : desc l ->
    exists hi lo, l = hi ++ lo /\ Forall (fun x => C <= valueof x) hi /\
                  Forall (fun x => valueof x < C) lo.
  Proof.
    induction l as [|x t IH]; intros Hs.
    - exists [], []. split; [reflexivity|split; constructor].
    - inversion Hs as [|x0 t0 Hst Hxt]; subst x0 t0.
      destruct (Z_le_gt_dec C (valueof x)) as [Hx|Hx].
      + destruct (IH Hst) as (hi & lo & E & H1 & H2). exists (x :: hi), lo.
        split; [rewrite E; reflexivity|]. split; [constructor; assumption|exact H2].
      + exists [], (x :: t). split; [reflexivity|]. split; [constructor|].
        constructor; [lia|]. eapply Forall_impl; [|exact Hxt]. cbv beta. intros y Hy. lia.
  Qed.

  Lemma dec_sub_app C st (l1 l2 : list A) :
    dec_sub valueof true C st (l1 ++ l2) = dec_sub valueof true C (dec_sub valueof true C st l1) l2.
  Proof. unfold dec_sub. apply fold_left_app. Qed.

  (** ---- the finishing phase after the small items ran out ---- *)
  Lemma finish_B C D bs E big medium st : 0 < C -> 0 < D -> D <= C ->
    desc big -> Forall (bigp C) big -> Forall (medp C) medium ->
    Forall (fun x => valueof x < C -> D <= 3 * (C - valueof x)) big ->
    Forall (fun y => D <= 9 * (C - 2 * valueof y)) (tl medium) ->
    acct C D bs E P0 st ->
    acct C D bs (E + 13 * D) (PY C D)
      (dec_sub valueof true C (dec_sub valueof true C st big) medium).
  Proof.
    intros HC HD HDC Hs Hb Hm HDb HDm Hst.
    destruct (desc_split C big Hs) as (hi & lo & Ebig & Hhi & Hlo). subst big.
    rewrite dec_sub_app. apply Forall_app in Hb. destruct Hb as [_ Hblo].
    apply Forall_app in HDb. destruct HDb as [_ HDlo].
    set (s1 := dec_sub valueof true C st hi).
    assert (H1 : acct C D bs E P0 s1) by (apply acct_huge; assumption).
    set (s2 := dec_sub valueof true C s1 lo).
    assert (H2 : acct C D bs E (PX C D) s2).
    { apply acct_big; try assumption.
      - rewrite Forall_forall in Hblo, HDlo, Hlo |- *. intros x Hx.
        split; [apply Hblo; exact Hx|apply HDlo; [exact Hx|apply Hlo; exact Hx]].
      - apply (acct_weaken C D bs E P0); [exact H1|].
        unfold P0, PX. destruct (2 * fst (snd s1) <? C); lia. }
    assert (H3 : acct C D bs (E + 12 * D) P0 s2).
    { apply (acct_weaken C D bs E (PX C D)); [exact H2|].
      unfold P0, PX. destruct (2 * fst (snd s2) <? C); lia. }
    destruct medium as [|y0 rest].
    - unfold dec_sub at 1. cbn [fold_left]. apply (acct_weaken C D bs (E + 12 * D) P0); [exact H3|].
      unfold P0, PY. destruct (3 * fst (snd s2) <? C); [lia|].
      destruct (3 * fst (snd s2) <? 2 * C); lia.
    - cbn [tl] in HDm. inversion Hm as [|y1 r1 [Hy1 Hy2] Hrest]; subst y1 r1.
      change (y0 :: rest) with ([y0] ++ rest). rewrite dec_sub_app.
      pose proof (Wy_le C D (valueof y0) HD Hy1 Hy2) as Hw. pose proof H3 as (Hf & _).
      apply acct_med; try assumption.
      + rewrite Forall_forall in Hrest, HDm |- *. intros y Hy.
        split; [apply Hrest; exact Hy|apply HDm; exact Hy].
      + unfold dec_sub. cbn [fold_left].
        apply (acct_step C D bs (E + 12 * D) P0 (E + 13 * D) (PY C D) s2 y0 H3); [lia| | |exact HC].
        * intros Hc. unfold P0, PY. destruct (3 * 0 <? C) eqn:E0; lia.
        * intros Hk. unfold P0, PY.
          destruct (3 * (fst (snd s2) + valueof y0) <? C) eqn:E1; [lia|].
          destruct (3 * (fst (snd s2) + valueof y0) <? 2 * C); lia.
  Qed.

  (** ---- filling a bin with the smallest small items ---- *)
  Definition room (C D f : Z) : Z := if f <? C then 6 * (C - f) + 2 * D else 0.

  Lemma fill_w C : forall fuel (cur : bin A) small cur1 small',
    fill_small valueof true fuel C cur small = (cur1, small') ->
    Forall (smp C) small -> (length small <= fuel)%nat ->
    Forall (smp C) small' /\ (C <= fst cur1 \/ small' = []) /\
    exists used, snd cur1 = snd cur ++ used /\ fst cur1 = fst cur + vsum used /\
      0 <= vsum used /\ forall D, 0 < D -> wsum4 C D used <= room C D (fst cur).
  Proof.
    assert (Base : forall (cur : bin A) small cur1 small',
      (cur, small) = (cur1, small') -> Forall (smp C) small -> (C <= fst cur \/ small = []) ->
      Forall (smp C) small' /\ (C <= fst cur1 \/ small' = []) /\
      exists used, snd cur1 = snd cur ++ used /\ fst cur1 = fst cur + vsum used /\
        0 <= vsum used /\ forall D, 0 < D -> wsum4 C D used <= room C D (fst cur)).
    { intros cur small cur1 small' E Hs Hor. inversion E; subst cur1 small'.
      split; [exact Hs|]. split; [exact Hor|]. exists []. rewrite app_nil_r.
      split; [reflexivity|]. split; [cbn; lia|]. split; [cbn; lia|].
      intros D HD. rewrite wsum_nil. unfold room.
      destruct (fst cur <? C) eqn:Ef; lia. }
    induction fuel as [|f IH]; intros cur small cur1 small' E Hs Hlen; cbn [fill_small] in E.
    - apply (Base cur small); [exact E|exact Hs|]. right. destruct small; [reflexivity|cbn in Hlen; lia].
    - destruct (fst cur <? C) eqn:EC; [|apply (Base cur small); [exact E|exact Hs|left; lia]].
      destruct (unsnoc small) as [[r y]|] eqn:U.
      + apply unsnoc_Some in U. subst small. apply Forall_app in Hs. destruct Hs as [Hr Hy].
        inversion Hy as [|y0 t0 [Hy0 Hy3] _]; subst y0 t0.
        rewrite app_length in Hlen. cbn [length] in Hlen.
        destruct (IH _ _ _ _ E Hr ltac:(lia)) as (H1 & H2 & used & H3 & H4 & H40 & H5).
        split; [exact H1|]. split; [exact H2|]. exists (y :: used).
        cbn [add_to_bin fst snd] in H3, H4, H5.
        split; [rewrite H3, <- app_assoc; reflexivity|].
        split; [rewrite H4, vsum_cons; lia|]. split; [rewrite vsum_cons; lia|].
        intros D HD. specialize (H5 D HD).
        rewrite wsum_cons.
        destruct (Wz_le C D (valueof y)) as [W1 W2]; [lia|].
        unfold room in H5 |- *. rewrite EC.
        destruct (fst cur + valueof y <? C) eqn:E2; lia.
      + apply unsnoc_None in U. apply (Base cur small); [exact E|exact Hs|right; exact U].
  Qed.

  (** ---- the one-off allowance for a bin opened by an unbalanced medium pair ---- *)
  Definition onramp (C D : Z) (y : A) : bool := 3 * (C - 2 * valueof y) <=? D.
  Definition Bud (C D : Z) (medium : list A) : Z :=
    if existsb (onramp C D) medium then 6 * D else 0.

  Lemma Bud_bounds C D medium : 0 < D -> 0 <= Bud C D medium <= 6 * D.
  Proof. intros HD. unfold Bud. destruct (existsb (onramp C D) medium); lia. Qed.

  Lemma Bud_in C D medium y : In y medium -> 3 * (C - 2 * valueof y) <= D ->
    Bud C D medium = 6 * D.
  Proof.
    intros Hin Hy. unfold Bud.
    assert (H : existsb (onramp C D) medium = true).
    { apply existsb_exists. exists y. split; [exact Hin|]. unfold onramp. lia. }
    rewrite H. reflexivity.
  Qed.

  Lemma Bud_none C D medium : Forall (fun y => D < 3 * (C - 2 * valueof y)) medium ->
    Bud C D medium = 0.
  Proof.
    intros H. unfold Bud. destruct (existsb (onramp C D) medium) eqn:E; [|reflexivity].
    apply existsb_exists in E. destruct E as (y & Hin & Hy). rewrite Forall_forall in H.
    specialize (H y Hin). unfold onramp in Hy. lia.
  Qed.

  Lemma Bud_incl C D m1 m2 : 0 < D -> incl m1 m2 -> Bud C D m1 <= Bud C D m2.
  Proof.
    intros HD Hi. unfold Bud at 1. destruct (existsb (onramp C D) m1) eqn:E.
    - apply existsb_exists in E. destruct E as (y & Hin & Hy). unfold onramp in Hy.
      rewrite (Bud_in C D m2 y); [lia|apply Hi; exact Hin|lia].
    - pose proof (Bud_bounds C D m2 HD). lia.
  Qed.

  (** sorted lists: everything is below the head; the tail is below half the top pair *)
  Lemma head_ge (l : list A) x : desc l -> In x l ->
    valueof x <= zsum (map valueof (firstn 1 l)).
  Proof.
    intros Hs Hin. destruct l as [|h t]; [destruct Hin|].
    cbn [firstn map]. rewrite zsum_cons. change (zsum []) with 0.
    inversion Hs as [|h0 t0 _ Hht]; subst h0 t0. destruct Hin as [<-|Hin]; [lia|].
    rewrite Forall_forall in Hht. specialize (Hht x Hin). cbv beta in Hht. lia.
  Qed.

  Lemma tl_le_pair (l : list A) y : desc l -> In y (tl l) ->
    2 * valueof y <= zsum (map valueof (firstn 2 l)).
  Proof.
    intros Hs Hin. destruct l as [|m1 [|m2 rest]]; [destruct Hin|destruct Hin|].
    cbn [tl] in Hin. cbn [firstn map]. rewrite !zsum_cons. change (zsum []) with 0.
    inversion Hs as [|h0 t0 Hs2 Hm1]; subst h0 t0.
    inversion Hs2 as [|h0 t0 _ Hm2]; subst h0 t0.
    rewrite Forall_forall in Hm1, Hm2.
    pose proof (Hm1 m2 (or_introl eq_refl)) as H12. cbv beta in H12.
    destruct Hin as [<-|Hin]; [lia|]. specialize (Hm2 y Hin). cbv beta in Hm2. lia.
  Qed.

  (** ---- a bin of the main loop opened by the largest big item ---- *)
  Lemma binX C D x0 big' medium used : 0 < C -> Dok C big' medium D ->
    bigp C x0 -> Forall (fun x => valueof x <= valueof x0) big' ->
    desc medium -> Forall (medp C) medium ->
    zsum (map valueof (firstn 2 medium)) <= valueof x0 ->
    wsum4 C D used <= room C D (valueof x0) ->
    3 * wsum4 C D (x0 :: used) <= 24 * D.
  Proof.
    intros HC (HD & HDC & Hcase) Hx0 Hle Hsm Hm Hcmp Hused. unfold bigp in Hx0.
    assert (Hgap : D = C \/ 3 * (C - valueof x0) <= D).
    { destruct Hcase as [H|[(x & Hin & HxC & H)|(y & Hin & H)]]; [left; exact H|right|right].
      - rewrite Forall_forall in Hle. specialize (Hle x Hin). cbv beta in Hle. lia.
      - pose proof (tl_le_pair medium y Hsm Hin) as Hy.
        apply Forall_tl in Hm. rewrite Forall_forall in Hm. destruct (Hm y Hin) as [_ Hy2]. lia. }
    rewrite wsum_cons. unfold room in Hused. destruct (valueof x0 <? C) eqn:E.
    - pose proof (Wx_open C D (valueof x0) HD HDC Hx0 ltac:(lia) Hgap). lia.
    - pose proof (Wx_le C D (valueof x0) HD HDC ltac:(lia)). lia.
  Qed.

  (** ---- a bin of the main loop opened by the two largest medium items ---- *)
  Lemma binY_single C D big m1 used : 0 < C -> Dok C big [] D -> desc big ->
    Forall (bigp C) big -> medp C m1 ->
    zsum (map valueof (firstn 1 big)) < valueof m1 ->
    wsum4 C D used <= room C D (valueof m1) ->
    3 * wsum4 C D (m1 :: used) <= 24 * D.
  Proof.
    intros HC (HD & HDC & Hcase) Hsb Hb [Hm3 Hm2] Hcmp Hused.
    assert (HDeq : D = C).
    { destruct Hcase as [H|[(x & Hin & HxC & H)|(y & Hin & _)]]; [exact H| |destruct Hin].
      pose proof (head_ge big x Hsb Hin) as Hh. rewrite Forall_forall in Hb.
      specialize (Hb x Hin). unfold bigp in Hb. lia. }
    subst D. rewrite wsum_cons. unfold room in Hused.
    destruct (valueof m1 <? C) eqn:E; [|lia].
    rewrite W4_med by assumption. lia.
  Qed.

  Lemma binY_pair C D big m1 m2 rest used : 0 < C -> Dok C big rest D -> desc big ->
    desc (m1 :: m2 :: rest) -> Forall (medp C) (m1 :: m2 :: rest) ->
    zsum (map valueof (firstn 1 big)) < valueof m1 + valueof m2 ->
    wsum4 C D used <= room C D (valueof m1 + valueof m2) ->
    3 * wsum4 C D (m1 :: m2 :: used) + Bud C D rest <= 24 * D + Bud C D (m1 :: m2 :: rest).
  Proof.
    intros HC (HD & HDC & Hcase) Hsb Hsm Hm Hcmp Hused.
    inversion Hm as [|a1 l1 [H13 H12] Hm']; subst a1 l1.
    inversion Hm' as [|a2 l2 [H23 H22] Hrest]; subst a2 l2.
    inversion Hsm as [|a1 l1 Hsm2 Hle1]; subst a1 l1.
    inversion Hsm2 as [|a2 l2 _ Hle2]; subst a2 l2.
    inversion Hle1 as [|a2 l2 H21 _]; subst a2 l2.
    rewrite !wsum_cons. unfold room in Hused.
    destruct (valueof m1 + valueof m2 <? C) eqn:E; [|lia].
    assert (Hrest_le : Bud C D rest <= Bud C D (m1 :: m2 :: rest)).
    { apply Bud_incl; [exact HD|]. intros a Ha. right. right. exact Ha. }
    assert (Hramp : 3 * (C - 2 * valueof m2) <= D ->
      3 * (W4 C D (valueof m1) + (W4 C D (valueof m2) + wsum4 C D used)) <= 24 * D).
    { intros Hr. rewrite (Wy_ramp C D (valueof m1)), (Wy_ramp C D (valueof m2)); lia. }
    destruct Hcase as [H|[(x & Hin & HxC & H)|(y & Hin & H)]].
    - specialize (Hramp ltac:(lia)). lia.
    - destruct (Z_le_gt_dec (3 * (C - 2 * valueof m2)) D) as [Hr|Hr]; [specialize (Hramp Hr); lia|].
      pose proof (head_ge big x Hsb Hin) as Hh.
      rewrite (Wy_flat C D (valueof m2)) by lia.
      pose proof (Wy_le C D (valueof m1) HD H13 H12) as Hw1.
      rewrite (Bud_in C D (m1 :: m2 :: rest) m1); [|left; reflexivity|lia].
      rewrite (Bud_none C D rest); [lia|].
      rewrite Forall_forall in Hle2 |- *. intros a Ha. specialize (Hle2 a Ha). cbv beta in Hle2. lia.
    - apply Forall_tl in Hrest. rewrite Forall_forall in Hrest. destruct (Hrest y Hin) as [_ Hy2].
      assert (Hyin : In y rest) by (destruct rest; [destruct Hin|right; exact Hin]).
      rewrite Forall_forall in Hle2. specialize (Hle2 y Hyin). cbv beta in Hle2.
      specialize (Hramp ltac:(lia)). lia.
  Qed.

  (** ---- the whole run from a state of the main loop ---- *)
  Definition good (C : Z) (bs : bins A) (big medium : list A) (st' : cstate (A:=A)) : Prop :=
    exists new D, fst st' = bs ++ new /\ Dok C big medium D /\
      3 * (wsum4 C D (contents new) + wsum4 C D (snd (snd st')))
        <= 24 * D * Z.of_nat (length new) + 60 * D + Bud C D medium.

  (** the current bin at the head of the loop: not full, and light for every admissible D *)
  Definition resid (C : Z) (big medium : list A) (cur : bin A) : Prop :=
    0 <= fst cur < C /\ forall D, Dok C big medium D -> 3 * wsum4 C D (snd cur) <= 30 * D.

  Lemma resid_empty C big medium : 0 < C -> resid C big medium empty_bin.
  Proof.
    intros HC. unfold resid, empty_bin. cbn [fst snd]. split; [lia|].
    intros D (HD & _). rewrite wsum_nil. lia.
  Qed.

  Lemma good_cons C bs b big' medium' big medium st' :
    incl big' big -> incl (tl medium') (tl medium) ->
    (forall D, Dok C big' medium' D ->
       3 * wsum4 C D (snd b) + Bud C D medium' <= 24 * D + Bud C D medium) ->
    good C (bs ++ [b]) big' medium' st' -> good C bs big medium st'.
  Proof.
    intros Hb Hm Hw (new & D & H1 & H2 & H3). exists (b :: new), D.
    split; [rewrite H1, <- app_assoc; reflexivity|].
    split; [eapply Dok_incl; eassumption|].
    change (contents (b :: new)) with (snd b ++ contents new). rewrite wsum_app.
    cbn [length]. rewrite Nat2Z.inj_succ. specialize (Hw D H2). lia.
  Qed.

  Lemma good_stop C bs big medium cur : 0 < C -> resid C big medium cur ->
    good C bs big medium (bs, cur).
  Proof.
    intros HC (Hf & Hw). exists [], C. cbn [fst snd]. rewrite app_nil_r.
    split; [reflexivity|]. split; [apply Dok_C; exact HC|].
    specialize (Hw C (Dok_C C big medium HC)). pose proof (Bud_bounds C C medium HC).
    change (contents []) with (@nil A). rewrite wsum_nil. cbn [length]. lia.
  Qed.

  (** the small items ran out: the big and the medium items go through the subroutine *)
  Lemma good_B C bs big medium cur : 0 < C -> resid C big medium cur ->
    desc big -> Forall (bigp C) big -> Forall (medp C) medium ->
    good C bs big medium
      (dec_sub valueof true C (dec_sub valueof true C (bs, cur) big) medium).
  Proof.
    intros HC (Hf & Hw) Hs Hb Hm.
    destruct (Dfin_spec C big medium HC Hm) as (Hok & HDb & HDm).
    set (D := Dfin C big medium) in *. pose proof Hok as (HD & HDC & _).
    assert (H0 : acct C D bs (30 * D) P0 (bs, cur)).
    { split; [exact Hf|]. exists []. cbn [fst snd]. rewrite app_nil_r. split; [reflexivity|].
      change (contents []) with (@nil A). rewrite wsum_nil. cbn [length]. unfold P0.
      specialize (Hw D Hok). lia. }
    pose proof (finish_B C D bs (30 * D) big medium (bs, cur) HC HD HDC Hs Hb Hm HDb HDm H0) as H.
    destruct H as (_ & new & H1 & H2). exists new, D. split; [exact H1|]. split; [exact Hok|].
    pose proof (Bud_bounds C D medium HD). unfold PY in H2.
    destruct (3 * fst (snd (dec_sub valueof true C (dec_sub valueof true C (bs, cur) big) medium)) <? C);
      [lia|].
    destruct (3 * fst (snd (dec_sub valueof true C (dec_sub valueof true C (bs, cur) big) medium)) <? 2 * C);
      lia.
  Qed.

  (** the big and medium items ran out: the small items go through the subroutine *)
  Lemma good_A C bs small : 0 < C -> Forall (smp C) small ->
    good C bs [] [] (dec_sub valueof true C (bs, empty_bin) small).
  Proof.
    intros HC Hs.
    assert (H0 : acct C C bs 0 PZ (bs, @empty_bin A)).
    { split; [cbn; lia|]. exists []. cbn [fst snd empty_bin]. rewrite app_nil_r.
      split; [reflexivity|]. change (contents []) with (@nil A). rewrite wsum_nil.
      cbn [length]. unfold PZ. lia. }
    pose proof (acct_small C bs 0 small (bs, empty_bin) HC Hs H0) as (Hf & new & H1 & H2).
    exists new, C. split; [exact H1|]. split; [apply Dok_C; exact HC|].
    pose proof (Bud_bounds C C [] HC). unfold PZ in H2. lia.
  Qed.

  Definition main_at (C : Z) (f : nat) : Prop := forall bs cur big medium small,
    desc big -> desc medium -> Forall (bigp C) big -> Forall (medp C) medium ->
    Forall (smp C) small -> (cur = empty_bin \/ small = []) -> resid C big medium cur ->
    good C bs big medium (tq_loop valueof true f C (bs, cur) big medium small).

  Lemma good_incl C bs big' medium' big medium st' :
    incl big' big -> incl medium' medium -> incl (tl medium') (tl medium) ->
    good C bs big' medium' st' -> good C bs big medium st'.
  Proof.
    intros Hb Hm Hmt (new & D & H1 & H2 & H3). exists new, D. split; [exact H1|].
    split; [eapply Dok_incl; eassumption|]. pose proof H2 as (HD & _).
    pose proof (Bud_incl C D medium' medium HD Hm). lia.
  Qed.

  (** one iteration of the main loop, after the opener has been chosen.  The premises, in the order in
      which [main_all] discharges those it does not find in its context: cur0 is the bin of the opener
      (its sum, its contents) and its sum is >= 0; the big and medium items left are among the old ones,
      the medium ones also without their heads; both lists are descending; the classes of big', medium',
      small; and the account of the bin: the opener with any small items that fit its room weighs at
      most 8 D (24 D in the units of [wsum4] times 3), up to the change of the allowance [Bud]. *)
  Lemma iter_step C f : 0 < C -> main_at C f ->
    forall bs big medium small big' medium' opener (cur0 cur : bin A),
    fst cur0 = vsum opener -> snd cur0 = opener -> 0 <= vsum opener ->
    incl big' big -> incl medium' medium -> incl (tl medium') (tl medium) ->
    desc big' -> desc medium' ->
    Forall (bigp C) big' -> Forall (medp C) medium' -> Forall (smp C) small ->
    (forall used D, Dok C big' medium' D -> wsum4 C D used <= room C D (vsum opener) ->
       3 * wsum4 C D (opener ++ used) + Bud C D medium' <= 24 * D + Bud C D medium) ->
    good C bs big medium
      (let '(cur1, small') := fill_small valueof true (length small) C cur0 small in
       tq_loop valueof true f C (close_full C (bs, cur) cur1) big' medium' small').
  Proof.
    intros HC Hrec bs big medium small big' medium' opener cur0 cur Hf0 Hs0 Hop Hib Him Himt Hsb Hsm
      Hb Hm Hsmall Hbin.
    destruct (fill_small valueof true (length small) C cur0 small) as [cur1 small'] eqn:E.
    destruct (fill_w C _ _ _ _ _ E Hsmall (le_n _)) as (Hs' & Hor & used & Hu1 & Hu2 & Hu0 & Hu3).
    rewrite Hs0 in Hu1. rewrite Hf0 in Hu2, Hu3.
    assert (Hw : forall D, Dok C big' medium' D ->
      3 * wsum4 C D (snd cur1) + Bud C D medium' <= 24 * D + Bud C D medium).
    { intros D HD. rewrite Hu1. apply Hbin; [exact HD|]. apply Hu3. destruct HD as (HD & _). exact HD. }
    unfold close_full. cbn [fst]. destruct (fst cur1 >=? C) eqn:EC.
    - apply (good_cons C bs cur1 big' medium' big medium); try assumption.
      apply (Hrec (bs ++ [cur1]) empty_bin big' medium' small' Hsb Hsm Hb Hm Hs' (or_introl eq_refl)).
      apply resid_empty; exact HC.
    - destruct Hor as [Hor|Hor]; [lia|]. subst small'.
      apply (good_incl C bs big' medium' big medium); try assumption.
      apply (Hrec bs cur1 big' medium' [] Hsb Hsm Hb Hm (Forall_nil _) (or_intror eq_refl)).
      split; [lia|]. intros D HD. specialize (Hw D HD). pose proof HD as (HD0 & _).
      pose proof (Bud_bounds C D medium' HD0). pose proof (Bud_bounds C D medium HD0). lia.
  Qed.

  Lemma medp_pos C l : 0 < C -> Forall (medp C) l -> Forall (fun a => 0 < valueof a) l.
  Proof. intros HC H. eapply Forall_impl; [|exact H]. intros a [Ha _]. lia. Qed.
  Lemma bigp_pos C l : 0 < C -> Forall (bigp C) l -> Forall (fun a => 0 < valueof a) l.
  Proof. intros HC H. eapply Forall_impl; [|exact H]. unfold bigp. intros a Ha. lia. Qed.

  Lemma main_all C : 0 < C -> forall f, main_at C f.
  Proof.
    intros HC. induction f as [|f IH]; intros bs cur big medium small Hsb Hsm Hb Hm Hsmall Hor Hres.
    - cbn [tq_loop]. apply good_stop; assumption.
    - rewrite tq_loop_close. destruct small as [|s0 smt]; [apply good_B; assumption|].
      destruct Hor as [->|Hd]; [|discriminate Hd].
      destruct (is_nil big && is_nil medium) eqn:EN.
      + destruct big; [|discriminate EN]. destruct medium; [|discriminate EN].
        apply good_A; assumption.
      + unfold tq_pick. cbn [fst snd].
        destruct (zsum (map valueof (firstn 1 big)) >=? zsum (map valueof (firstn 2 medium))) eqn:Ecmp.
        * (* opened by the largest big item *)
          destruct big as [|x0 big'].
          { destruct medium as [|m0 mt]; [discriminate EN|].
            pose proof (firstn_pos_sum valueof 2 (m0 :: mt) (medp_pos C _ HC Hm)) as Hp.
            change (zsum (map valueof (firstn 1 []))) with 0 in Ecmp.
            assert (0 < zsum (map valueof (firstn 2 (m0 :: mt)))) by (apply Hp; [discriminate|lia]).
            lia. }
          cbn [firstn skipn fold_left].
          inversion Hsb as [|a1 l1 Hsb' Hle]; subst a1 l1.
          inversion Hb as [|a1 l1 Hx0 Hb']; subst a1 l1.
          apply (iter_step C f HC IH bs (x0 :: big') medium (s0 :: smt) big' medium [x0]);
            try assumption.
          -- cbn. lia.
          -- reflexivity.
          -- unfold bigp in Hx0. cbn. lia.
          -- intros a Ha. right. exact Ha.
          -- apply incl_refl.
          -- apply incl_refl.
          -- intros used D HD Hused.
             assert (H : 3 * wsum4 C D ([x0] ++ used) <= 24 * D); [|lia].
             cbn [app]. apply (binX C D x0 big' medium used); try assumption.
             ++ change (zsum (map valueof (firstn 1 (x0 :: big')))) with (valueof x0 + 0) in Ecmp.
                lia.
             ++ replace (valueof x0) with (vsum [x0]) by (cbn; lia). exact Hused.
        * (* opened by the two largest medium items *)
          pose proof (firstn_nonneg_sum valueof 1 big (bigp_pos C _ HC Hb)) as Hb0.
          destruct medium as [|m1 [|m2 rest]].
          { change (zsum (map valueof (firstn 2 []))) with 0 in Ecmp. lia. }
          { cbn [firstn skipn fold_left].
            change (zsum (map valueof (firstn 2 [m1]))) with (valueof m1 + 0) in Ecmp.
            inversion Hm as [|a1 l1 Hm1 _]; subst a1 l1. pose proof Hm1 as [Hm13 Hm12].
            apply (iter_step C f HC IH bs big [m1] (s0 :: smt) big [] [m1]); try assumption.
            - cbn. lia.
            - reflexivity.
            - cbn. lia.
            - apply incl_refl.
            - intros a Ha. destruct Ha.
            - apply incl_refl.
            - constructor.
            - constructor.
            - intros used D HD Hused. pose proof HD as (HD0 & _).
              pose proof (Bud_incl C D [] [m1] HD0 (incl_nil_l _)) as HB.
              assert (H : 3 * wsum4 C D ([m1] ++ used) <= 24 * D); [|lia].
              cbn [app]. apply (binY_single C D big m1 used); try assumption; [lia|].
              replace (valueof m1) with (vsum [m1]) by (cbn; lia). exact Hused. }
          cbn [firstn skipn fold_left].
          change (zsum (map valueof (firstn 2 (m1 :: m2 :: rest))))
            with (valueof m1 + (valueof m2 + 0)) in Ecmp.
          inversion Hm as [|a1 l1 [Hm13 Hm12] Hm']; subst a1 l1.
          inversion Hm' as [|a2 l2 [Hm23 Hm22] Hmr]; subst a2 l2.
          inversion Hsm as [|a1 l1 Hsm' _]; subst a1 l1.
          inversion Hsm' as [|a2 l2 Hsr _]; subst a2 l2.
          apply (iter_step C f HC IH bs big (m1 :: m2 :: rest) (s0 :: smt) big rest [m1; m2]);
            try assumption.
          -- cbn. lia.
          -- reflexivity.
          -- cbn. lia.
          -- apply incl_refl.
          -- intros a Ha. right. right. exact Ha.
          -- intros a Ha. cbn [tl]. right. destruct rest as [|r0 rt]; [destruct Ha|right; exact Ha].
          -- intros used D HD Hused. cbn [app].
             apply (binY_pair C D big m1 m2 rest used); try assumption; [lia|].
             replace (valueof m1 + valueof m2) with (vsum [m1; m2]) by (cbn; lia). exact Hused.
  Qed.

  Lemma desc_filter (p : A -> bool) l : desc l -> desc (filter p l).
  Proof.
    induction 1 as [|a l Hs IH Hf]; cbn [filter]; [constructor|].
    destruct (p a); [|exact IH]. constructor; [exact IH|].
    apply Forall_forall. intros b Hb. apply filter_In in Hb. destruct Hb as [Hb _].
    rewrite Forall_forall in Hf. apply Hf. exact Hb.
  Qed.

  (** ---- the whole run: some D accounts for all the bins and the left-over ---- *)
  Lemma tq_weights C items : 0 < C -> Forall (fun a => 0 < valueof a) items ->
    exists D rest, 0 < D /\ D <= C /\
      Permutation (contents (cover_threequarters valueof true C items) ++ rest) items /\
      3 * (wsum4 C D (contents (cover_threequarters valueof true C items)) + wsum4 C D rest)
        <= 24 * D * Z.of_nat (length (cover_threequarters valueof true C items)) + 66 * D.
  Proof.
    intros HC Hpos. unfold cover_threequarters. cbv zeta.
    set (s := sort_desc valueof items).
    set (B := filter (is_big valueof C) s). set (M := filter (is_medium valueof C) s).
    set (Z := filter (is_small valueof C) s).
    set (st := tq_loop valueof true (S (length items)) C ([], empty_bin) B M Z).
    assert (Hs : Forall (fun a => 0 < valueof a) s).
    { eapply Permutation_Forall; [symmetry; apply sort_desc_perm|exact Hpos]. }
    destruct (tq_final valueof C items HC Hpos) as (_ & _ & _ & _ & HPi). fold s B M Z st in HPi.
    rewrite app_nil_r in HPi.
    assert (Hsorted : desc s) by apply sort_desc_sorted.
    assert (Hgood : good C [] B M st).
    { subst st. apply main_all; try assumption.
      - apply desc_filter. exact Hsorted.
      - apply desc_filter. exact Hsorted.
      - eapply Forall_impl; [|apply (filter_Forall_both _ (is_big valueof C) s Hs)].
        cbv beta. unfold is_big, bigp. intros a [_ Ha]. lia.
      - eapply Forall_impl; [|apply (filter_Forall_both _ (is_medium valueof C) s Hs)].
        cbv beta. unfold is_medium, medp. intros a [_ Ha]. lia.
      - eapply Forall_impl; [|apply (filter_Forall_both _ (is_small valueof C) s Hs)].
        cbv beta. unfold is_small, smp. intros a [Ha0 Ha]. lia.
      - left. reflexivity.
      - apply resid_empty. exact HC. }
    destruct Hgood as (new & D & H1 & (HD & HDC & _) & H3). cbn [app] in H1.
    exists D, (snd (snd st)). rewrite H1 in *. pose proof (Bud_bounds C D M HD).
    split; [exact HD|]. split; [exact HDC|]. split; [exact HPi|]. lia.
  Qed.

  (** C10: threequarters fills at least 3/4 of OPT, up to an additive constant.
      The accounting gives 18 * OPT <= 24 * bins + 66, i.e. 3 * OPT <= 4 * bins + 11. *)
  Theorem threequarters_ratio_strong : forall C items n, 0 < C ->
    Forall (fun x => 0 < valueof x) items -> MaxCover C (map valueof items) n ->
    (3 * n <= 4 * length (cover_threequarters valueof true C items) + 11)%nat.
  Proof.
    intros C items n HC Hpos [Hcov _].
    destruct (tq_weights C items HC Hpos) as (D & rest & HD & HDC & HP & Hw).
    pose proof (opt_weight valueof (W4 C D) C (6 * D) items n _ rest
      (fun v => W4_nonneg C D v HD HDC) (fun Q => W4_valid C D Q HD HDC) Hpos Hcov HP) as Hopt.
    set (m := length (cover_threequarters valueof true C items)) in *.
    assert (Hle : (18 * Z.of_nat n) * D <= (24 * Z.of_nat m + 66) * D) by lia.
    apply Z.mul_le_mono_pos_r in Hle; [lia|exact HD].
  Qed.

  Theorem threequarters_ratio : forall C items n, 0 < C ->
    Forall (fun x => 0 < valueof x) items -> MaxCover C (map valueof items) n ->
    (3 * n <= 4 * length (cover_threequarters valueof true C items) + 16)%nat.
  Proof.
    intros C items n HC Hpos Hmax.
    pose proof (threequarters_ratio_strong C items n HC Hpos Hmax). lia.
  Qed.
End CoverRatio34.

(** ---- the guarantee against the executable oracle, and examples ---- *)
From Prtpy Require Import Oracle.Reach Proofs.OracleSpec.

Corollary threequarters_ratio_oracle : forall C vs, 0 < C -> Forall (fun v => 0 < v) vs ->
  (3 * max_cover C vs <= 4 * length (cover_threequarters idz4 true C vs) + 16)%nat.
Proof.
  intros C vs HC Hpos. apply (threequarters_ratio idz4 C vs (max_cover C vs) HC Hpos).
  change (map idz4 vs) with (map (fun v : Z => v) vs). rewrite map_id.
  apply max_cover_spec; assumption.
Qed.

(** the heuristic can lose a bin: OPT = 2 ([8;5], [7;6]), one bin filled *)
Example threequarters_ratio_loss :
  max_cover 12 [8; 7; 6; 5] = 2%nat /\
  cover_threequarters idz4 true 12 [8; 7; 6; 5] = [(15, [8; 7])].
Proof. split; [apply (max_cover_witness _ _ [0; 1; 1; 0]%nat)|]; reflexivity. Qed.

(** a run with an unbalanced medium pair (49 + 35 beats 80 although 2 * 35 < 80): with
    D = 3 * (100 - 80) = 60 the item 35 lies on the flat part of the weight (120 = 2 D
    instead of 90); such a bin can weigh up to 9 D instead of 8 D, which happens at most
    once per run and is paid by the allowance [Bud] *)
Example threequarters_ratio_unbalanced :
  max_cover 100 [80; 80; 49; 35; 34; 6; 5; 5; 4] = 2%nat /\
  cover_threequarters idz4 true 100 [80; 80; 49; 35; 34; 6; 5; 5; 4] =
    [(104, [49; 35; 4; 5; 5; 6]); (160, [80; 80])] /\
  map (W4 100 60) [49; 35; 4; 5; 5; 6] = [174; 120; 24; 30; 30; 36].
Proof.
  split; [apply (max_cover_witness _ _ [0; 1; 0; 1; 0; 0; 0; 0; 0]%nat)|split]; reflexivity.
Qed.

(** the docstring instance for 3/4 with k = 1, scaled by 1/10 and shortened to 9 items *)
Example threequarters_ratio_docstring :
  let vs := [59; 59; 40; 40; 40; 40; 1; 1; 1] in
  (max_cover 120 vs, cover_threequarters idz4 true 120 vs) =
  (2%nat, [(120, [59; 59; 1; 1]); (121, [40; 40; 1; 40])]).
Proof.
  cbv zeta. rewrite (max_cover_witness 120 _ [0; 0; 1; 1; 1; 1; 0; 0; 1]%nat 2) by reflexivity.
  reflexivity.
Qed.

(** the weights: a covered bin weighs at least 6 D, e.g. D = 60, C = 100 *)
Example W4_values :
  map (W4 100 60) [5; 20; 33; 34; 45; 50; 55; 70; 80; 90; 100; 120] =
  [30; 120; 120; 120; 150; 180; 210; 240; 240; 300; 360; 360].
Proof. reflexivity. Qed.

Print Assumptions threequarters_ratio.
Print Assumptions threequarters_ratio_strong.
Print Assumptions threequarters_ratio_oracle.
