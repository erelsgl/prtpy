(** Proofs about the model of prtpy/objectives.py:
    every objective computes its documented quantity (C20);
    the pruning lower bounds are admissible (C13). *)
From Prtpy Require Import Base.Prelude Model.Objectives Proofs.BaseLemmas.
From Coq Require Import Sorting.Sorted ZifyBool.

(** * Generic helpers *)

(** sorted permutations of integer lists are equal *)
Lemma sorted_perm_eq (l1 l2 : list Z) :
  StronglySorted Z.le l1 -> StronglySorted Z.le l2 -> Permutation l1 l2 -> l1 = l2.
Proof.
  revert l2; induction l1 as [|x t1 IH]; intros l2 S1 S2 P.
  - apply Permutation_nil in P. subst; reflexivity.
  - destruct l2 as [|y t2].
    + apply Permutation_sym, Permutation_nil in P. discriminate.
    + apply StronglySorted_inv in S1. destruct S1 as [S1 F1].
      apply StronglySorted_inv in S2. destruct S2 as [S2 F2].
      rewrite Forall_forall in F1, F2.
      assert (Hxy : x = y).
      { assert (I1 : In x (y :: t2)) by (eapply Permutation_in; [exact P|left; reflexivity]).
        assert (I2 : In y (x :: t1)) by (eapply Permutation_in; [symmetry; exact P|left; reflexivity]).
        destruct I1 as [I1|I1]; [auto|]. destruct I2 as [I2|I2]; [auto|].
        apply F2 in I1. apply F1 in I2. lia. }
      subst y. f_equal. apply IH; auto. eapply Permutation_cons_inv; exact P.
Qed.

Lemma sort_asc_perm_eq (s1 s2 : list Z) :
  Permutation s1 s2 -> sort_asc (fun x => x) s1 = sort_asc (fun x => x) s2.
Proof.
  intros P. apply sorted_perm_eq; try apply sort_asc_sorted.
  rewrite (sort_asc_perm (fun x : Z => x) s1), (sort_asc_perm (fun x : Z => x) s2). exact P.
Qed.

(** the sorted list given by the user is the model's sorted list *)
Lemma sorted_perm_sort_asc (l s : list Z) :
  Permutation l s -> StronglySorted Z.le l -> sort_asc (fun x => x) s = l.
Proof.
  intros P S. rewrite <- (sort_asc_perm_eq l s P). apply sort_asc_id; exact S.
Qed.

(** head / last of a sorted list are its min / max *)
Lemma hd_sorted_zmin (s : list Z) : StronglySorted Z.le s -> hd 0 s = zmin s.
Proof.
  intros S. destruct s as [|x t]; [reflexivity|].
  apply StronglySorted_inv in S. destruct S as [_ F]. rewrite Forall_forall in F.
  cbn [hd].
  pose proof (zmin_in (x :: t)) as I. pose proof (zmin_le (x :: t)) as L.
  assert (I' : In (zmin (x :: t)) (x :: t)) by (apply I; discriminate).
  apply Forall_inv in L. destruct I' as [I'|I']; [auto|]. apply F in I'. lia.
Qed.

Lemma last_In (s : list Z) d : s <> [] -> In (last s d) s.
Proof.
  induction s as [|x t IH]; intros H; [congruence|].
  destruct t as [|y t']; [left; reflexivity|].
  right. change (In (last (y :: t') d) (y :: t')). apply IH. discriminate.
Qed.

Lemma last_sorted_ge (s : list Z) d : StronglySorted Z.le s -> Forall (fun x => x <= last s d) s.
Proof.
  induction s as [|x t IH]; intros S; [constructor|].
  apply StronglySorted_inv in S. destruct S as [S F].
  destruct t as [|y t'].
  - constructor; [cbn; lia|constructor].
  - change (last (x :: y :: t') d) with (last (y :: t') d).
    constructor; [|apply IH; exact S].
    rewrite Forall_forall in F. apply F. apply last_In. discriminate.
Qed.

Lemma last_sorted_zmax (s : list Z) : StronglySorted Z.le s -> last s 0 = zmax s.
Proof.
  intros S. destruct s as [|x t]; [reflexivity|].
  assert (NE : x :: t <> []) by discriminate.
  pose proof (last_In (x :: t) 0 NE) as I1.
  pose proof (zmax_in (x :: t) NE) as I2.
  pose proof (last_sorted_ge (x :: t) 0 S) as G1.
  pose proof (zmax_ge (x :: t)) as G2.
  rewrite Forall_forall in G1, G2. apply G1 in I2. apply G2 in I1. lia.
Qed.

(** * Objectives compute their documented quantity (C20) *)

Theorem value_perm : forall o s1 s2, Permutation s1 s2 -> value o s1 false = value o s2 false.
Proof.
  intros o s1 s2 P. destruct o as [| | |k|k]; unfold value.
  - rewrite (zmin_perm s1 s2 P). reflexivity.
  - apply zmax_perm; exact P.
  - rewrite (zmin_perm s1 s2 P), (zmax_perm s1 s2 P). reflexivity.
  - rewrite (sort_asc_perm_eq s1 s2 P). reflexivity.
  - rewrite (sort_asc_perm_eq s1 s2 P). reflexivity.
Qed.

Theorem value_sorted_flag : forall o s, s <> [] -> StronglySorted Z.le s -> value o s true = value o s false.
Proof.
  intros o s _ S. destruct o as [| | |k|k]; unfold value, head0, last0.
  - rewrite (hd_sorted_zmin s S). reflexivity.
  - apply last_sorted_zmax; exact S.
  - rewrite (hd_sorted_zmin s S), (last_sorted_zmax s S). reflexivity.
  - rewrite (sort_asc_id _ s S). reflexivity.
  - rewrite (sort_asc_id _ s S). reflexivity.
Qed.

Theorem value_MaxSmallest_spec : forall s, s <> [] ->
  In (- value MaxSmallest s false) s /\ Forall (fun x => - value MaxSmallest s false <= x) s.
Proof.
  intros s NE. unfold value. rewrite Z.opp_involutive. split; [apply zmin_in; exact NE|apply zmin_le].
Qed.

Theorem value_MinLargest_spec : forall s, s <> [] ->
  In (value MinLargest s false) s /\ Forall (fun x => x <= value MinLargest s false) s.
Proof.
  intros s NE. unfold value. split; [apply zmax_in; exact NE|apply zmax_ge].
Qed.

Theorem value_MinDiff_spec : forall s, s <> [] ->
  value MinDiff s false = value MinLargest s false + value MaxSmallest s false.
Proof. intros s _. unfold value. lia. Qed.

Theorem value_MaxKSmallest_spec : forall k s l, Permutation l s -> StronglySorted Z.le l ->
  value (MaxKSmallest k) s false = - zsum (firstn k l).
Proof.
  intros k s l P S. unfold value. rewrite (sorted_perm_sort_asc l s P S). reflexivity.
Qed.

Theorem value_MinKLargest_spec : forall k s l, (1 <= k)%nat -> Permutation l s -> StronglySorted Z.le l ->
  value (MinKLargest k) s false = zsum (skipn (length l - k) l).
Proof.
  intros k s l Hk P S. unfold value. rewrite (sorted_perm_sort_asc l s P S).
  unfold py_suffix. destruct k as [|k']; [lia|reflexivity].
Qed.

(** k = 0 : Python's sums[-0:] is the whole list, so the hypothesis 1 <= k above is necessary *)
Example value_MinKLargest_k0 :
  value (MinKLargest 0) [2;4;1;5;3] false = 15 /\ zsum (skipn (length [1;2;3;4;5] - 0) [1;2;3;4;5]) = 0.
Proof. vm_compute. split; reflexivity. Qed.

Theorem value_weighted_sorted_refused : forall ws s, value_weighted ws s true = Err ValueError.
Proof. intros ws s. reflexivity. Qed.

(** fractions with positive denominators compared by cross-multiplication: transitivity *)
Lemma frac_le_trans a b c d e f :
  0 < b -> 0 < d -> 0 < f -> a * d <= c * b -> c * f <= e * d -> a * f <= e * b.
Proof.
  intros Hb Hd Hf H1 H2.
  assert (H3 : a * d * f <= c * b * f) by (apply Z.mul_le_mono_nonneg_r; lia).
  assert (H4 : c * f * b <= e * d * b) by (apply Z.mul_le_mono_nonneg_r; lia).
  assert (H5 : d * (a * f) <= d * (e * b)) by lia.
  apply Z.mul_le_mono_pos_l in H5; assumption.
Qed.

Lemma wmin_aux_spec : forall l best,
  0 < snd best -> Forall (fun p => 0 < snd p) l ->
  let r := wmin_aux best l in
  (r = best \/ In r l) /\ 0 < snd r /\
  fst r * snd best <= fst best * snd r /\
  Forall (fun p => fst r * snd p <= fst p * snd r) l.
Proof.
  induction l as [|[s w] t IH]; intros best Hb Hl; cbn zeta.
  - cbn [wmin_aux]. repeat split; auto; lia.
  - apply Forall_cons_iff in Hl. destruct Hl as [Hw Hl]. cbn [snd] in Hw.
    cbn [wmin_aux]. destruct (s * snd best <? fst best * w) eqn:E.
    + destruct (IH (s, w) Hw Hl) as (I & P & L & F). cbn [fst snd] in L.
      split; [destruct I as [I|I]; [right; left; symmetry; exact I|right; right; exact I]|].
      split; [exact P|]. split.
      * apply (frac_le_trans _ _ s w _ _); try assumption; lia.
      * constructor; [cbn [fst snd]; exact L|exact F].
    + destruct (IH best Hb Hl) as (I & P & L & F).
      split; [destruct I as [I|I]; [left; exact I|right; right; exact I]|].
      split; [exact P|]. split; [exact L|].
      constructor; [|exact F]. cbn [fst snd].
      apply (frac_le_trans _ _ (fst best) (snd best) _ _); try assumption; lia.
Qed.

Lemma combine_snd_pos (s ws : list Z) :
  Forall (fun w => 0 < w) ws -> Forall (fun p : Z * Z => 0 < snd p) (combine s ws).
Proof.
  intros H. revert s; induction H as [|w ws' Hw Hws IH]; intros s.
  - destruct s; constructor.
  - destruct s as [|x s']; [constructor|]. cbn [combine]. constructor; [exact Hw|apply IH].
Qed.

Theorem value_weighted_spec : forall ws s n d,
  Forall (fun w => 0 < w) ws -> value_weighted ws s false = Ok (n, d) ->
  In (n, d) (combine s ws) /\ 0 < d /\ Forall (fun p => n * snd p <= fst p * d) (combine s ws).
Proof.
  intros ws s n d Hws Hv. unfold value_weighted in Hv.
  pose proof (combine_snd_pos s ws Hws) as Hpos.
  destruct (combine s ws) as [|p t]; [discriminate|].
  injection Hv as Hv.
  apply Forall_cons_iff in Hpos. destruct Hpos as [Hp Ht].
  destruct (wmin_aux_spec t p Hp Ht) as (I & P & L & F).
  rewrite Hv in I, P, L, F. cbn [fst snd] in P, L, F.
  split; [destruct I as [I|I]; [left; symmetry; exact I|right; exact I]|].
  split; [exact P|]. constructor; [exact L|exact F].
Qed.

(** * The pruning bounds are admissible (C13) *)

Lemma Forall2_le_zsum (s f : list Z) : Forall2 Z.le s f -> zsum s <= zsum f.
Proof. induction 1 as [|x y s' f' Hxy H IH]; [lia|]. rewrite !zsum_cons. lia. Qed.

(** a completion can be permuted along with the partial sums *)
Lemma Forall2_le_perm (s s' : list Z) : Permutation s s' ->
  forall f, Forall2 Z.le s f -> exists f', Permutation f f' /\ Forall2 Z.le s' f'.
Proof.
  induction 1 as [|x l l' P IH|x y l|l l' l'' P1 IH1 P2 IH2]; intros f H.
  - inversion H; subst. exists []. split; constructor.
  - inversion H as [|x0 fx l0 ft Hx Ht]; subst.
    destruct (IH ft Ht) as (ft' & Pf & Hf).
    exists (fx :: ft'). split; [constructor; exact Pf|constructor; assumption].
  - inversion H as [|y0 fy l0 ft Hy Ht]; subst.
    inversion Ht as [|x0 fx l1 ft' Hx Ht']; subst.
    exists (fx :: fy :: ft'). split; [apply perm_swap|].
    constructor; [exact Hx|]. constructor; assumption.
  - destruct (IH1 f H) as (f1 & Pf1 & Hf1).
    destruct (IH2 f1 Hf1) as (f2 & Pf2 & Hf2).
    exists f2. split; [eapply Permutation_trans; eassumption|exact Hf2].
Qed.

(** the loop of lower_bound (the sums need not be sorted): [i] is the loop counter, the number of
    sums absorbed so far; [acc] is the running sum_of_remaining_items, the remaining items plus the
    absorbed sums; [frest] are the final values of the sums [rest] not yet reached, in a completion
    whose smallest sum is at least [m].  The hypothesis on [acc]: it pays for [m] in each of the [i]
    absorbed bins and for the growth of the others *)
Lemma waterfill_admissible : forall rest frest i acc m,
  0 < i -> Forall2 Z.le rest frest -> Forall (fun x => m <= x) frest ->
  i * m + (zsum frest - zsum rest) <= acc ->
  m <= waterfill i acc rest.
Proof.
  induction rest as [|s rest IH]; intros frest i acc m Hi Hc Hall Hacc.
  - inversion Hc; subst. cbn [waterfill]. change (zsum []) with 0 in Hacc.
    apply Z.div_le_lower_bound; lia.
  - inversion Hc as [|s' fx ss fs Hsf Hc']; subst.
    apply Forall_cons_iff in Hall. destruct Hall as [Hmf Hall'].
    pose proof (Forall2_le_zsum _ _ Hc') as Hge.
    rewrite !zsum_cons in Hacc.
    cbn [waterfill]. destruct (acc <=? i * s) eqn:E.
    + apply Z.div_le_lower_bound; nia.
    + apply (IH fs (i + 1) (acc + s) m); try lia; auto.
Qed.

(** the bound on an arbitrary (not nec. sorted) non-empty list of sums *)
Lemma waterfill_list_admissible (s0 : Z) (rest f : list Z) (R m : Z) :
  Forall2 Z.le (s0 :: rest) f -> zsum f = zsum (s0 :: rest) + R ->
  Forall (fun x => m <= x) f ->
  m <= waterfill 1 (R + s0) rest.
Proof.
  intros Hc Hsum Hall.
  inversion Hc as [|s' f0 ss fs Hsf Hc']; subst.
  apply Forall_cons_iff in Hall. destruct Hall as [Hmf Hall'].
  rewrite !zsum_cons in Hsum.
  apply (waterfill_admissible rest fs 1 (R + s0) m); try lia; auto.
Qed.

Lemma lb_maxmin_perm_admissible (s s' f : list Z) (R : Z) :
  s <> [] -> Permutation s s' -> Forall2 Z.le s f -> zsum f = zsum s + R ->
  match s' with [] => 0 | s0 :: rest => - waterfill 1 (R + s0) rest end <= - zmin f.
Proof.
  intros NE P Hc Hsum. destruct (Forall2_le_perm _ _ P f Hc) as (f' & Pf & Hc').
  destruct s' as [|s0 rest]; [apply Permutation_sym, Permutation_nil in P; congruence|].
  rewrite (zsum_perm _ _ Pf), (zsum_perm _ _ P) in Hsum.
  pose proof (waterfill_list_admissible s0 rest f' R (zmin f') Hc' Hsum (zmin_le f')) as H.
  rewrite (zmin_perm f f' Pf). lia.
Qed.

Theorem lb_maxmin_admissible : forall s f R flag,
  s <> [] -> (flag = true -> StronglySorted Z.le s) ->
  Forall2 Z.le s f -> zsum f = zsum s + R ->
  lb_maxmin s R flag <= value MaxSmallest f false.
Proof.
  intros s f R flag NE _ Hc Hsum. unfold lb_maxmin, value.
  apply (lb_maxmin_perm_admissible s); auto.
  destruct flag; [reflexivity|symmetry; apply sort_asc_perm].
Qed.

(** --- min-max bound --- *)

Lemma cdiv_le (a n M : Z) : 0 < n -> a <= n * M -> cdiv a n <= M.
Proof.
  intros Hn H. unfold cdiv.
  assert (- M <= (- a) / n) by (apply Z.div_le_lower_bound; lia). lia.
Qed.

Lemma Forall2_le_In (s f : list Z) x : Forall2 Z.le s f -> In x s -> exists y, In y f /\ x <= y.
Proof.
  induction 1 as [|a b s' f' Hab H IH]; intros I; [destruct I|].
  destruct I as [I|I].
  - subst a. exists b. split; [left; reflexivity|exact Hab].
  - destruct (IH I) as (y & Iy & Hy). exists y. split; [right; exact Iy|exact Hy].
Qed.

Theorem lb_minmax_admissible : forall s f R flag,
  s <> [] -> (flag = true -> StronglySorted Z.le s) ->
  Forall2 Z.le s f -> zsum f = zsum s + R ->
  lb_minmax s R flag <= value MinLargest f false.
Proof.
  intros s f R flag NE _ Hc Hsum. unfold lb_minmax, value, last0.
  apply Z.max_lub.
  - assert (I : In (if flag then last s 0 else zmax s) s).
    { destruct flag; [apply last_In|apply zmax_in]; exact NE. }
    destruct (Forall2_le_In s f _ Hc I) as (y & Iy & Hy).
    apply zmax_ge_in in Iy. lia.
  - rewrite <- Hsum. rewrite (Forall2_length_eq _ s f Hc).
    assert (Hlen : 0 < Z.of_nat (length f)).
    { destruct Hc as [|a b s' f' Hab Hc']; [congruence|]. cbn [length]. lia. }
    apply cdiv_le; [exact Hlen|]. apply zsum_le_bound. apply zmax_ge.
Qed.

Theorem lb_diff_admissible : forall s f R flag b,
  s <> [] -> (flag = true -> StronglySorted Z.le s) ->
  Forall2 Z.le s f -> zsum f = zsum s + R ->
  lower_bound MinDiff s R flag = Some b -> b <= value MinDiff f false.
Proof.
  intros s f R flag b NE Hs Hc Hsum Hb. unfold lower_bound in Hb. injection Hb as <-.
  pose proof (lb_maxmin_admissible s f R flag NE Hs Hc Hsum) as H1.
  pose proof (lb_minmax_admissible s f R flag NE Hs Hc Hsum) as H2.
  unfold value in *. lia.
Qed.

Theorem lower_bound_admissible : forall o s f R flag b,
  s <> [] -> (flag = true -> StronglySorted Z.le s) ->
  Forall2 Z.le s f -> zsum f = zsum s + R ->
  lower_bound o s R flag = Some b -> b <= value o f false.
Proof.
  intros o s f R flag b NE Hs Hc Hsum Hb. destruct o as [| | |k|k].
  - unfold lower_bound in Hb. injection Hb as <-. apply lb_maxmin_admissible; assumption.
  - unfold lower_bound in Hb. injection Hb as <-. apply lb_minmax_admissible; assumption.
  - eapply lb_diff_admissible; eassumption.
  - discriminate Hb.
  - discriminate Hb.
Qed.

Lemma lb_maxmin_sorted_flag s R : StronglySorted Z.le s -> lb_maxmin s R true = lb_maxmin s R false.
Proof. intros S. unfold lb_maxmin. rewrite (sort_asc_id _ s S). reflexivity. Qed.

Lemma lb_minmax_sorted_flag s R : StronglySorted Z.le s -> lb_minmax s R true = lb_minmax s R false.
Proof. intros S. unfold lb_minmax, last0. rewrite (last_sorted_zmax s S). reflexivity. Qed.

Theorem lower_bound_sorted_flag : forall o s R, StronglySorted Z.le s ->
  lower_bound o s R true = lower_bound o s R false.
Proof.
  intros o s R S. destruct o as [| | |k|k]; unfold lower_bound;
    rewrite ?(lb_maxmin_sorted_flag s R S), ?(lb_minmax_sorted_flag s R S); reflexivity.
Qed.

(** Non-vacuity: the doctest values of the Python *)
Example lb_examples :
  lower_bound MaxSmallest [10;20;30;40;50] 45 true = Some (-35) /\
  lower_bound MinLargest [0;0;0;0;0] 54 true = Some 11 /\
  lower_bound MinDiff [10;20;30;40;50] 5 false = Some 35.
Proof. vm_compute. repeat split; reflexivity. Qed.

(** the admissibility hypotheses are satisfiable and the bound can be tight *)
Example lb_admissible_witness :
  Forall2 Z.le [10;20;30;40;50] [35;35;35;40;50] /\
  zsum [35;35;35;40;50] = zsum [10;20;30;40;50] + 45 /\
  value MaxSmallest [35;35;35;40;50] false = -35.
Proof. repeat split; try (vm_compute; reflexivity). repeat constructor; lia. Qed.

Print Assumptions sort_asc_perm_eq.
Print Assumptions value_perm.
Print Assumptions value_sorted_flag.
Print Assumptions value_MaxSmallest_spec.
Print Assumptions value_MinLargest_spec.
Print Assumptions value_MinDiff_spec.
Print Assumptions value_MaxKSmallest_spec.
Print Assumptions value_MinKLargest_spec.
Print Assumptions value_weighted_sorted_refused.
Print Assumptions value_weighted_spec.
Print Assumptions lb_maxmin_admissible.
Print Assumptions lb_minmax_admissible.
Print Assumptions lb_diff_admissible.
Print Assumptions lower_bound_admissible.
Print Assumptions lower_bound_sorted_flag.
Print Assumptions lb_examples.
