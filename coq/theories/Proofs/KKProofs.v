(** Proofs about Model/KK.v: Karmarkar-Karp (kk) and complete Karmarkar-Karp (ckk, generator). *)
From Prtpy Require Import Base.Prelude Base.Perms Model.Binner Model.KK Spec.Partition
  Proofs.BaseLemmas Proofs.BinnerLemmas Proofs.EraseLemmas Proofs.ObjectivesProofs Proofs.EnumProofs.
From Coq Require Import Sorting.Sorted ZifyBool.

Section KKProofs.
  Context {A : Type} (valueof nameof : A -> Z).

  Definition heap_contents (h : @heap A) : list A := concat (map (fun e => contents (snd e)) h).

  Definition entry_ok (k : nat) (e : @hentry A) : Prop :=
    length (snd e) = k /\ wf valueof (snd e).

  Definition heap_inv (k : nat) (its : list A) (h : @heap A) : Prop :=
    Forall (entry_ok k) h /\ Permutation (heap_contents h) its.

  Lemma heap_contents_cons (e : @hentry A) h :
    heap_contents (e :: h) = contents (snd e) ++ heap_contents h.
  Proof. reflexivity. Qed.

  Lemma heap_contents_perm (h1 h2 : @heap A) :
    Permutation h1 h2 -> Permutation (heap_contents h1) (heap_contents h2).
  Proof.
    induction 1 as [|x l l' P IH|x y l|l l' l'' P1 IH1 P2 IH2].
    - apply Permutation_refl.
    - rewrite !heap_contents_cons. apply Permutation_app_head. exact IH.
    - rewrite !heap_contents_cons. rewrite !app_assoc.
      apply Permutation_app_tail, Permutation_app_comm.
    - etransitivity; eauto.
  Qed.

  Lemma heap_insert_perm (e : @hentry A) h : Permutation (heap_insert e h) (e :: h).
  Proof.
    induction h as [|y t IH]; cbn [heap_insert]; auto.
    destruct (fst e <? fst y); auto.
    rewrite IH. apply perm_swap.
  Qed.

  Lemma heap_insert_length (e : @hentry A) h : length (heap_insert e h) = S (length h).
  Proof. apply (Permutation_length (heap_insert_perm e h)). Qed.

  Lemma heap_push_length (h : @heap A) b : length (heap_push h b) = S (length h).
  Proof. unfold heap_push. apply heap_insert_length. Qed.

  Lemma heap_insert_Forall (P : @hentry A -> Prop) e h :
    Forall P h -> P e -> Forall P (heap_insert e h).
  Proof.
    intros HF He. eapply Permutation_Forall; [symmetry; apply heap_insert_perm|].
    constructor; assumption.
  Qed.

  Lemma heap_push_Forall (P : @hentry A -> Prop) h b :
    Forall P h -> P (- bins_diff (sort_bins b), sort_bins b) -> Forall P (heap_push h b).
  Proof. intros HF He. unfold heap_push. apply heap_insert_Forall; assumption. Qed.

  Lemma singleton_bins_length keep k x : length (singleton_bins valueof keep k x) = k.
  Proof. unfold singleton_bins. rewrite add_item_length. apply new_bins_length. Qed.

  Lemma singleton_bins_wf k x : wf valueof (singleton_bins valueof true k x).
  Proof. unfold singleton_bins. apply add_item_wf, new_bins_wf. Qed.

  Lemma singleton_bins_contents k x : (1 <= k)%nat ->
    Permutation (contents (singleton_bins valueof true k x)) [x].
  Proof.
    intros Hk. unfold singleton_bins. rewrite add_item_contents.
    - rewrite new_bins_contents. apply Permutation_refl.
    - rewrite new_bins_length. lia.
  Qed.

  (** up to the order of its entries the initial heap holds, for every item, what [heap_push]
      makes of its singleton bins-array; all that is known of the initial heap comes from this *)
  Lemma initial_heap_perm keep k items :
    Permutation (initial_heap valueof keep k items)
                (map (fun x => (- bins_diff (sort_bins (singleton_bins valueof keep k x)),
                                sort_bins (singleton_bins valueof keep k x))) items).
  Proof.
    unfold initial_heap. rewrite <- (sort_desc_perm valueof items) at 2.
    rewrite <- (app_nil_r (map _ _)). unfold hentry. generalize (@nil (Z * bins A)%type).
    generalize (sort_desc valueof items).
    induction l as [|x t IH]; intros h; cbn [fold_left map app]; [apply Permutation_refl|].
    rewrite IH. etransitivity; [apply Permutation_app_head; unfold heap_push; apply heap_insert_perm|].
    symmetry. apply Permutation_middle.
  Qed.

  Lemma initial_heap_length keep k items :
    length (initial_heap valueof keep k items) = length items.
  Proof. rewrite (Permutation_length (initial_heap_perm keep k items)). apply map_length. Qed.

  Lemma initial_heap_Forall_items (Q : @hentry A -> Prop) keep k items :
    Forall (fun x => Q (- bins_diff (sort_bins (singleton_bins valueof keep k x)),
                        sort_bins (singleton_bins valueof keep k x))) items ->
    Forall Q (initial_heap valueof keep k items).
  Proof.
    intros H. eapply Permutation_Forall; [symmetry; apply initial_heap_perm|]. apply Forall_map. exact H.
  Qed.

  Theorem initial_heap_inv k items : (1 <= k)%nat ->
    heap_inv k items (initial_heap valueof true k items) /\
    length (initial_heap valueof true k items) = length items.
  Proof.
    intros Hk. split; [|apply initial_heap_length]. split.
    - apply initial_heap_Forall_items, Forall_forall. intros x _. split; cbn [snd].
      + rewrite sort_bins_length. apply singleton_bins_length.
      + apply sort_bins_wf, singleton_bins_wf.
    - rewrite (heap_contents_perm _ _ (initial_heap_perm true k items)).
      induction items as [|x t IH]; [apply Permutation_refl|].
      cbn [map]. rewrite heap_contents_cons. cbn [snd].
      rewrite sort_bins_contents, singleton_bins_contents by exact Hk. apply perm_skip. exact IH.
  Qed.

  Lemma zip_combine_length (b1 b2 : bins A) : length (zip_combine b1 b2) = length b1.
  Proof.
    revert b2; induction b1 as [|x t IH]; intros [|y t2]; cbn [zip_combine length]; auto.
  Qed.

  Lemma zip_combine_wf (b1 b2 : bins A) :
    wf valueof b1 -> wf valueof b2 -> wf valueof (zip_combine b1 b2).
  Proof.
    unfold wf. revert b2; induction b1 as [|x t IH]; intros [|y t2] H1 H2; cbn [zip_combine]; auto.
    inversion H1 as [|x' t' Hx Ht]; subst. inversion H2 as [|y' t2' Hy Ht2]; subst.
    constructor; [apply combine_bin_wf; assumption|apply IH; assumption].
  Qed.

  Lemma zip_combine_contents (b1 b2 : bins A) : length b1 = length b2 ->
    Permutation (contents (zip_combine b1 b2)) (contents b1 ++ contents b2).
  Proof.
    revert b2; induction b1 as [|x t IH]; intros [|y t2] H; cbn [length] in H;
      try discriminate; cbn [zip_combine].
    - apply Permutation_refl.
    - rewrite !contents_cons. cbn [combine_bin snd]. rewrite IH by lia.
      rewrite <- !app_assoc. apply Permutation_app_head.
      rewrite !app_assoc. apply Permutation_app_tail, Permutation_app_comm.
  Qed.

  Lemma rev_contents (b : bins A) : Permutation (contents (rev b)) (contents b).
  Proof. apply contents_perm. symmetry. apply Permutation_rev. Qed.

  Lemma kk_combine_length (b1 b2 : bins A) : length (kk_combine b1 b2) = length b1.
  Proof. apply zip_combine_length. Qed.

  Lemma kk_combine_wf (b1 b2 : bins A) :
    wf valueof b1 -> wf valueof b2 -> wf valueof (kk_combine b1 b2).
  Proof. intros H1 H2. apply zip_combine_wf; [exact H1|apply Forall_rev; exact H2]. Qed.

  Lemma kk_combine_contents (b1 b2 : bins A) : length b1 = length b2 ->
    Permutation (contents (kk_combine b1 b2)) (contents b1 ++ contents b2).
  Proof.
    intros H. unfold kk_combine. rewrite zip_combine_contents by (rewrite rev_length; exact H).
    apply Permutation_app_head, rev_contents.
  Qed.

  Lemma replace_top_inv k its e1 e2 rest c :
    heap_inv k its (e1 :: e2 :: rest) ->
    length c = k -> wf valueof c ->
    Permutation (contents c) (contents (snd e1) ++ contents (snd e2)) ->
    heap_inv k its (heap_push rest c).
  Proof.
    intros [HF HP] Hl Hw Hc. unfold heap_push. split.
    - apply heap_insert_Forall; [exact (Forall_inv_tail (Forall_inv_tail HF))|].
      split; cbn [snd]; [rewrite sort_bins_length; exact Hl|apply sort_bins_wf; exact Hw].
    - rewrite (heap_contents_perm _ _ (heap_insert_perm _ rest)), heap_contents_cons. cbn [snd].
      rewrite sort_bins_contents, Hc, <- app_assoc. rewrite !heap_contents_cons in HP. exact HP.
  Qed.

  Lemma kk_step_inv k its e1 e2 rest :
    heap_inv k its (e1 :: e2 :: rest) ->
    heap_inv k its (heap_push rest (kk_combine (snd e1) (snd e2))).
  Proof.
    intros Hh. pose proof Hh as [HF _].
    destruct (Forall_inv HF) as [L1 W1]. destruct (Forall_inv (Forall_inv_tail HF)) as [L2 W2].
    eapply replace_top_inv; [exact Hh| | |].
    - rewrite kk_combine_length. exact L1.
    - apply kk_combine_wf; assumption.
    - apply kk_combine_contents. congruence.
  Qed.

  Lemma kk_loop_inv k its fuel : forall h, heap_inv k its h -> heap_inv k its (kk_loop fuel h).
  Proof.
    induction fuel as [|f IH]; intros h Hh; cbn [kk_loop]; [exact Hh|].
    destruct h as [|e1 [|e2 rest]]; try exact Hh.
    apply IH, kk_step_inv, Hh.
  Qed.

  Lemma kk_loop_length fuel : forall h : @heap A,
    (1 <= length h)%nat -> (length h <= S fuel)%nat -> length (kk_loop fuel h) = 1%nat.
  Proof.
    induction fuel as [|f IH]; intros h H1 H2; cbn [kk_loop]; [lia|].
    destruct h as [|e1 [|e2 rest]]; cbn [length] in *; try lia.
    apply IH; rewrite heap_push_length; lia.
  Qed.

  Lemma single_heap_partition k its (e : @hentry A) :
    heap_inv k its [e] -> is_partition valueof k its (snd e).
  Proof.
    intros [HF HP]. destruct (Forall_inv HF) as [L W].
    rewrite heap_contents_cons in HP. cbn in HP. rewrite app_nil_r in HP.
    split; [exact HP|split; assumption].
  Qed.

  (** C01 for kk *)
  Theorem kk_partition : forall k items, (1 <= k)%nat -> items <> [] ->
    exists b, kk valueof true k items = Ok b /\ is_partition valueof k items b.
  Proof.
    intros k items Hk Hne. destruct (initial_heap_inv k items Hk) as [Hinv Hlen].
    assert (Hpos : (1 <= length items)%nat) by (destruct items; [congruence|cbn [length]; lia]).
    pose proof (kk_loop_inv k items (length items - 1) _ Hinv) as HL.
    pose proof (kk_loop_length (length items - 1) (initial_heap valueof true k items)) as HN.
    unfold kk.
    destruct (kk_loop (length items - 1) (initial_heap valueof true k items)) as [|e [|e' r]];
      cbn [length] in HN; try lia.
    exists (snd e). split; [reflexivity|]. apply single_heap_partition. exact HL.
  Qed.

  Lemma SSorted_snoc {T} (R : T -> T -> Prop) l x :
    StronglySorted R l -> Forall (fun y => R y x) l -> StronglySorted R (l ++ [x]).
  Proof.
    induction 1 as [|y t Ht IH Hy]; intros HF; cbn [app].
    - repeat constructor.
    - constructor.
      + apply IH. exact (Forall_inv_tail HF).
      + apply Forall_app. split; [exact Hy|]. constructor; [exact (Forall_inv HF)|constructor].
  Qed.

  Lemma SSorted_rev {T} (R : T -> T -> Prop) l :
    StronglySorted R l -> StronglySorted (fun x y => R y x) (rev l).
  Proof.
    induction 1 as [|y t Ht IH Hy]; cbn [rev]; [constructor|].
    apply SSorted_snoc; [exact IH|]. apply Forall_rev. exact Hy.
  Qed.

  Lemma spread_le_perm M l1 l2 : Permutation l1 l2 -> spread_le M l1 -> spread_le M l2.
  Proof.
    intros P H x y Hx Hy. apply H; eapply Permutation_in; try eassumption; symmetry; exact P.
  Qed.

  Lemma spread_le_tail M x l : spread_le M (x :: l) -> spread_le M l.
  Proof. intros H a b Ha Hb. apply H; right; assumption. Qed.

  Fixpoint zipsum (a c : list Z) : list Z :=
    match a, c with
    | x :: t, y :: t' => (x + y) :: zipsum t t'
    | _, _ => a
    end.

  Lemma zip_combine_sums (b1 b2 : bins A) :
    sums (zip_combine b1 b2) = zipsum (sums b1) (sums b2).
  Proof.
    revert b2; induction b1 as [|x t IH]; intros [|y t2]; try reflexivity.
    cbn [zip_combine sums map zipsum combine_bin fst]. f_equal. apply IH.
  Qed.

  Lemma zipsum_in a : forall c z, length a = length c -> In z (zipsum a c) ->
    exists p q, In p a /\ In q c /\ z = p + q.
  Proof.
    induction a as [|a0 a' IH]; intros [|c0 c'] z HL Hz; cbn [length] in HL; try discriminate.
    - destruct Hz.
    - cbn [zipsum] in Hz. destruct Hz as [Hz|Hz].
      + exists a0, c0. repeat split; [left; reflexivity|left; reflexivity|lia].
      + destruct (IH c' z) as (p & q & Hp & Hq & E); [lia|exact Hz|].
        exists p, q. repeat split; [right; exact Hp|right; exact Hq|exact E].
  Qed.

  (** a ascending, c descending, both of spread <= M: so is the pointwise sum *)
  Lemma zipsum_spread M a : forall c, length a = length c ->
    StronglySorted Z.le a -> StronglySorted (fun x y => y <= x) c ->
    spread_le M a -> spread_le M c -> 0 <= M -> spread_le M (zipsum a c).
  Proof.
    induction a as [|a0 a' IH]; intros [|c0 c'] HL Sa Sc Ha Hc HM; cbn [length] in HL; try discriminate.
    - intros x y Hx. destruct Hx.
    - cbn [zipsum]. inversion Sa as [|a0' a'' Sa' Fa]; subst a0' a''.
      inversion Sc as [|c0' c'' Sc' Fc]; subst c0' c''.
      rewrite Forall_forall in Fa, Fc.
      assert (HT : spread_le M (zipsum a' c')).
      { apply IH; try assumption; [lia|eapply spread_le_tail; exact Ha|eapply spread_le_tail; exact Hc]. }
      intros x y [Hx|Hx] [Hy|Hy].
      + lia.
      + destruct (zipsum_in a' c' y) as (p & q & Hp & Hq & E); [lia|exact Hy|].
        pose proof (Fa p Hp) as F1. pose proof (Fc q Hq) as F2.
        pose proof (Hc c0 q (or_introl eq_refl) (or_intror Hq)) as F3. lia.
      + destruct (zipsum_in a' c' x) as (p & q & Hp & Hq & E); [lia|exact Hx|].
        pose proof (Fa p Hp) as F1. pose proof (Fc q Hq) as F2.
        pose proof (Ha p a0 (or_intror Hp) (or_introl eq_refl)) as F3. lia.
      + apply HT; assumption.
  Qed.

  Definition gap_ok (M : Z) (e : @hentry A) : Prop :=
    StronglySorted Z.le (sums (snd e)) /\ spread_le M (sums (snd e)).

  Lemma kk_combine_spread M (b1 b2 : bins A) : length b1 = length b2 -> 0 <= M ->
    StronglySorted Z.le (sums b1) -> StronglySorted Z.le (sums b2) ->
    spread_le M (sums b1) -> spread_le M (sums b2) ->
    spread_le M (sums (kk_combine b1 b2)).
  Proof.
    intros HL HM S1 S2 H1 H2. unfold kk_combine. rewrite zip_combine_sums.
    unfold sums at 2. rewrite map_rev. fold (sums b2).
    apply zipsum_spread; try assumption.
    - unfold sums. rewrite rev_length, !map_length. exact HL.
    - apply (SSorted_rev Z.le). exact S2.
    - eapply spread_le_perm; [apply Permutation_rev|exact H2].
  Qed.

  Lemma pushed_gap_ok M (b : bins A) :
    spread_le M (sums b) -> gap_ok M (- bins_diff (sort_bins b), sort_bins b).
  Proof.
    intros H. split; cbn [snd].
    - apply sort_bins_sorted.
    - eapply spread_le_perm; [symmetry; apply sort_bins_sums_perm|exact H].
  Qed.

  Lemma singleton_bins_spread keep M k x : 0 <= valueof x <= M ->
    spread_le M (sums (singleton_bins valueof keep k x)).
  Proof.
    intros Hv. unfold singleton_bins. rewrite add_item_sums, new_bins_sums.
    assert (HE : forall y, In y (update (k - 1) (fun s => s + valueof x) (repeat 0 k)) ->
                           y = 0 \/ y = valueof x).
    { intros y Hy. destruct (In_update _ 0 _ _ _ Hy) as [H|[_ E]].
      - left. eapply repeat_spec; exact H.
      - right. rewrite nth_repeat in E. lia. }
    intros a b Ha Hb. destruct (HE a Ha); destruct (HE b Hb); lia.
  Qed.

  Lemma initial_heap_gap M k items : Forall (fun x => 0 <= valueof x <= M) items ->
    Forall (gap_ok M) (initial_heap valueof true k items).
  Proof.
    intros H. apply initial_heap_Forall_items. eapply Forall_impl; [|exact H].
    intros x Hx. apply pushed_gap_ok, singleton_bins_spread. exact Hx.
  Qed.

  Lemma kk_loop_gap M k its : 0 <= M -> forall fuel h, heap_inv k its h ->
    Forall (gap_ok M) h -> Forall (gap_ok M) (kk_loop fuel h).
  Proof.
    intros HM. induction fuel as [|f IH]; intros h Hh Hg; cbn [kk_loop]; [exact Hg|].
    destruct h as [|e1 [|e2 rest]]; try exact Hg.
    apply IH; [apply kk_step_inv; exact Hh|].
    destruct Hh as [HF _].
    destruct (Forall_inv HF) as [L1 _]. destruct (Forall_inv (Forall_inv_tail HF)) as [L2 _].
    destruct (Forall_inv Hg) as [S1 G1]. destruct (Forall_inv (Forall_inv_tail Hg)) as [S2 G2].
    apply heap_push_Forall; [exact (Forall_inv_tail (Forall_inv_tail Hg))|].
    apply pushed_gap_ok, kk_combine_spread; try assumption. congruence.
  Qed.

  (** C08: the gap of the KK partition is at most the largest item *)
  Theorem kk_gap : forall k items b, (1 <= k)%nat -> items <> [] ->
    Forall (fun x => 0 <= valueof x) items ->
    kk valueof true k items = Ok b ->
    zmax (sums b) - zmin (sums b) <= zmax (map valueof items).
  Proof.
    intros k items b Hk Hne Hpos Hkk.
    set (M := zmax (map valueof items)).
    assert (HB : Forall (fun x => 0 <= valueof x <= M) items).
    { rewrite Forall_forall in Hpos. apply Forall_forall. intros x Hx. split; [apply Hpos; exact Hx|].
      pose proof (zmax_ge (map valueof items)) as G. rewrite Forall_forall in G.
      apply G, in_map, Hx. }
    assert (HM : 0 <= M).
    { destruct items as [|x t]; [congruence|]. pose proof (Forall_inv HB) as H. cbv beta in H. lia. }
    destruct (initial_heap_inv k items Hk) as [Hinv _].
    pose proof (kk_loop_inv k items (length items - 1) _ Hinv) as HL.
    pose proof (kk_loop_gap M k items HM (length items - 1) _ Hinv (initial_heap_gap M k items HB)) as HG.
    unfold kk in Hkk.
    destruct (kk_loop (length items - 1) (initial_heap valueof true k items)) as [|e r];
      [discriminate|].
    injection Hkk as <-.
    destruct HL as [HF _]. destruct (Forall_inv HF) as [L _]. destruct (Forall_inv HG) as [_ G].
    assert (Hs : sums (snd e) <> []).
    { unfold sums. destruct (snd e); cbn [length] in L; [lia|discriminate]. }
    apply G; [apply zmax_in|apply zmin_in]; exact Hs.
  Qed.

  Lemma perms_sound_local n p : In p (perms n) -> Permutation p (range n).
  Proof. apply perms_spec. Qed.

  Definition getbin (b : bins A) (i : nat) : bin A :=
    match nth_opt b i with Some x => x | None => empty_bin end.

  Lemma map_getbin_range (b : bins A) : map (getbin b) (range (length b)) = b.
  Proof.
    induction b as [|x t IH]; [reflexivity|].
    unfold range. cbn [length range_from map]. f_equal.
    rewrite range_from_map_S, map_map. exact IH.
  Qed.

  Lemma picked_perm (b : bins A) p : Permutation p (range (length b)) ->
    Permutation (map (getbin b) p) b.
  Proof.
    intros H. rewrite <- (map_getbin_range b) at 2. apply Permutation_map. exact H.
  Qed.

  Definition name_sorted (r : bins A) : bins A :=
    map (fun x => (fst x, sort_names nameof (snd x))) r.

  Lemma name_sorted_length r : length (name_sorted r) = length r.
  Proof. apply map_length. Qed.

  Lemma name_sorted_wf r : wf valueof r -> wf valueof (name_sorted r).
  Proof.
    unfold wf, name_sorted. intros H. apply Forall_map. eapply Forall_impl; [|exact H].
    intros x Hx. unfold wf_bin in *. cbn [fst snd]. rewrite Hx. apply zsum_perm, Permutation_map.
    symmetry. apply sort_asc_perm.
  Qed.

  Lemma name_sorted_contents r : Permutation (contents (name_sorted r)) (contents r).
  Proof.
    induction r as [|x t IH]; [apply Permutation_refl|].
    unfold name_sorted in *. cbn [map]. rewrite !contents_cons. cbn [snd].
    apply Permutation_app; [apply sort_asc_perm|exact IH].
  Qed.

  Lemma combo_of_perm_eq (b1 b2 : bins A) p :
    combo_of_perm nameof true b1 b2 p = sort_bins (name_sorted (zip_combine (map (getbin b1) p) b2)).
  Proof. reflexivity. Qed.

  Lemma combo_of_perm_ok k (b1 b2 : bins A) p :
    length b1 = k -> length b2 = k -> wf valueof b1 -> wf valueof b2 ->
    Permutation p (range k) ->
    length (combo_of_perm nameof true b1 b2 p) = k /\
    wf valueof (combo_of_perm nameof true b1 b2 p) /\
    Permutation (contents (combo_of_perm nameof true b1 b2 p)) (contents b1 ++ contents b2).
  Proof.
    intros L1 L2 W1 W2 Hp. rewrite combo_of_perm_eq.
    assert (PP : Permutation (map (getbin b1) p) b1) by (apply picked_perm; rewrite L1; exact Hp).
    assert (LP : length (map (getbin b1) p) = k) by (rewrite (Permutation_length PP); exact L1).
    split; [|split].
    - rewrite sort_bins_length, name_sorted_length, zip_combine_length. exact LP.
    - apply sort_bins_wf, name_sorted_wf, zip_combine_wf; [|exact W2].
      eapply wf_perm; [symmetry; exact PP|exact W1].
    - rewrite sort_bins_contents, name_sorted_contents, zip_combine_contents by congruence.
      apply Permutation_app_tail, contents_perm, PP.
  Qed.

  Lemma all_combinations_ok k (b1 b2 c : bins A) :
    length b1 = k -> length b2 = k -> wf valueof b1 -> wf valueof b2 ->
    In c (all_combinations nameof true b1 b2) ->
    length c = k /\ wf valueof c /\ Permutation (contents c) (contents b1 ++ contents b2).
  Proof.
    intros L1 L2 W1 W2 H. apply all_combinations_sound in H. destruct H as (p & Hp & ->).
    apply combo_of_perm_ok; try assumption. rewrite <- L1. exact Hp.
  Qed.

  Lemma all_combinations_nonempty (b1 b2 : bins A) : all_combinations nameof true b1 b2 <> [].
  Proof.
    destruct (all_combinations_complete_gen nameof true b1 b2 _ (Permutation_refl _)) as (c & Hc & _).
    intros E. rewrite E in Hc. destruct Hc.
  Qed.

  (** replacing the two top entries by any pairing of their bins keeps the heap invariant;
      the CKK expansions do this with the pairings that survive the de-duplication *)
  Lemma combo_child_inv k its e1 e2 rest p :
    heap_inv k its (e1 :: e2 :: rest) -> Permutation p (range (length (snd e1))) ->
    heap_inv k its (heap_push rest (combo_of_perm nameof true (snd e1) (snd e2) p)).
  Proof.
    intros Hh Hp. pose proof Hh as [HF _].
    destruct (Forall_inv HF) as [L1 W1]. destruct (Forall_inv (Forall_inv_tail HF)) as [L2 W2].
    rewrite L1 in Hp.
    destruct (combo_of_perm_ok k _ _ p L1 L2 W1 W2 Hp) as (Lp & Wp & Pp).
    eapply replace_top_inv; eassumption.
  Qed.

  Lemma ckk_child_inv k its e1 e2 rest c :
    heap_inv k its (e1 :: e2 :: rest) ->
    In c (all_combinations nameof true (snd e1) (snd e2)) ->
    heap_inv k its (heap_push rest c).
  Proof.
    intros Hh Hc. apply all_combinations_sound in Hc. destruct Hc as (p & Hp & ->).
    apply combo_child_inv; assumption.
  Qed.

  Definition tick (st : @ckk_state A) : @ckk_state A :=
    mk_ckk (ckk_best st) (ckk_part st) (ckk_yields st) false (S (ckk_nodes st)).

  Definition pruned (k : nat) (h : @heap A) (best : option Z) : bool :=
    match ckk_bound k h with Some lb => le_best lb best | None => false end.

  Definition accept (mode : bool) (e : @hentry A) (st : @ckk_state A) : @ckk_state A :=
    mk_ckk (if mode then Some (fst e) else ckk_best st) (Some (snd e))
           (snd e :: ckk_yields st) (fst e =? 0) (ckk_nodes st).

  Definition children (rest : @heap A) (b1 b2 : bins A) : list (@heap A) :=
    map (heap_push rest) (ckk_children nameof true b1 b2).

  Lemma ckk_explore_unfold keep fuel mode k h st :
    ckk_explore nameof keep fuel mode k h st =
    if ckk_stop st then st else
    if pruned k h (ckk_best st) then tick st else
    match h with
    | [] => tick st
    | [e] => if gt_best (fst e) (ckk_best st) then accept mode e (tick st) else tick st
    | e1 :: e2 :: rest =>
        match fuel with
        | O => tick st
        | S f => fold_left (fun s c => ckk_explore nameof keep f mode k c s)
                   (rev (sort_asc topdiff (map (heap_push rest)
                                               (ckk_children nameof keep (snd e1) (snd e2))))) (tick st)
        end
    end.
  Proof. destruct fuel; reflexivity. Qed.

  Lemma ckk_explore_eq fuel mode k h st :
    ckk_explore nameof true fuel mode k h st =
    if ckk_stop st then st else
    if pruned k h (ckk_best st) then tick st else
    match h with
    | [] => tick st
    | [e] => if gt_best (fst e) (ckk_best st) then accept mode e (tick st) else tick st
    | e1 :: e2 :: rest =>
        match fuel with
        | O => tick st
        | S f => fold_left (fun s c => ckk_explore nameof true f mode k c s)
                           (rev (sort_asc topdiff (children rest (snd e1) (snd e2)))) (tick st)
        end
    end.
  Proof. apply ckk_explore_unfold. Qed.

  (** a child heap comes from a child combination (one that survived both de-duplications) *)
  Lemma children_in_ckk rest b1 b2 c :
    In c (rev (sort_asc topdiff (children rest b1 b2))) ->
    exists comb, In comb (ckk_children nameof true b1 b2) /\ c = heap_push rest comb.
  Proof.
    intros H. apply in_rev in H. apply sort_asc_In in H. unfold children in H.
    apply in_map_iff in H. destruct H as (comb & E & Hc). exists comb. split; [exact Hc|symmetry; exact E].
  Qed.

  Lemma children_in rest b1 b2 c :
    In c (rev (sort_asc topdiff (children rest b1 b2))) ->
    exists comb, In comb (all_combinations nameof true b1 b2) /\ c = heap_push rest comb.
  Proof.
    intros H. destruct (children_in_ckk _ _ _ _ H) as (comb & Hc & E).
    exists comb. split; [apply ckk_children_sound; exact Hc|exact E].
  Qed.

  Lemma children_nonempty rest b1 b2 : rev (sort_asc topdiff (children rest b1 b2)) <> [].
  Proof.
    intros E. apply (f_equal (@length _)) in E.
    rewrite rev_length, sort_asc_length in E. unfold children in E. rewrite map_length in E.
    pose proof (ckk_children_nonempty nameof true b1 b2 (all_combinations_nonempty b1 b2)) as N.
    destruct (ckk_children nameof true b1 b2); [congruence|discriminate].
  Qed.

  (** what holds of every heap met (HI) and is kept by accepting a leaf (P) holds of the result *)
  Section Explore.
    Context (mode : bool) (k : nat).
    Context (HI : @heap A -> Prop).
    Context (P : option Z -> option (bins A) -> list (bins A) -> Prop).
    Context (HI_child : forall e1 e2 rest c, HI (e1 :: e2 :: rest) ->
               In c (all_combinations nameof true (snd e1) (snd e2)) -> HI (heap_push rest c)).
    Context (P_leaf : forall e best part ys, HI [e] -> gt_best (fst e) best = true ->
               P best part ys -> P (if mode then Some (fst e) else best) (Some (snd e)) (snd e :: ys)).

    Definition Pst (st : @ckk_state A) : Prop := P (ckk_best st) (ckk_part st) (ckk_yields st).

    Lemma fold_preserves (g : @ckk_state A -> @heap A -> @ckk_state A) : forall l,
      (forall c s, In c l -> Pst s -> Pst (g s c)) -> forall st, Pst st -> Pst (fold_left g l st).
    Proof.
      induction l as [|c t IH]; intros Hg st Hst; cbn [fold_left]; [exact Hst|].
      apply IH.
      - intros c' s Hc Hs. apply Hg; [right; exact Hc|exact Hs].
      - apply Hg; [left; reflexivity|exact Hst].
    Qed.

    Lemma explore_preserves : forall fuel h st,
      HI h -> Pst st -> Pst (ckk_explore nameof true fuel mode k h st).
    Proof.
      induction fuel as [fuel IH] using lt_wf_ind. intros h st Hh Hst. rewrite ckk_explore_eq.
      destruct (ckk_stop st); [exact Hst|].
      assert (Ht : Pst (tick st)) by exact Hst.
      destruct (pruned k h (ckk_best st)); [exact Ht|].
      destruct h as [|e1 [|e2 rest]]; [exact Ht| |].
      - destruct (gt_best (fst e1) (ckk_best st)) eqn:G; [|exact Ht].
        unfold Pst, accept. cbn [ckk_best ckk_part ckk_yields tick].
        apply (P_leaf e1 (ckk_best st) (ckk_part st) (ckk_yields st)); assumption.
      - destruct fuel as [|f]; [exact Ht|].
        apply fold_preserves; [|exact Ht].
        intros c s Hc Hs. apply (IH f (Nat.lt_succ_diag_r f)); [|exact Hs].
        destruct (children_in _ _ _ _ Hc) as (comb & Hcomb & ->).
        eapply HI_child; eassumption.
    Qed.
  End Explore.

  Lemma explore_part_stays mode k fuel h st :
    ckk_part st <> None -> ckk_part (ckk_explore nameof true fuel mode k h st) <> None.
  Proof.
    intros H.
    apply (explore_preserves mode k (fun _ => True) (fun _ part _ => part <> None)); auto.
    intros e best part ys _ _ _. discriminate.
  Qed.

  Lemma pruned_none k (h : @heap A) : pruned k h None = false.
  Proof. unfold pruned. destruct (ckk_bound k h); reflexivity. Qed.

  Lemma explore_total mode k : forall fuel h st,
    (1 <= length h)%nat -> (length h <= S fuel)%nat ->
    ckk_best st = None -> ckk_stop st = false ->
    ckk_part (ckk_explore nameof true fuel mode k h st) <> None.
  Proof.
    induction fuel as [fuel IH] using lt_wf_ind. intros h st H1 H2 Hb Hs.
    rewrite ckk_explore_eq, Hs, Hb, pruned_none.
    destruct h as [|e1 [|e2 rest]]; cbn [length] in *; [lia| |].
    - cbn [gt_best accept ckk_part]. discriminate.
    - destruct fuel as [|f]; [lia|].
      pose proof (children_nonempty rest (snd e1) (snd e2)) as N.
      pose proof (children_in rest (snd e1) (snd e2)) as HIn.
      destruct (rev (sort_asc topdiff (children rest (snd e1) (snd e2)))) as [|c0 cs]; [congruence|].
      cbn [fold_left]. apply (fold_preserves (fun _ part _ => part <> None));
        [intros c s _; apply explore_part_stays|].
      destruct (HIn c0 (or_introl eq_refl)) as (comb & _ & ->).
      apply IH; try rewrite heap_push_length; try lia; [exact Hb|reflexivity].
  Qed.

  Lemma explore_part_valid mode k its fuel h st : heap_inv k its h ->
    (forall b, ckk_part st = Some b -> is_partition valueof k its b) ->
    forall b, ckk_part (ckk_explore nameof true fuel mode k h st) = Some b ->
              is_partition valueof k its b.
  Proof.
    intros Hh Hst.
    apply (explore_preserves mode k (heap_inv k its)
             (fun _ part _ => forall b, part = Some b -> is_partition valueof k its b)).
    - intros e1 e2 rest c Hh' Hc. eapply ckk_child_inv; eassumption.
    - intros e best part ys Hh' _ _ b E. injection E as <-. apply single_heap_partition. exact Hh'.
    - exact Hh.
    - exact Hst.
  Qed.

  Definition key_ok (e : @hentry A) : Prop := fst e = - bins_diff (snd e).
  Definition sorted_ok (e : @hentry A) : Prop := StronglySorted Z.le (sums (snd e)).

  Lemma initial_heap_Forall (Q : @hentry A -> Prop) keep k items :
    (forall b, Q (- bins_diff (sort_bins b), sort_bins b)) ->
    Forall Q (initial_heap valueof keep k items).
  Proof. intros HQ. apply initial_heap_Forall_items, Forall_forall. intros x _. apply HQ. Qed.

  Lemma child_Forall (Q : @hentry A -> Prop) e1 e2 rest c :
    (forall b, Q (- bins_diff (sort_bins b), sort_bins b)) ->
    Forall Q (e1 :: e2 :: rest) -> Forall Q (heap_push rest c).
  Proof.
    intros HQ HF. apply heap_push_Forall; [exact (Forall_inv_tail (Forall_inv_tail HF))|apply HQ].
  Qed.

  Lemma pushed_key_ok (b : bins A) : key_ok (- bins_diff (sort_bins b), sort_bins b).
  Proof. reflexivity. Qed.

  Lemma pushed_sorted_ok (b : bins A) : sorted_ok (- bins_diff (sort_bins b), sort_bins b).
  Proof. apply sort_bins_sorted. Qed.

  Definition run_mode (init : option Z) : bool := match init with None => true | Some _ => false end.

  Lemma run_valid mode init k items : (1 <= k)%nat ->
    Forall (is_partition valueof k items) (ckk_yields (ckk_run valueof nameof true mode init k items)).
  Proof.
    intros Hk. unfold ckk_run.
    apply (explore_preserves mode k (heap_inv k items)
             (fun _ _ ys => Forall (is_partition valueof k items) ys)).
    - intros e1 e2 rest c Hh Hc. eapply ckk_child_inv; eassumption.
    - intros e best part ys Hh _ Hys. constructor; [apply single_heap_partition; exact Hh|exact Hys].
    - apply initial_heap_inv. exact Hk.
    - constructor.
  Qed.

  Lemma run_hd mode init k items :
    let st := ckk_run valueof nameof true mode init k items in
    ckk_part st = hd_error (ckk_yields st).
  Proof.
    unfold ckk_run.
    apply (explore_preserves mode k (fun _ => True) (fun _ part ys => part = hd_error ys)); auto.
    reflexivity.
  Qed.

  Lemma run_sorted mode init k items :
    Forall (fun b => StronglySorted Z.le (sums b))
           (ckk_yields (ckk_run valueof nameof true mode init k items)).
  Proof.
    unfold ckk_run.
    apply (explore_preserves mode k (Forall sorted_ok)
             (fun _ _ ys => Forall (fun b => StronglySorted Z.le (sums b)) ys)).
    - intros e1 e2 rest c Hh _. eapply child_Forall; [exact pushed_sorted_ok|exact Hh].
    - intros e best part ys Hh _ Hys. constructor; [exact (Forall_inv Hh)|exact Hys].
    - apply initial_heap_Forall. exact pushed_sorted_ok.
    - constructor.
  Qed.

  Definition chain_ok (best : option Z) (ys : list (bins A)) : Prop :=
    best = option_map (fun b => - bins_diff b) (hd_error ys) /\
    StronglySorted (fun a b => bins_diff a < bins_diff b) ys.

  Lemma run_chain k items :
    let st := ckk_run valueof nameof true true None k items in
    chain_ok (ckk_best st) (ckk_yields st).
  Proof.
    unfold ckk_run.
    apply (explore_preserves true k (Forall key_ok) (fun best _ ys => chain_ok best ys)).
    - intros e1 e2 rest c Hh _. eapply child_Forall; [exact pushed_key_ok|exact Hh].
    - intros e best part ys Hh G [Hb Hs]. pose proof (Forall_inv Hh) as Hk. unfold key_ok in Hk.
      split.
      + cbn [hd_error option_map]. rewrite Hk. reflexivity.
      + constructor; [exact Hs|].
        destruct ys as [|y t]; [constructor|].
        cbn [hd_error option_map] in Hb. subst best. cbn [gt_best] in G.
        inversion Hs as [|y' t' Hs' Hy]; subst y' t'.
        constructor; [lia|]. eapply Forall_impl; [|exact Hy]. cbv beta. intros z Hz. lia.
    - apply initial_heap_Forall. exact pushed_key_ok.
    - split; [reflexivity|constructor].
  Qed.

  Lemma sort_bins_partition k its (b : bins A) :
    is_partition valueof k its b -> is_partition valueof k its (sort_bins b).
  Proof.
    intros (HP & HL & HW). split; [|split].
    - rewrite sort_bins_contents. exact HP.
    - rewrite sort_bins_length. exact HL.
    - apply sort_bins_wf. exact HW.
  Qed.

  Lemma run_total k items : items <> [] ->
    ckk_part (ckk_run valueof nameof true true None k items) <> None.
  Proof.
    intros Hne. unfold ckk_run. apply explore_total; try reflexivity.
    - rewrite initial_heap_length. destruct items; [congruence|cbn [length]; lia].
    - rewrite initial_heap_length. lia.
  Qed.

  Lemma ckk_last_yield k items : items <> [] ->
    exists y ys, ckk_yields (ckk_run valueof nameof true true None k items) = y :: ys /\
                 ckk valueof nameof true k items = Ok (sort_bins y).
  Proof.
    intros Hne. pose proof (run_total k items Hne) as HT.
    pose proof (run_hd true None k items) as HH. cbv zeta in HH. unfold ckk. rewrite HH in *.
    destruct (ckk_yields _) as [|y ys]; [destruct (HT eq_refl)|]. exists y, ys. split; reflexivity.
  Qed.

  (** C01 for ckk *)
  Theorem ckk_partition : forall k items, (1 <= k)%nat -> items <> [] ->
    exists b, ckk valueof nameof true k items = Ok b /\ is_partition valueof k items b.
  Proof.
    intros k items Hk Hne. destruct (ckk_last_yield k items Hne) as (y & ys & Ey & E).
    exists (sort_bins y). split; [exact E|]. apply sort_bins_partition.
    pose proof (run_valid true None k items Hk) as HV. rewrite Ey in HV. exact (Forall_inv HV).
  Qed.

  Lemma ckk_generator_valid_any : forall k items init b, (1 <= k)%nat ->
    In b (ckk_generator valueof nameof true k items init) -> is_partition valueof k items b.
  Proof.
    intros k items init b Hk Hb. unfold ckk_generator in Hb. apply in_rev in Hb.
    pose proof (run_valid (run_mode init) init k items Hk) as HV.
    rewrite Forall_forall in HV. apply HV. exact Hb.
  Qed.

  Theorem ckk_generator_valid : forall k items b, (1 <= k)%nat -> items <> [] ->
    In b (ckk_generator valueof nameof true k items None) -> is_partition valueof k items b.
  Proof. intros k items b Hk _ Hb. eapply ckk_generator_valid_any; eassumption. Qed.

  (** every yielded bins-array is sorted by sum, so [bins_diff] is its max-min difference *)
  Lemma bins_diff_sorted (b : bins A) : StronglySorted Z.le (sums b) ->
    bins_diff b = zmax (sums b) - zmin (sums b).
  Proof.
    intros Hs. unfold bins_diff. rewrite (last_sorted_zmax _ Hs), (hd_sorted_zmin _ Hs). reflexivity.
  Qed.

  Theorem ckk_generator_sorted : forall k items init b,
    In b (ckk_generator valueof nameof true k items init) ->
    StronglySorted Z.le (sums b) /\ bins_diff b = zmax (sums b) - zmin (sums b).
  Proof.
    intros k items init b Hb. unfold ckk_generator in Hb. apply in_rev in Hb.
    pose proof (run_sorted (run_mode init) init k items) as HS.
    rewrite Forall_forall in HS. pose proof (HS _ Hb) as H. split; [exact H|].
    apply bins_diff_sorted. exact H.
  Qed.

  (** C11: the yielded differences strictly decrease, and ckk returns the last yield (sorted) *)
  Theorem ckk_generator_decreasing : forall k items,
    StronglySorted (fun a b => bins_diff b < bins_diff a)
                   (ckk_generator valueof nameof true k items None) /\
    ckk valueof nameof true k items =
      match last_opt (ckk_generator valueof nameof true k items None) with
      | Some b_last => Ok (sort_bins b_last)
      | None => Err OtherError
      end.
  Proof.
    intros k items. unfold ckk_generator, ckk, last_opt. rewrite rev_involutive. split.
    - apply (SSorted_rev (fun a b : bins A => bins_diff a < bins_diff b)).
      apply (run_chain k items).
    - pose proof (run_hd true None k items) as HH. cbv zeta in HH. rewrite HH.
      destruct (ckk_yields (ckk_run valueof nameof true true None k items)); reflexivity.
  Qed.

  Corollary ckk_generator_last : forall k items, items <> [] ->
    exists b_last, last_opt (ckk_generator valueof nameof true k items None) = Some b_last /\
                   ckk valueof nameof true k items = Ok (sort_bins b_last).
  Proof.
    intros k items Hne. destruct (ckk_last_yield k items Hne) as (y & ys & Ey & E).
    exists y. split; [|exact E]. unfold ckk_generator, last_opt. rewrite rev_involutive, Ey. reflexivity.
  Qed.

  (** h' is reachable from h by repeated CKK expansions (the children of a node are its combinations
      de-duplicated by their sums: [ckk_children]) *)
  Inductive expands : @heap A -> @heap A -> Prop :=
  | expands_refl h : expands h h
  | expands_step e1 e2 rest c h' :
      In c (ckk_children nameof true (snd e1) (snd e2)) ->
      expands (heap_push rest c) h' ->
      expands (e1 :: e2 :: rest) h'.

  Definition heap_full (k : nat) (its : list A) (h : @heap A) : Prop :=
    heap_inv k its h /\ Forall sorted_ok h /\ Forall key_ok h.

  Lemma initial_heap_full k items : (1 <= k)%nat ->
    heap_full k items (initial_heap valueof true k items).
  Proof.
    intros Hk. split; [apply initial_heap_inv; exact Hk|split].
    - apply initial_heap_Forall. exact pushed_sorted_ok.
    - apply initial_heap_Forall. exact pushed_key_ok.
  Qed.

  Lemma combo_child_full k its e1 e2 rest p :
    heap_full k its (e1 :: e2 :: rest) -> Permutation p (range (length (snd e1))) ->
    heap_full k its (heap_push rest (combo_of_perm nameof true (snd e1) (snd e2) p)).
  Proof.
    intros (H1 & H2 & H3) Hp. split; [apply combo_child_inv; assumption|split].
    - eapply child_Forall; [exact pushed_sorted_ok|exact H2].
    - eapply child_Forall; [exact pushed_key_ok|exact H3].
  Qed.

  Lemma child_full k its e1 e2 rest c :
    heap_full k its (e1 :: e2 :: rest) ->
    In c (all_combinations nameof true (snd e1) (snd e2)) ->
    heap_full k its (heap_push rest c).
  Proof.
    intros Hf Hc. apply all_combinations_sound in Hc. destruct Hc as (p & Hp & ->).
    apply combo_child_full; assumption.
  Qed.

  Lemma expands_full k its h h' : expands h h' -> heap_full k its h -> heap_full k its h'.
  Proof.
    induction 1 as [h|e1 e2 rest c h' Hc He IH]; intros Hf; [exact Hf|].
    apply ckk_children_sound in Hc. apply IH. eapply child_full; eassumption.
  Qed.

  Lemma flat_total k its h : heap_inv k its h ->
    zsum (heap_flat_sums h) = zsum (map valueof its).
  Proof.
    intros [HF HP]. rewrite <- (zsum_perm _ _ (Permutation_map valueof HP)). clear HP.
    induction HF as [|e t He Ht IH]; [reflexivity|].
    unfold heap_flat_sums in *. cbn [flat_map]. rewrite heap_contents_cons, map_app, !zsum_app, IH.
    destruct He as [_ W]. rewrite (wf_total valueof _ W). reflexivity.
  Qed.

  Lemma sums_nonneg (b : bins A) : wf valueof b ->
    Forall (fun x => 0 <= valueof x) (contents b) -> Forall (fun s => 0 <= s) (sums b).
  Proof.
    intros W. induction W as [|bn t Hb Ht IH]; intros HC; [constructor|].
    rewrite contents_cons in HC. apply Forall_app in HC. destruct HC as [HC1 HC2].
    cbn [sums map]. constructor; [|apply IH; exact HC2].
    unfold wf_bin in Hb. rewrite Hb. apply zsum_nonneg. apply Forall_map. exact HC1.
  Qed.

  Lemma heap_sums_nonneg k its h : heap_inv k its h ->
    Forall (fun x => 0 <= valueof x) its ->
    Forall (fun e => Forall (fun s => 0 <= s) (sums (snd e))) h.
  Proof.
    intros [HF HP] Hpos.
    assert (HC : Forall (fun x => 0 <= valueof x) (heap_contents h)).
    { eapply Permutation_Forall; [symmetry; exact HP|exact Hpos]. }
    clear HP Hpos. induction HF as [|e t He Ht IH]; [constructor|].
    rewrite heap_contents_cons in HC. apply Forall_app in HC. destruct HC as [HC1 HC2].
    constructor; [|apply IH; exact HC2]. apply sums_nonneg; [exact (proj2 He)|exact HC1].
  Qed.

  Definition dom (l1 l2 : list Z) : Prop := forall x, In x l1 -> exists y, In y l2 /\ x <= y.

  Lemma dom_refl l : dom l l.
  Proof. intros x Hx. exists x. split; [exact Hx|lia]. Qed.

  Lemma dom_trans l1 l2 l3 : dom l1 l2 -> dom l2 l3 -> dom l1 l3.
  Proof.
    intros H1 H2 x Hx. destruct (H1 x Hx) as (y & Hy & L1). destruct (H2 y Hy) as (z & Hz & L2).
    exists z. split; [exact Hz|lia].
  Qed.

  Lemma dom_perm_l l1 l1' l2 : Permutation l1 l1' -> dom l1 l2 -> dom l1' l2.
  Proof. intros P H x Hx. apply H. eapply Permutation_in; [symmetry; exact P|exact Hx]. Qed.

  Lemma dom_perm_r l1 l2 l2' : Permutation l2 l2' -> dom l1 l2 -> dom l1 l2'.
  Proof.
    intros P H x Hx. destruct (H x Hx) as (y & Hy & L). exists y. split; [|exact L].
    eapply Permutation_in; [exact P|exact Hy].
  Qed.

  Lemma dom_app l1 l1' l2 : dom l1 l2 -> dom l1' l2 -> dom (l1 ++ l1') l2.
  Proof. intros H1 H2 x Hx. apply in_app_or in Hx. destruct Hx as [Hx|Hx]; [apply H1|apply H2]; exact Hx. Qed.

  Lemma dom_app_r1 l1 l2 l3 : dom l1 l2 -> dom l1 (l2 ++ l3).
  Proof.
    intros H x Hx. destruct (H x Hx) as (y & Hy & L). exists y. split; [|exact L].
    apply in_or_app. left. exact Hy.
  Qed.

  Lemma dom_app_r2 l1 l2 l3 : dom l1 l3 -> dom l1 (l2 ++ l3).
  Proof.
    intros H x Hx. destruct (H x Hx) as (y & Hy & L). exists y. split; [|exact L].
    apply in_or_app. right. exact Hy.
  Qed.

  Lemma dom_zmax l1 l2 : l1 <> [] -> dom l1 l2 -> zmax l1 <= zmax l2.
  Proof.
    intros Hne H. destruct (H _ (zmax_in l1 Hne)) as (y & Hy & L).
    pose proof (zmax_ge l2) as G. rewrite Forall_forall in G. pose proof (G y Hy). lia.
  Qed.

  Lemma zipsum_dom a : forall c, length a = length c ->
    Forall (fun x => 0 <= x) a -> Forall (fun x => 0 <= x) c ->
    dom a (zipsum a c) /\ dom c (zipsum a c).
  Proof.
    induction a as [|a0 a' IH]; intros [|c0 c'] HL Ha Hc; cbn [length] in HL; try discriminate.
    - split; intros x Hx; destruct Hx.
    - cbn [zipsum].
      destruct (IH c') as [D1 D2]; [lia|exact (Forall_inv_tail Ha)|exact (Forall_inv_tail Hc)|].
      pose proof (Forall_inv Ha) as Ha0. pose proof (Forall_inv Hc) as Hc0. cbv beta in Ha0, Hc0.
      split; intros x [Hx|Hx].
      + exists (a0 + c0). split; [left; reflexivity|lia].
      + destruct (D1 x Hx) as (y & Hy & L). exists y. split; [right; exact Hy|exact L].
      + exists (a0 + c0). split; [left; reflexivity|lia].
      + destruct (D2 x Hx) as (y & Hy & L). exists y. split; [right; exact Hy|exact L].
  Qed.

  Lemma name_sorted_sums r : sums (name_sorted r) = sums r.
  Proof. unfold sums, name_sorted. rewrite map_map. reflexivity. Qed.

  Lemma combo_sums_dom (b1 b2 : bins A) p : length b1 = length b2 ->
    Permutation p (range (length b1)) ->
    Forall (fun s => 0 <= s) (sums b1) -> Forall (fun s => 0 <= s) (sums b2) ->
    dom (sums b1) (sums (combo_of_perm nameof true b1 b2 p)) /\
    dom (sums b2) (sums (combo_of_perm nameof true b1 b2 p)).
  Proof.
    intros HL Hp N1 N2. rewrite combo_of_perm_eq.
    pose proof (picked_perm b1 p Hp) as PP.
    assert (PS : Permutation (sums (map (getbin b1) p)) (sums b1)) by (apply Permutation_map; exact PP).
    destruct (zipsum_dom (sums (map (getbin b1) p)) (sums b2)) as [D1 D2].
    - rewrite (Permutation_length PS). unfold sums. rewrite !map_length. exact HL.
    - eapply Permutation_Forall; [symmetry; exact PS|exact N1].
    - exact N2.
    - rewrite <- zip_combine_sums in D1, D2.
      rewrite <- (name_sorted_sums (zip_combine (map (getbin b1) p) b2)) in D1, D2.
      split.
      + eapply dom_perm_r; [symmetry; apply sort_bins_sums_perm|].
        eapply dom_perm_l; [exact PS|exact D1].
      + eapply dom_perm_r; [symmetry; apply sort_bins_sums_perm|exact D2].
  Qed.

  Lemma flat_push_perm rest (c : bins A) :
    Permutation (heap_flat_sums (heap_push rest c)) (sums (sort_bins c) ++ heap_flat_sums rest).
  Proof.
    unfold heap_flat_sums, heap_push. cbv zeta.
    rewrite (Permutation_flat_map _ (heap_insert_perm _ rest)). apply Permutation_refl.
  Qed.

  Lemma combo_expand_dom k its e1 e2 rest p :
    heap_inv k its (e1 :: e2 :: rest) -> Forall (fun x => 0 <= valueof x) its ->
    Permutation p (range (length (snd e1))) ->
    dom (heap_flat_sums (e1 :: e2 :: rest))
        (heap_flat_sums (heap_push rest (combo_of_perm nameof true (snd e1) (snd e2) p))).
  Proof.
    intros Hh Hpos Hp. pose proof (heap_sums_nonneg k its _ Hh Hpos) as HN.
    destruct Hh as [HF _].
    destruct (Forall_inv HF) as [L1 _]. destruct (Forall_inv (Forall_inv_tail HF)) as [L2 _].
    destruct (combo_sums_dom (snd e1) (snd e2) p) as [D1 D2];
      [congruence|exact Hp|exact (Forall_inv HN)|exact (Forall_inv (Forall_inv_tail HN))|].
    eapply dom_perm_r; [symmetry; apply flat_push_perm|].
    unfold heap_flat_sums. cbn [flat_map].
    apply dom_app; [|apply dom_app].
    - apply dom_app_r1. eapply dom_perm_r; [symmetry; apply sort_bins_sums_perm|exact D1].
    - apply dom_app_r1. eapply dom_perm_r; [symmetry; apply sort_bins_sums_perm|exact D2].
    - apply dom_app_r2, dom_refl.
  Qed.

  Lemma expands_dom k its h h' : expands h h' -> heap_inv k its h ->
    Forall (fun x => 0 <= valueof x) its ->
    dom (heap_flat_sums h) (heap_flat_sums h').
  Proof.
    induction 1 as [h|e1 e2 rest c h' Hc He IH]; intros Hh Hpos; [apply dom_refl|].
    apply ckk_children_sound, all_combinations_sound in Hc. destruct Hc as (p & Hp & ->).
    eapply dom_trans; [eapply combo_expand_dom; eassumption|].
    apply IH; [apply combo_child_inv; assumption|exact Hpos].
  Qed.

  Lemma zsum_ge_len m l : Forall (fun x => m <= x) l -> Z.of_nat (length l) * m <= zsum l.
  Proof.
    induction 1 as [|x t Hx Ht IH]; [cbn; lia|].
    cbn [length zsum fold_right]. fold (zsum t). lia.
  Qed.

  (** in any list, the minimum is at most the average of the others once a maximum is set aside *)
  Lemma zmin_avg l : l <> [] -> (Z.of_nat (length l) - 1) * zmin l <= zsum l - zmax l.
  Proof.
    intros Hne. destruct (in_split _ _ (zmax_in l Hne)) as (l1 & l2 & E).
    pose proof (zmin_le l) as HM.
    set (m := zmax l) in *. set (mn := zmin l) in *. clearbody m mn. subst l.
    apply Forall_app in HM. destruct HM as [HM1 HM2]. apply Forall_inv_tail in HM2.
    pose proof (zsum_ge_len _ _ HM1) as G1. pose proof (zsum_ge_len _ _ HM2) as G2.
    rewrite zsum_app, app_length. cbn [length zsum fold_right]. fold (zsum l2).
    nia.
  Qed.

  Lemma ckk_bound_eq k (h : @heap A) lb : ckk_bound k h = Some lb ->
    (2 <= k)%nat /\
    lb = - (zmax (heap_flat_sums h)
            - (zsum (heap_flat_sums h) - zmax (heap_flat_sums h)) / (Z.of_nat k - 1)).
  Proof.
    destruct k as [|[|n]]; try discriminate. intros H. split; [lia|].
    change (Some (- (zmax (heap_flat_sums h)
                     - (zsum (heap_flat_sums h) - zmax (heap_flat_sums h))
                       / (Z.of_nat (S (S n)) - 1))) = Some lb) in H.
    injection H as <-. reflexivity.
  Qed.

  Lemma leaf_key (e : @hentry A) : sorted_ok e -> key_ok e ->
    fst e = - (zmax (sums (snd e)) - zmin (sums (snd e))).
  Proof. intros Hs Hk. unfold key_ok in Hk. rewrite Hk, (bins_diff_sorted _ Hs). reflexivity. Qed.

  (** the pruning bound of a heap is at least the key of any one-entry heap [e] over the same
      items whose sums dominate those of the heap: the largest sum of [e] is at least the largest
      sum mx in h, and its smallest sum is at most the average (total - mx) / (k - 1) of the others *)
  Lemma bound_admissible_leaf k its h e lb :
    heap_inv k its h -> h <> [] -> heap_full k its [e] ->
    dom (heap_flat_sums h) (sums (snd e)) ->
    ckk_bound k h = Some lb -> fst e <= lb.
  Proof.
    intros Hinv Hh (Hinv' & Hs' & Hk') D Hb.
    pose proof (flat_total k its _ Hinv) as T1. pose proof (flat_total k its _ Hinv') as T2.
    pose proof (leaf_key e (Forall_inv Hs') (Forall_inv Hk')) as Hkey.
    destruct Hinv' as [HF' _]. destruct (Forall_inv HF') as [Le _].
    unfold heap_flat_sums in T2. cbn [flat_map] in T2. rewrite app_nil_r in T2.
    destruct (ckk_bound_eq _ _ _ Hb) as [Hk2 ->]. clear Hb.
    assert (Hne : heap_flat_sums h <> []).
    { destruct h as [|e0 t]; [congruence|].
      destruct Hinv as [HF _]. destruct (Forall_inv HF) as [L0 _].
      unfold heap_flat_sums. cbn [flat_map]. unfold sums.
      destruct (snd e0); cbn [length] in L0; [lia|discriminate]. }
    pose proof (dom_zmax _ _ Hne D) as Hmx.
    assert (Hse : sums (snd e) <> []).
    { unfold sums. destruct (snd e); cbn [length] in Le; [lia|discriminate]. }
    pose proof (zmin_avg _ Hse) as Havg.
    assert (HLs : Z.of_nat (length (sums (snd e))) = Z.of_nat k).
    { unfold sums. rewrite map_length. f_equal. exact Le. }
    rewrite HLs in Havg.
    set (d := Z.of_nat k - 1) in *. assert (Hd : 0 < d) by lia.
    set (mx := zmax (heap_flat_sums h)) in *.
    set (tot := zsum (heap_flat_sums h)) in *.
    assert (Hq : zmin (sums (snd e)) <= (tot - mx) / d).
    { apply Z.div_le_lower_bound; [exact Hd|]. lia. }
    lia.
  Qed.

  Lemma leaf_flat_sums (e : @hentry A) : heap_flat_sums [e] = sums (snd e).
  Proof. apply app_nil_r. Qed.

  (** C13, the pruning bound is admissible: no leaf below h can beat the bound computed at h *)
  Theorem ckk_bound_admissible : forall k its h e lb,
    heap_full k its h -> Forall (fun x => 0 <= valueof x) its ->
    expands h [e] -> ckk_bound k h = Some lb -> fst e <= lb.
  Proof.
    intros k its h e lb Hf Hpos Hex Hb.
    apply (bound_admissible_leaf k its h e lb); [apply Hf|intros ->; inversion Hex| | |exact Hb].
    - eapply expands_full; eassumption.
    - rewrite <- leaf_flat_sums. eapply expands_dom; [exact Hex|apply Hf|exact Hpos].
  Qed.

  (** the same, for heaps met during a run: anything expanded from the initial heap *)
  Corollary ckk_bound_admissible_run : forall k items h e lb,
    (1 <= k)%nat -> Forall (fun x => 0 <= valueof x) items ->
    expands (initial_heap valueof true k items) h ->
    expands h [e] -> ckk_bound k h = Some lb -> fst e <= lb.
  Proof.
    intros k items h e lb Hk Hpos H1 H2 Hb.
    eapply ckk_bound_admissible; [|exact Hpos|exact H2|exact Hb].
    eapply expands_full; [exact H1|]. apply initial_heap_full. exact Hk.
  Qed.

  (** pruning is sound: a pruned heap has no leaf that would have been accepted *)
  Corollary ckk_prune_sound : forall k its h e best,
    heap_full k its h -> Forall (fun x => 0 <= valueof x) its ->
    pruned k h best = true -> expands h [e] -> gt_best (fst e) best = false.
  Proof.
    intros k its h e best Hf Hpos Hp Hex. unfold pruned in Hp.
    destruct (ckk_bound k h) as [lb|] eqn:Hb; [|discriminate].
    pose proof (ckk_bound_admissible k its h e lb Hf Hpos Hex Hb) as Hle.
    destruct best as [b|]; cbn [le_best] in Hp; [|discriminate].
    cbn [gt_best]. lia.
  Qed.

  (** [ckk_best] holds the key of the incumbent, minus its max-min difference, so larger is better.
      stop_ok: the stop flag is only ever set at difference 0;  best_le: the incumbent never gets
      worse;  covers st e: the incumbent of st is at least as good as the leaf e. *)
  Definition stop_ok (st : @ckk_state A) : Prop := ckk_stop st = true -> ckk_best st = Some 0.
  Definition best_le (st st' : @ckk_state A) : Prop :=
    forall b, ckk_best st = Some b -> exists b', ckk_best st' = Some b' /\ b <= b'.
  Definition covers (st : @ckk_state A) (e : @hentry A) : Prop :=
    exists b, ckk_best st = Some b /\ fst e <= b.

  Lemma best_le_refl st : best_le st st.
  Proof. intros b Hb. exists b. split; [exact Hb|lia]. Qed.

  Lemma best_le_trans s1 s2 s3 : best_le s1 s2 -> best_le s2 s3 -> best_le s1 s3.
  Proof.
    intros H1 H2 b Hb. destruct (H1 b Hb) as (b' & Hb' & L1). destruct (H2 b' Hb') as (b'' & Hb'' & L2).
    exists b''. split; [exact Hb''|lia].
  Qed.

  Lemma covers_mono s1 s2 e : best_le s1 s2 -> covers s1 e -> covers s2 e.
  Proof.
    intros H (b & Hb & L). destruct (H b Hb) as (b' & Hb' & L'). exists b'. split; [exact Hb'|lia].
  Qed.

  Lemma zmin_le_zmax l : zmin l <= zmax l.
  Proof.
    destruct l as [|x t]; [cbn; lia|].
    pose proof (zmax_ge (x :: t)) as G. rewrite Forall_forall in G.
    apply G, zmin_in. discriminate.
  Qed.

  Lemma expands_leaf_key k its h e : heap_full k its h -> expands h [e] ->
    fst e = - (zmax (sums (snd e)) - zmin (sums (snd e))).
  Proof.
    intros Hf Hex. destruct (expands_full k its _ _ Hex Hf) as (_ & Hs & Hk).
    apply leaf_key; [exact (Forall_inv Hs)|exact (Forall_inv Hk)].
  Qed.

  Lemma expands_leaf_nonpos k its h e : heap_full k its h -> expands h [e] -> fst e <= 0.
  Proof.
    intros Hf Hex. rewrite (expands_leaf_key k its h e Hf Hex).
    pose proof (zmin_le_zmax (sums (snd e))). lia.
  Qed.

  (** exploring a heap from a stop_ok state covers every leaf below that heap *)
  Definition explore_best_spec (k : nat) (its : list A) (f : nat) : Prop :=
    forall h st, heap_full k its h -> (length h <= S f)%nat -> stop_ok st ->
      stop_ok (ckk_explore nameof true f true k h st) /\
      best_le st (ckk_explore nameof true f true k h st) /\
      forall e, expands h [e] -> covers (ckk_explore nameof true f true k h st) e.

  Lemma fold_best k its f : explore_best_spec k its f ->
    forall L st,
      (forall c, In c L -> heap_full k its c /\ (length c <= S f)%nat) -> stop_ok st ->
      stop_ok (fold_left (fun s c => ckk_explore nameof true f true k c s) L st) /\
      best_le st (fold_left (fun s c => ckk_explore nameof true f true k c s) L st) /\
      forall c e, In c L -> expands c [e] ->
        covers (fold_left (fun s c => ckk_explore nameof true f true k c s) L st) e.
  Proof.
    intros IHf. induction L as [|c0 cs IH]; intros st HL Hso; cbn [fold_left].
    - split; [exact Hso|]. split; [apply best_le_refl|]. intros c e [].
    - destruct (HL c0 (or_introl eq_refl)) as [Hf0 Hl0].
      destruct (IHf c0 st Hf0 Hl0 Hso) as (S1 & B1 & C1).
      destruct (IH (ckk_explore nameof true f true k c0 st)) as (S2 & B2 & C2);
        [intros c Hc; apply HL; right; exact Hc|exact S1|].
      split; [exact S2|]. split; [eapply best_le_trans; eassumption|].
      intros c e [<-|Hc] Hex.
      + eapply covers_mono; [exact B2|]. apply C1. exact Hex.
      + eapply C2; eassumption.
  Qed.

  (** a node that is left without a new incumbent: no leaf below it may beat the old one *)
  Lemma unchanged_ok st h :
    (forall e, expands h [e] -> gt_best (fst e) (ckk_best st) = false) ->
    stop_ok (tick st) /\ best_le st (tick st) /\ forall e, expands h [e] -> covers (tick st) e.
  Proof.
    intros H. split; [intros E; discriminate E|]. split; [exact (best_le_refl st)|].
    intros e He. specialize (H e He). unfold covers. cbn [tick ckk_best].
    destruct (ckk_best st) as [b|]; cbn [gt_best] in H; [|discriminate].
    exists b. split; [reflexivity|lia].
  Qed.

  Lemma explore_best k its : Forall (fun x => 0 <= valueof x) its ->
    forall fuel, explore_best_spec k its fuel.
  Proof.
    intros Hpos. induction fuel as [fuel IH] using lt_wf_ind.
    intros h st Hf HL Hso. rewrite ckk_explore_eq.
    destruct (ckk_stop st) eqn:Es.
    - split; [exact Hso|]. split; [apply best_le_refl|].
      intros e He. exists 0. split; [apply Hso; exact Es|].
      eapply expands_leaf_nonpos; eassumption.
    - destruct (pruned k h (ckk_best st)) eqn:Ep.
      { apply unchanged_ok. intros e He. exact (ckk_prune_sound k its h e _ Hf Hpos Ep He). }
      destruct h as [|e1 [|e2 rest]].
      + apply unchanged_ok. intros e He. inversion He.
      + destruct (gt_best (fst e1) (ckk_best st)) eqn:G.
        * unfold stop_ok, best_le, covers, accept. cbn [ckk_stop ckk_best]. split; [|split].
          -- intros H. f_equal. lia.
          -- intros b Hb. exists (fst e1). split; [reflexivity|]. rewrite Hb in G. cbn [gt_best] in G. lia.
          -- intros e He. inversion He; subst e. exists (fst e1). split; [reflexivity|lia].
        * apply unchanged_ok. intros e He. inversion He; subst e. exact G.
      + destruct fuel as [|f]; [cbn [length] in HL; lia|].
        destruct (fold_best k its f (IH f (Nat.lt_succ_diag_r f))
                    (rev (sort_asc topdiff (children rest (snd e1) (snd e2)))) (tick st))
          as (S2 & B2 & C2).
        * intros c Hc. destruct (children_in _ _ _ _ Hc) as (comb & Hcomb & ->).
          split; [eapply child_full; eassumption|].
          rewrite heap_push_length. cbn [length] in HL. lia.
        * intros H. discriminate H.
        * split; [exact S2|]. split; [exact B2|].
          intros e He. inversion He as [|? ? ? c ? Hc Hex']; subst.
          eapply C2; [|exact Hex'].
          apply -> in_rev. apply sort_asc_In. unfold children. apply in_map. exact Hc.
  Qed.

  (** towards C02: no leaf of the CKK search tree has a smaller max-min difference than ckk's result *)
  Theorem ckk_best_in_tree : forall k items b e, (1 <= k)%nat ->
    Forall (fun x => 0 <= valueof x) items ->
    ckk valueof nameof true k items = Ok b ->
    expands (initial_heap valueof true k items) [e] ->
    zmax (sums b) - zmin (sums b) <= zmax (sums (snd e)) - zmin (sums (snd e)).
  Proof.
    intros k items b e Hk Hpos Hckk Hex.
    pose proof (initial_heap_full k items Hk) as Hf.
    destruct (explore_best k items Hpos (length items) (initial_heap valueof true k items)
                (mk_ckk None None [] false O) Hf) as (_ & _ & HC).
    - rewrite initial_heap_length. lia.
    - intros H. discriminate H.
    - fold (ckk_run valueof nameof true true None k items) in HC.
      destruct (HC e Hex) as (bb & Hbb & Hle).
      pose proof (run_chain k items) as [Hbest _]. cbv zeta in Hbest.
      pose proof (run_hd true None k items) as Hhd. cbv zeta in Hhd.
      pose proof (run_sorted true None k items) as Hsrt.
      unfold ckk in Hckk.
      destruct (ckk_part (ckk_run valueof nameof true true None k items)) as [p|]; [|discriminate].
      injection Hckk as <-.
      destruct (ckk_yields (ckk_run valueof nameof true true None k items)) as [|y ys];
        cbn [hd_error] in Hhd; [discriminate|].
      injection Hhd as ->.
      cbn [hd_error option_map] in Hbest. rewrite Hbest in Hbb. injection Hbb as <-.
      rewrite (bins_diff_sorted _ (Forall_inv Hsrt)) in Hle.
      rewrite (expands_leaf_key k items _ e Hf Hex) in Hle.
      rewrite (zmax_perm _ _ (sort_bins_sums_perm y)), (zmin_perm _ _ (sort_bins_sums_perm y)).
      lia.
  Qed.

End KKProofs.

(** A map that acts bin by bin ([erase], [map_bins valueof]) commutes with the combinations of
    two bins-arrays. *)
Section BinMap.
  Context {A B : Type} (f : bin A -> bin B) (nA : A -> Z) (nB : B -> Z) (kA kB : bool).
  Hypothesis f_fst : forall x, fst (f x) = fst x.
  Hypothesis f_empty : f empty_bin = empty_bin.
  Hypothesis f_combine : forall x y, f (combine_bin x y) = combine_bin (f x) (f y).
  Hypothesis f_names : forall x,
    f (fst x, if kA then sort_names nA (snd x) else snd x) =
    (fst (f x), if kB then sort_names nB (snd (f x)) else snd (f x)).

  Lemma map_zip_combine : forall b1 b2, map f (zip_combine b1 b2) = zip_combine (map f b1) (map f b2).
  Proof.
    induction b1 as [|x t1 IH]; intros [|y t2]; cbn [zip_combine map]; try reflexivity.
    rewrite IH, f_combine. reflexivity.
  Qed.

  Lemma map_combo_of_perm (b1 b2 : bins A) (p : list nat) :
    map f (combo_of_perm nA kA b1 b2 p) = combo_of_perm nB kB (map f b1) (map f b2) p.
  Proof.
    unfold combo_of_perm, sort_bins. cbv zeta.
    rewrite (sort_asc_map f fst fst _ f_fst). f_equal.
    replace (map (fun i => match nth_opt (map f b1) i with Some x => x | None => empty_bin end) p)
      with (map f (map (fun i => match nth_opt b1 i with Some x => x | None => empty_bin end) p)).
    - rewrite <- map_zip_combine, !map_map. apply map_ext. exact f_names.
    - rewrite map_map. apply map_ext. intros i. rewrite nth_opt_map.
      destruct (nth_opt b1 i); [reflexivity|exact f_empty].
  Qed.
End BinMap.

(** [F] maps bins-arrays to bins-arrays (forgetting the contents, renaming the items).  If it keeps
    the sums and commutes with [sort_bins], [map_heap] commutes with the heap operations, hence
    with Karmarkar-Karp ([kk_map]).  If it also maps the children of a node to the children of its
    image (on the heaps of a class [I] closed under expansion), the two complete searches run in
    lock step: same prunings, same incumbent, same number of nodes, the images of the same yields
    ([explore_map], [ckk_run_map]).
    Instances: [erase] ([kk_erase] below, Proofs/EraseProofs.v), [map_bins valueof]
    (Proofs/NamesProofs.v, Proofs/CKKManagersProofs.v), the values view (Proofs/SNPNamesProofs.v). *)
Section HeapMap.
  Context {A B : Type} (F : bins A -> bins B).

  Definition map_entry (e : @hentry A) : @hentry B := (fst e, F (snd e)).
  Definition map_heap (h : @heap A) : @heap B := map map_entry h.
  Definition map_state (st : @ckk_state A) : @ckk_state B :=
    mk_ckk (ckk_best st) (option_map F (ckk_part st)) (map F (ckk_yields st)) (ckk_stop st) (ckk_nodes st).

  Hypothesis F_sums : forall b, sums (F b) = sums b.
  Hypothesis F_sort : forall b, F (sort_bins b) = sort_bins (F b).

  Lemma hmap_insert (e : hentry) (h : heap) : heap_insert (map_entry e) (map_heap h) = map_heap (heap_insert e h).
  Proof.
    induction h as [|y t IH]; cbn [heap_insert map_heap map]; [reflexivity|].
    change (fst (map_entry e) <? fst (map_entry y)) with (fst e <? fst y).
    destruct (fst e <? fst y); cbn [map]; [reflexivity|]. f_equal. exact IH.
  Qed.

  Lemma hmap_push (h : heap) (b : bins A) : heap_push (map_heap h) (F b) = map_heap (heap_push h b).
  Proof.
    unfold heap_push. cbv zeta. rewrite <- hmap_insert. unfold map_entry. cbn [fst snd].
    rewrite <- F_sort. unfold bins_diff. rewrite F_sums. reflexivity.
  Qed.

  Lemma map_heap_bound k h : ckk_bound k (map_heap h) = ckk_bound k h.
  Proof.
    assert (E : heap_flat_sums (map_heap h) = heap_flat_sums h).
    { unfold heap_flat_sums. induction h as [|e t IH]; cbn [map_heap map flat_map]; [reflexivity|].
      cbn [map_entry snd]. rewrite F_sums. f_equal. exact IH. }
    unfold ckk_bound. rewrite E. reflexivity.
  Qed.

  Lemma dedup_sums_map (l : list (bins A)) : forall seen,
    dedup_sums seen (map F l) = map F (dedup_sums seen l).
  Proof.
    induction l as [|b t IH]; intros seen; [reflexivity|]. cbn [map].
    rewrite !dedup_sums_unfold, F_sums.
    destruct (existsb (list_eqb Z.eqb (sums b)) seen); [apply IH|]. cbn [map]. f_equal. apply IH.
  Qed.

  Lemma map_heap_topdiff h : topdiff (map_heap h) = topdiff h.
  Proof. destruct h; reflexivity. Qed.

  (** the two runs read their items through [vA], [vB]; [pi] sends an item to its counterpart *)
  Section Items.
    Context (vA : A -> Z) (vB : B -> Z) (pi : A -> B) (kA kB : bool).
    Hypothesis pi_value : forall x, vB (pi x) = vA x.
    Hypothesis F_singleton : forall k x, F (singleton_bins vA kA k x) = singleton_bins vB kB k (pi x).

    Lemma hmap_initial_heap (k : nat) (items : list A) :
      map_heap (initial_heap vA kA k items) = initial_heap vB kB k (map pi items).
    Proof.
      unfold initial_heap.
      rewrite (fold_left_sim map_heap pi
                 (fun h x => heap_push h (singleton_bins vA kA k x))
                 (fun h y => heap_push h (singleton_bins vB kB k y))).
      - rewrite (sort_desc_map pi vA vB _ pi_value). reflexivity.
      - intros h x. rewrite <- hmap_push, F_singleton. reflexivity.
    Qed.

    Theorem kk_map (k : nat) (items : list A) :
      (forall b1 b2, F (kk_combine b1 b2) = kk_combine (F b1) (F b2)) ->
      rmap F (kk vA kA k items) = kk vB kB k (map pi items).
    Proof.
      intros F_combine.
      assert (L : forall fuel h, map_heap (kk_loop fuel h) = kk_loop fuel (map_heap h)).
      { induction fuel as [|f IH]; intros h; cbn [kk_loop]; [reflexivity|].
        destruct h as [|e1 [|e2 rest]]; try reflexivity.
        rewrite IH, <- hmap_push, F_combine. reflexivity. }
      unfold kk. rewrite <- hmap_initial_heap, map_length, <- L.
      destruct (kk_loop (length items - 1) (initial_heap vA kA k items)) as [|e rest]; reflexivity.
    Qed.

    Section Complete.
      Context (nA : A -> Z) (nB : B -> Z) (I : heap (A:=A) -> Prop).
      Hypothesis F_children : forall e1 e2 rest, I (e1 :: e2 :: rest) ->
        ckk_children nB kB (F (snd e1)) (F (snd e2)) = map F (ckk_children nA kA (snd e1) (snd e2)).
      Hypothesis I_child : forall e1 e2 rest c, I (e1 :: e2 :: rest) ->
        In c (ckk_children nA kA (snd e1) (snd e2)) -> I (heap_push rest c).

      Theorem explore_map mode k : forall fuel h st, I h ->
        ckk_explore nB kB fuel mode k (map_heap h) (map_state st) =
        map_state (ckk_explore nA kA fuel mode k h st).
      Proof.
        induction fuel as [fuel IH] using lt_wf_ind. intros h st Hh. rewrite !ckk_explore_unfold.
        change (ckk_stop (map_state st)) with (ckk_stop st). destruct (ckk_stop st); [reflexivity|].
        unfold pruned. rewrite map_heap_bound. change (ckk_best (map_state st)) with (ckk_best st).
        destruct (match ckk_bound k h with Some lb => le_best lb (ckk_best st) | None => false end);
          [reflexivity|].
        destruct h as [|e1 [|e2 rest]]; [reflexivity| |].
        - cbn [map_heap map]. change (fst (map_entry e1)) with (fst e1).
          destruct (gt_best (fst e1) (ckk_best st)); reflexivity.
        - destruct fuel as [|f]; [reflexivity|].
          change (map_heap (e1 :: e2 :: rest)) with (map_entry e1 :: map_entry e2 :: map_heap rest).
          cbn [map_entry snd]. rewrite (F_children e1 e2 rest Hh).
          change (tick (map_state st)) with (map_state (tick st)).
          (* the list of child heaps of the image is the image of the list of child heaps *)
          rewrite map_map, (map_ext _ _ (hmap_push rest)), <- (map_map (heap_push rest) map_heap).
          rewrite <- (sort_asc_map map_heap topdiff topdiff _ map_heap_topdiff), <- map_rev.
          symmetry. apply (fold_sim_cond map_state map_heap I).
          + intros s c Hc. symmetry. exact (IH f (Nat.lt_succ_diag_r f) c s Hc).
          + apply Forall_forall. intros c Hc. apply in_rev, sort_asc_In, in_map_iff in Hc.
            destruct Hc as (b & <- & Hb). exact (I_child e1 e2 rest b Hh Hb).
      Qed.

      Lemma ckk_run_map (mode : bool) (init : option Z) (k : nat) (items : list A) :
        I (initial_heap vA kA k items) ->
        map_state (ckk_run vA nA kA mode init k items) = ckk_run vB nB kB mode init k (map pi items).
      Proof.
        intros Hi. unfold ckk_run. rewrite map_length, <- hmap_initial_heap. symmetry.
        exact (explore_map mode k _ _ (mk_ckk init None [] false 0) Hi).
      Qed.
    End Complete.
  End Items.

  Lemma ckk_of_run (vA nA : A -> Z) (vB nB : B -> Z) (kA kB : bool) (k : nat) items itemsB :
    map_state (ckk_run vA nA kA true None k items) = ckk_run vB nB kB true None k itemsB ->
    rmap F (ckk vA nA kA k items) = ckk vB nB kB k itemsB.
  Proof.
    intros E. unfold ckk. rewrite <- E. cbn [map_state ckk_part].
    destruct (ckk_part (ckk_run vA nA kA true None k items)) as [b|]; cbn [option_map rmap]; [|reflexivity].
    rewrite F_sort. reflexivity.
  Qed.
End HeapMap.

Lemma ckk_generator_of_run {A B} (F : bins A -> bins B) (vA nA : A -> Z) (vB nB : B -> Z) (kA kB : bool)
      (k : nat) items itemsB init :
  (forall mode, map_state F (ckk_run vA nA kA mode init k items) = ckk_run vB nB kB mode init k itemsB) ->
  map F (ckk_generator vA nA kA k items init) = ckk_generator vB nB kB k itemsB init.
Proof. intros E. unfold ckk_generator. rewrite <- E. cbn [map_state ckk_yields]. apply map_rev. Qed.

(** the sums-only run of Karmarkar-Karp makes the same decisions: [kk_map] with [F := erase] *)
Section KKErase.
  Context {A : Type} (valueof : A -> Z).

  Lemma singleton_bins_erase k x :
    singleton_bins valueof false k x = erase (singleton_bins valueof true k x).
  Proof.
    unfold singleton_bins. rewrite erase_add_item, erase_new_bins. reflexivity.
  Qed.

  Lemma kk_combine_erase (b1 b2 : bins A) :
    kk_combine (erase b1) (erase b2) = erase (kk_combine b1 b2).
  Proof.
    unfold kk_combine. rewrite <- erase_rev. symmetry.
    apply (map_zip_combine (fun x => (fst x, @nil A))). reflexivity.
  Qed.

  Theorem kk_erase : forall k items,
    rmap erase (kk valueof true k items) = kk valueof false k items.
  Proof.
    intros k items. rewrite <- (map_id items) at 2.
    apply (kk_map erase (@erase_sums A) (fun b => eq_sym (sort_bins_erase b)) valueof valueof
             (fun x => x) true false (fun _ => eq_refl) (fun n x => eq_sym (singleton_bins_erase n x))).
    intros b1 b2. symmetry. apply kk_combine_erase.
  Qed.
End KKErase.

Print Assumptions initial_heap_inv.
Print Assumptions kk_partition.
Print Assumptions kk_erase.
Print Assumptions kk_gap.
Print Assumptions perms_sound_local.
Print Assumptions ckk_partition.
Print Assumptions ckk_generator_valid.
Print Assumptions ckk_generator_valid_any.
Print Assumptions ckk_generator_sorted.
Print Assumptions ckk_generator_decreasing.
Print Assumptions ckk_generator_last.
Print Assumptions ckk_bound_admissible.
Print Assumptions ckk_bound_admissible_run.
Print Assumptions ckk_prune_sound.
Print Assumptions ckk_best_in_tree.
