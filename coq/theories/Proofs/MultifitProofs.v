(** Properties of the MultiFit model (Model/Multifit.v, prtpy/partitioning/multifit.py).

    The binary-search capacities are IEEE doubles, modelled exactly as dyadic rationals
    (m, e) = m * 2^e; [rnd53] is round-to-nearest-even to 53 significant bits.
    Here the dyadics are given their rational value [dval : dyadic -> Q] and we prove:

    - [rnd53_rounds]: rnd53 num den is representable, lies between the representable
      neighbours of num/den (so it is monotone and exact on representable values) and has
      relative error <= 2^-53;
    - the loop invariant  M <= lower <= upper, all representable  ([mf_loop_inv]);
    - [multifit_partition], [multifit_total];
    - [multifit_at_most_k]  (side condition numbins < 2^53);
    - [multifit_erase], [multifit_names];
    - [multifit_ratio_2_bound], [multifit_ratio_2]  (largest sum <= 2 * optimum);
    - [multifit_threshold]: if first-fit-decreasing stays within k bins for every integer
      capacity >= c0 (c0 >= optimum) then largest sum <= c0 + OPT / 2^it + OPT / 2^51;
      [multifit_ratio_ceil] is the case c0 = ceil (r * OPT).  The capacity lemmas that feed
      it are in MultifitCapacityProofs.v (r = 11/9) and MultifitRatioProofs.v.

    Extra hypotheses (beyond items <> [], values >= 0, k >= 1):
    - [zmax values <= 2^53] for totality / at-most-k: the largest value must be a double,
      otherwise (lower+upper)/2 can round BELOW the largest item and first-fit raises
      ValueError (Python does too; see [multifit_unrepresentable_max_fails]);
    - [Z.of_nat k < 2^53] for at-most-k;
    - [zsum values <= 2^53] for the ratio bound. *)
From Prtpy Require Import Base.Prelude Model.Binner Model.Packing Model.Multifit Spec.Partition
  Model.Objectives Proofs.BaseLemmas Proofs.BinnerLemmas Proofs.PackingProofs Proofs.RatioProofs.
From Coq Require Import QArith Qround Qpower Lqa ZifyBool Sorting.Sorted.
Open Scope Z_scope.

Local Notation idZ := (fun v : Z => v).

(** ---- 1. round-to-nearest-even on integers ---- *)
Lemma rne_spec n d : 0 <= n -> 0 < d ->
  (forall z, z * d <= n -> z <= rne n d) /\
  (forall z, n <= z * d -> rne n d <= z) /\
  2 * n - d <= 2 * (rne n d * d) <= 2 * n + d.
Proof.
  intros Hn Hd. unfold rne.
  pose proof (Z.div_mod n d ltac:(lia)) as E. pose proof (Z.mod_pos_bound n d Hd) as B.
  set (q := n / d) in *. set (r := n mod d) in *.
  destruct (2 * r <? d) eqn:E1; [|destruct (d <? 2 * r) eqn:E2; [|destruct (Z.even q) eqn:E3]];
    (split; [intros z Hz; nia|split; [intros z Hz; nia|nia]]).
Qed.

(** ---- 2. the exponent chosen by rnd53 ---- *)
Lemma pow2_pos e : 0 <= e -> 0 < 2 ^ e.
Proof. intros H. apply Z.pow_pos_nonneg; lia. Qed.

Lemma scale_range num den : 0 < num -> 0 < den ->
  let nd := dy_scale num den (Z.log2 num - Z.log2 den - 53) in
  0 < snd nd /\ 2 ^ 52 * snd nd <= fst nd < 2 ^ 54 * snd nd.
Proof.
  intros Hn Hd.
  pose proof (Z.log2_spec num Hn) as [Ln1 Ln2]. pose proof (Z.log2_spec den Hd) as [Ld1 Ld2].
  pose proof (Z.log2_nonneg num) as Pn. pose proof (Z.log2_nonneg den) as Pd.
  set (ln := Z.log2 num) in *. set (ld := Z.log2 den) in *.
  rewrite Z.pow_succ_r in Ln2, Ld2 by assumption. pose proof (pow2_pos ld Pd) as Pld.
  change (2 ^ 54) with (4 * 2 ^ 52). assert (Pt : 0 < 2 ^ 52) by reflexivity.
  unfold dy_scale. cbv zeta. destruct (0 <=? ln - ld - 53) eqn:E; cbn [fst snd].
  - set (e := ln - ld - 53) in *. pose proof (pow2_pos e ltac:(lia)) as Pe.
    assert (Ea : 2 ^ ln = 2 ^ ld * (2 * 2 ^ 52) * 2 ^ e).
    { change (2 * 2 ^ 52) with (2 ^ 53). rewrite <- !Z.pow_add_r by lia. f_equal. lia. }
    set (c := 2 ^ e) in *. set (b := 2 ^ ld) in *. set (a := 2 ^ ln) in *. set (t := 2 ^ 52) in *.
    split; [nia|]. split.
    + assert (den * c < 2 * b * c) by nia. nia.
    + assert (b * c <= den * c) by nia. nia.
  - set (e := - (ln - ld - 53)) in *. pose proof (pow2_pos e ltac:(lia)) as Pe.
    assert (Ea : 2 ^ ln * 2 ^ e = 2 ^ ld * (2 * 2 ^ 52)).
    { change (2 * 2 ^ 52) with (2 ^ 53). rewrite <- !Z.pow_add_r by lia. f_equal. lia. }
    set (c := 2 ^ e) in *. set (b := 2 ^ ld) in *. set (a := 2 ^ ln) in *. set (t := 2 ^ 52) in *.
    split; [lia|]. split.
    + assert (a * c <= num * c) by nia. assert (t * den < t * (2 * b)) by nia. nia.
    + assert (num * c < 2 * a * c) by nia. assert (t * b <= t * den) by nia. nia.
Qed.

(** ---- 3. dyadic values as rationals ---- *)
Definition p2 (e : Z) : Q := Qpower 2 e.
Definition dval (x : dyadic) : Q := (inject_Z (fst x) * p2 (snd x))%Q.

Lemma inject_Z_pos z : 0 < z -> (0 < inject_Z z)%Q.
Proof. intros H. change 0%Q with (inject_Z 0). rewrite <- Zlt_Qlt. exact H. Qed.
Lemma inject_Z_nonneg z : 0 <= z -> (0 <= inject_Z z)%Q.
Proof. intros H. change 0%Q with (inject_Z 0). rewrite <- Zle_Qle. exact H. Qed.

Lemma p2_pos e : (0 < p2 e)%Q.
Proof. apply Qpower_0_lt. reflexivity. Qed.
Lemma p2_add a b : (p2 (a + b) == p2 a * p2 b)%Q.
Proof. apply Qpower_plus. intro H. discriminate H. Qed.
Lemma p2_Z e : 0 <= e -> (p2 e == inject_Z (2 ^ e))%Q.
Proof. intros H. unfold p2. rewrite Zpower_Qpower by exact H. reflexivity. Qed.
Lemma p2_0 : (p2 0 == 1)%Q. Proof. reflexivity. Qed.
Lemma p2_1 : (p2 1 == 2)%Q. Proof. reflexivity. Qed.
Lemma p2_m1 : (p2 (-1) == 1 # 2)%Q. Proof. reflexivity. Qed.
Lemma p2_ge1 e : 0 <= e -> (1 <= p2 e)%Q.
Proof.
  intros H. rewrite p2_Z by exact H. change 1%Q with (inject_Z 1). rewrite <- Zle_Qle.
  pose proof (pow2_pos e H). lia.
Qed.
Lemma p2_mono a b : a <= b -> (p2 a <= p2 b)%Q.
Proof.
  intros H. replace b with (a + (b - a)) by lia. rewrite p2_add.
  pose proof (p2_pos a). assert (1 <= p2 (b - a))%Q by (apply p2_ge1; lia). nra.
Qed.
Lemma p2_cancel e : 0 <= e -> (inject_Z (2 ^ e) * p2 (- e) == 1)%Q.
Proof.
  intros H. rewrite <- p2_Z by exact H. rewrite <- p2_add. replace (e + - e) with 0 by lia. reflexivity.
Qed.

(** shifting the exponent down: m * 2^e = (m * 2^(e - s)) * 2^s *)
Lemma dval_shift x s : s <= snd x -> (dval x == inject_Z (fst x * 2 ^ (snd x - s)) * p2 s)%Q.
Proof.
  intros H. unfold dval. rewrite inject_Z_mult. rewrite <- p2_Z by lia.
  rewrite <- Qmult_assoc. rewrite <- p2_add. replace (snd x - s + s) with (snd x) by lia. reflexivity.
Qed.

Lemma dval_neg_exp x : snd x <= 0 -> (dval x * inject_Z (2 ^ (- snd x)) == inject_Z (fst x))%Q.
Proof.
  intros H. pose proof (p2_cancel (- snd x) ltac:(lia)) as C. rewrite Z.opp_involutive in C.
  unfold dval. rewrite <- Qmult_assoc, (Qmult_comm (p2 (snd x))), C. ring.
Qed.

Lemma scale_rel num den e :
  let nd := dy_scale num den e in
  (inject_Z (fst nd) * inject_Z den * p2 e == inject_Z num * inject_Z (snd nd))%Q.
Proof.
  unfold dy_scale. cbv zeta. destruct (0 <=? e) eqn:E; cbn [fst snd].
  - rewrite inject_Z_mult. rewrite p2_Z by lia. ring.
  - rewrite inject_Z_mult. pose proof (p2_cancel (- e) ltac:(lia)) as C.
    replace (- - e) with e in C by lia.
    transitivity (inject_Z num * inject_Z den * (inject_Z (2 ^ (- e)) * p2 e))%Q; [ring|].
    rewrite C. ring.
Qed.

Lemma rnd53_cases num den : 0 < num -> 0 < den ->
  exists n d e, 0 <= n /\ 0 < d /\ 2 ^ 52 * d <= n < 2 ^ 53 * d /\
    (inject_Z n * inject_Z den * p2 e == inject_Z num * inject_Z d)%Q /\
    rnd53 num den = (rne n d, e).
Proof.
  intros Hn Hd. unfold rnd53. destruct (num <=? 0) eqn:E0; [lia|]. cbv zeta.
  pose proof (scale_range num den Hn Hd) as R. pose proof (scale_rel num den (Z.log2 num - Z.log2 den - 53)) as S.
  cbv zeta in R, S. set (e0 := Z.log2 num - Z.log2 den - 53) in *.
  destruct (dy_scale num den e0) as [n0 d0]. cbn [fst snd] in *. destruct R as (R0 & R1 & R2).
  destruct (n0 / d0 <? 2 ^ 53) eqn:E1.
  - exists n0, d0, e0. repeat split; try lia; auto.
    assert (n0 / d0 < 2 ^ 53) by lia.
    pose proof (Z.div_mod n0 d0 ltac:(lia)). pose proof (Z.mod_pos_bound n0 d0 R0). nia.
  - exists n0, (2 * d0), (e0 + 1). repeat split; try lia.
    + assert (2 ^ 53 <= n0 / d0) by lia.
      pose proof (Z.div_mod n0 d0 ltac:(lia)). pose proof (Z.mod_pos_bound n0 d0 R0). nia.
    + rewrite p2_add, p2_1, inject_Z_mult.
      transitivity (2 * (inject_Z n0 * inject_Z den * p2 e0))%Q; [ring|]. rewrite S.
      change (inject_Z 2) with 2%Q. ring.
Qed.

(** ---- 4. what correct rounding to 53 bits gives ---- *)
Definition repr (a : dyadic) : Prop := 0 <= fst a <= 2 ^ 53.

Definition rounds_to (x : Q) (r : dyadic) : Prop :=
  repr r /\
  (forall a, repr a -> (dval a <= x)%Q -> (dval a <= dval r)%Q) /\
  (forall a, repr a -> (x <= dval a)%Q -> (dval r <= dval a)%Q) /\
  (x * inject_Z (2 ^ 53 - 1) <= dval r * inject_Z (2 ^ 53))%Q /\
  (dval r * inject_Z (2 ^ 53) <= x * inject_Z (2 ^ 53 + 1))%Q.

Lemma Qcancel_r (a b c : Q) : (0 < c)%Q -> (a * c <= b * c)%Q -> (a <= b)%Q.
Proof. intros Hc H. apply (Qmult_le_r a b c Hc). exact H. Qed.

(** a representable value with a smaller exponent is at most 2^52 * 2^e *)
Lemma repr_small a e : repr a -> snd a < e -> (dval a <= inject_Z (2 ^ 52) * p2 e)%Q.
Proof.
  intros [Ha0 Ha1] He. unfold dval.
  assert (H1 : (inject_Z (fst a) <= inject_Z (2 ^ 53))%Q) by (rewrite <- Zle_Qle; exact Ha1).
  assert (H2 : (p2 (snd a) <= p2 (e - 1))%Q) by (apply p2_mono; lia).
  assert (H3 : (p2 e == p2 (e - 1) * 2)%Q).
  { rewrite <- p2_1, <- p2_add. replace (e - 1 + 1) with e by lia. reflexivity. }
  rewrite H3. pose proof (p2_pos (snd a)) as P1. pose proof (p2_pos (e - 1)) as P2.
  change (inject_Z (2 ^ 53)) with (inject_Z (2 ^ 52) * 2)%Q in H1.
  assert (P3 : (0 < inject_Z (2 ^ 52))%Q) by reflexivity.
  set (A := inject_Z (fst a)) in *. set (T := inject_Z (2 ^ 52)) in *.
  set (u := p2 (snd a)) in *. set (v := p2 (e - 1)) in *.
  assert (A * u <= T * 2 * u)%Q by (apply Qmult_le_compat_r; lra).
  assert (T * 2 * u <= T * 2 * v)%Q by (apply Qmult_le_l; lra).
  lra.
Qed.

Lemma p2_scale_le z1 z2 e : z1 <= z2 -> (inject_Z z1 * p2 e <= inject_Z z2 * p2 e)%Q.
Proof. intros H. apply Qmult_le_compat_r; [rewrite <- Zle_Qle; exact H|apply Qlt_le_weak, p2_pos]. Qed.

(** comparing x = (n / d) * 2^e with integer multiples of 2^e happens in the integers *)
Section Scaled.
  Variables (x : Q) (n d e : Z).
  Hypothesis Hd : 0 < d.
  Hypothesis X : (x * inject_Z d == inject_Z n * p2 e)%Q.

  Lemma scaled_cmp u v :
    ((x * inject_Z u <= inject_Z v * p2 e)%Q <-> n * u <= v * d) /\
    ((inject_Z v * p2 e <= x * inject_Z u)%Q <-> v * d <= n * u).
  Proof.
    pose proof (inject_Z_pos d Hd) as PD. pose proof (p2_pos e) as Pe.
    assert (E : (x * inject_Z u * inject_Z d == inject_Z (n * u) * p2 e)%Q).
    { rewrite inject_Z_mult, <- Qmult_assoc, (Qmult_comm (inject_Z u)), Qmult_assoc, X. ring. }
    assert (F : (inject_Z v * p2 e * inject_Z d == inject_Z (v * d) * p2 e)%Q) by (rewrite inject_Z_mult; ring).
    split.
    - rewrite Zle_Qle, <- (Qmult_le_r (inject_Z (n * u)) _ (p2 e) Pe), <- E, <- F. symmetry. apply Qmult_le_r. exact PD.
    - rewrite Zle_Qle, <- (Qmult_le_r (inject_Z (v * d)) _ (p2 e) Pe), <- E, <- F. symmetry. apply Qmult_le_r. exact PD.
  Qed.

  Lemma scaled_le z : (inject_Z z * p2 e <= x)%Q <-> z * d <= n.
  Proof. rewrite <- (Z.mul_1_r n), <- (Qmult_1_r x). apply (scaled_cmp 1 z). Qed.

  Lemma scaled_ge z : (x <= inject_Z z * p2 e)%Q <-> n <= z * d.
  Proof. rewrite <- (Z.mul_1_r n), <- (Qmult_1_r x). apply (scaled_cmp 1 z). Qed.
End Scaled.

Lemma rne_rounds x n d e : 0 <= n -> 0 < d -> 2 ^ 52 * d <= n < 2 ^ 53 * d ->
  (x * inject_Z d == inject_Z n * p2 e)%Q -> rounds_to x (rne n d, e).
Proof.
  intros Hn Hd [R1 R2] X.
  destruct (rne_spec n d Hn Hd) as (Ra & Rb & Rc). set (q := rne n d) in *.
  assert (Q52 : 2 ^ 52 <= q) by (apply Ra; lia).
  assert (Q53 : q <= 2 ^ 53) by (apply Rb; lia).
  pose proof (proj2 (scaled_le x n d e Hd X (2 ^ 52)) R1) as Xlow.
  pose proof (p2_scale_le _ _ e Q52) as Rlow.
  unfold rounds_to, repr. change (dval (q, e)) with (inject_Z q * p2 e)%Q. cbn [fst snd].
  split; [lia|]. split; [|split].
  - intros a Ha Hax. destruct (Z_lt_le_dec (snd a) e) as [Hlt|Hge].
    + pose proof (repr_small a e Ha Hlt). lra.
    + rewrite (dval_shift a e Hge) in *. apply p2_scale_le, Ra, (scaled_le x n d e Hd X). exact Hax.
  - intros a Ha Hax. destruct (Z_lt_le_dec (snd a) e) as [Hlt|Hge].
    + pose proof (repr_small a e Ha Hlt) as Hs.
      assert (Hz : q <= 2 ^ 52) by (apply Rb, (scaled_ge x n d e Hd X); lra).
      pose proof (p2_scale_le _ _ e Hz). lra.
    + rewrite (dval_shift a e Hge) in *. apply p2_scale_le, Rb, (scaled_ge x n d e Hd X). exact Hax.
  - (* relative error: |2 q d - 2 n| <= d <= n / 2^52 *)
    rewrite <- (Qmult_assoc (inject_Z q)), (Qmult_comm (p2 e)), (Qmult_assoc (inject_Z q)), <- inject_Z_mult.
    split; apply (scaled_cmp x n d e Hd X); lia.
Qed.

Lemma rnd53_rounds num den x : 0 <= num -> 0 < den ->
  (x * inject_Z den == inject_Z num)%Q -> rounds_to x (rnd53 num den).
Proof.
  intros Hn Hd Hx.
  assert (HD : (0 < inject_Z den)%Q) by (change 0%Q with (inject_Z 0); rewrite <- Zlt_Qlt; exact Hd).
  destruct (Z.eq_dec num 0) as [E|E].
  - subst num. assert (X0 : (x == 0)%Q) by (change (inject_Z 0) with 0%Q in Hx; nra).
    unfold rnd53. cbn [Z.leb Z.compare]. unfold rounds_to, repr.
    assert (D0 : (dval (0%Z, 0%Z) == 0)%Q) by reflexivity. cbn [fst snd].
    split; [lia|]. split; [intros a _ H; rewrite D0; rewrite X0 in H; exact H|].
    split; [intros a _ H; rewrite D0; rewrite X0 in H; exact H|]. rewrite D0, X0. split; lra.
  - destruct (rnd53_cases num den ltac:(lia) Hd) as (n & d & e & Hn0 & Hd0 & R & S & ->).
    apply rne_rounds; try assumption.
    apply (Qmult_inj_r _ _ (inject_Z den)); [lra|].
    transitivity (x * inject_Z den * inject_Z d)%Q; [ring|]. rewrite Hx, <- S. ring.
Qed.

Lemma rounds_to_ext x x' r : (x == x')%Q -> rounds_to x r -> rounds_to x' r.
Proof.
  intros E (H1 & H2 & H3 & H4 & H5). unfold rounds_to. split; [exact H1|].
  split; [intros a Ha Hl; apply H2; [exact Ha|rewrite E; exact Hl]|].
  split; [intros a Ha Hl; apply H3; [exact Ha|rewrite E; exact Hl]|].
  rewrite <- E. split; assumption.
Qed.

(** ---- 5. the float operations of the model ---- *)
Lemma dy_add_spec x y : (dval (dy_add x y) == dval x + dval y)%Q.
Proof.
  unfold dy_add. set (e := Z.min (snd x) (snd y)).
  rewrite (dval_shift x e) by lia. rewrite (dval_shift y e) by lia.
  unfold dval. cbn [fst snd]. rewrite inject_Z_plus. ring.
Qed.

Lemma dy_add_nonneg x y : 0 <= fst x -> 0 <= fst y -> 0 <= fst (dy_add x y).
Proof.
  intros Hx Hy. unfold dy_add. cbn [fst].
  pose proof (pow2_pos (snd x - Z.min (snd x) (snd y)) ltac:(lia)).
  pose proof (pow2_pos (snd y - Z.min (snd x) (snd y)) ltac:(lia)). nia.
Qed.

Lemma dy_round_rounds x : 0 <= fst x -> rounds_to (dval x) (dy_round x).
Proof.
  intros Hx. unfold dy_round. destruct (0 <=? snd x) eqn:E.
  - apply rnd53_rounds; [pose proof (pow2_pos (snd x) ltac:(lia)); nia|lia|].
    unfold dval. rewrite inject_Z_mult, p2_Z by lia. change (inject_Z 1) with 1%Q. ring.
  - apply rnd53_rounds; [exact Hx|apply pow2_pos; lia|apply dval_neg_exp; lia].
Qed.

Lemma fadd_rounds x y : 0 <= fst x -> 0 <= fst y -> rounds_to (dval x + dval y) (fadd x y).
Proof.
  intros Hx Hy. unfold fadd. apply (rounds_to_ext (dval (dy_add x y))); [apply dy_add_spec|].
  apply dy_round_rounds. apply dy_add_nonneg; assumption.
Qed.

Lemma fhalf_spec x : (dval (fhalf x) * 2 == dval x)%Q.
Proof.
  unfold fhalf, dval. cbn [fst snd]. rewrite <- Qmult_assoc, <- p2_1, <- p2_add.
  replace (snd x - 1 + 1) with (snd x) by lia. reflexivity.
Qed.

Lemma fleb_spec x y : fleb x y = true <-> (dval x <= dval y)%Q.
Proof.
  unfold fleb. set (e := Z.min (snd x) (snd y)).
  rewrite (dval_shift x e) by lia. rewrite (dval_shift y e) by lia.
  rewrite Z.leb_le, Zle_Qle. symmetry. apply Qmult_le_r. apply p2_pos.
Qed.

Lemma fmax_spec x y :
  (dval x <= dval (fmax x y))%Q /\ (dval y <= dval (fmax x y))%Q /\ (fmax x y = x \/ fmax x y = y).
Proof.
  unfold fmax, fltb. destruct (fleb y x) eqn:E; cbn [negb].
  - apply fleb_spec in E. split; [apply Qle_refl|]. split; [exact E|left; reflexivity].
  - assert (H : ~ (dval y <= dval x)%Q) by (rewrite <- fleb_spec; congruence).
    apply Qnot_le_lt in H. split; [apply Qlt_le_weak; exact H|]. split; [apply Qle_refl|right; reflexivity].
Qed.

Lemma ffloor_spec x : (inject_Z (ffloor x) <= dval x)%Q /\ (dval x < inject_Z (ffloor x + 1))%Q.
Proof.
  unfold ffloor. destruct (0 <=? snd x) eqn:E.
  - unfold dval. rewrite p2_Z by lia. rewrite <- inject_Z_mult. split; [apply Qle_refl|].
    rewrite <- Zlt_Qlt. lia.
  - set (D := 2 ^ (- snd x)). assert (HD : 0 < D) by (apply pow2_pos; lia).
    pose proof (Z.div_mod (fst x) D ltac:(lia)) as E1. pose proof (Z.mod_pos_bound (fst x) D HD) as B.
    set (f := fst x / D) in *.
    assert (PD : (0 < inject_Z D)%Q) by (change 0%Q with (inject_Z 0); rewrite <- Zlt_Qlt; exact HD).
    assert (X : (dval x * inject_Z D == inject_Z (fst x))%Q) by (apply dval_neg_exp; lia).
    split.
    + apply (Qcancel_r _ _ (inject_Z D) PD). rewrite X, <- inject_Z_mult, <- Zle_Qle. nia.
    + apply (Qmult_lt_r _ _ (inject_Z D) PD). rewrite X, <- inject_Z_mult, <- Zlt_Qlt. nia.
Qed.

Lemma ffloor_ge z x : (inject_Z z <= dval x)%Q -> z <= ffloor x.
Proof.
  intros H. destruct (ffloor_spec x) as [_ H2].
  assert (H3 : (inject_Z z < inject_Z (ffloor x + 1))%Q) by (eapply Qle_lt_trans; eassumption).
  rewrite <- Zlt_Qlt in H3. lia.
Qed.

Lemma dval_fof_Z z : (dval (fof_Z z) == inject_Z z)%Q.
Proof. unfold dval, fof_Z. cbn [fst snd]. rewrite p2_0. ring. Qed.

(** ---- 6. the binary search keeps  M <= lower <= upper  and never fails ---- *)
Definition dbl (a : dyadic) : dyadic := (fst a, snd a + 1).
Lemma dbl_spec a : (dval (dbl a) == dval a * 2)%Q.
Proof. unfold dbl, dval. cbn [fst snd]. rewrite p2_add, p2_1. ring. Qed.
Lemma dbl_repr a : repr a -> repr (dbl a).
Proof. intros H. exact H. Qed.

Lemma mf_mid_spec lo up : repr lo -> repr up -> (dval lo <= dval up)%Q ->
  repr (mf_mid lo up) /\ (dval lo <= dval (mf_mid lo up))%Q /\ (dval (mf_mid lo up) <= dval up)%Q.
Proof.
  intros Hlo Hup Hle. unfold mf_mid.
  destruct (fadd_rounds lo up ltac:(destruct Hlo; assumption) ltac:(destruct Hup; assumption))
    as (Hr & Hge & Hle2 & _).
  pose proof (fhalf_spec (fadd lo up)) as Hh. set (r := fadd lo up) in *.
  split; [exact Hr|]. split.
  - assert (H : (dval (dbl lo) <= dval r)%Q).
    { apply Hge; [apply dbl_repr; exact Hlo|]. rewrite dbl_spec. lra. }
    rewrite dbl_spec in H. lra.
  - assert (H : (dval r <= dval (dbl up))%Q).
    { apply Hle2; [apply dbl_repr; exact Hup|]. rewrite dbl_spec. lra. }
    rewrite dbl_spec in H. lra.
Qed.

Definition mf_ok (M : Z) (lo up : dyadic) : Prop :=
  repr lo /\ repr up /\ (inject_Z M <= dval lo)%Q /\ (dval lo <= dval up)%Q.

(** [good k svs c]: first-fit with capacity c needs at most k bins *)
Definition good (k : nat) (svs : list Z) (c : dyadic) : Prop :=
  forall b, first_fit (fun v : Z => v) false (ffloor c) svs = Ok b -> (length b <= k)%nat.

Lemma ff_ok {A} (valueof : A -> Z) keep C l : Forall (fun x => valueof x <= C) l ->
  exists b, first_fit valueof keep C l = Ok b.
Proof.
  intros Hle. destruct (first_fit valueof keep C l) as [b|e] eqn:E; [exists b; reflexivity|exfalso].
  assert (Hex : Exists (fun x => C < valueof x) l) by (apply (ff_error_iff_gen valueof keep); exists e; exact E).
  apply Exists_exists in Hex. destruct Hex as (v & Hin & Hv).
  rewrite Forall_forall in Hle. specialize (Hle v Hin). lia.
Qed.

Lemma probe_ok M svs c : Forall (fun v => v <= M) svs -> (inject_Z M <= dval c)%Q ->
  exists b, first_fit (fun v : Z => v) false (ffloor c) svs = Ok b.
Proof.
  intros Hall Hc. apply ffloor_ge in Hc. apply ff_ok.
  eapply Forall_impl; [|exact Hall]. intros v Hv. cbv beta in Hv. lia.
Qed.

Lemma mf_loop_inv (G : dyadic -> Prop) M k svs : Forall (fun v => v <= M) svs ->
  (forall c b, first_fit (fun v : Z => v) false (ffloor c) svs = Ok b -> (length b <= k)%nat -> G c) ->
  forall it lo up, mf_ok M lo up -> G up ->
  exists cap, mf_loop it k svs lo up = Ok cap /\ repr cap /\
              (inject_Z M <= dval cap)%Q /\ (dval cap <= dval up)%Q /\ G cap.
Proof.
  intros Hall HG. induction it as [|it IH]; intros lo up (Hlo & Hup & HM & Hle) Hg; cbn [mf_loop].
  - exists up. split; [reflexivity|]. split; [exact Hup|]. split; [lra|]. split; [apply Qle_refl|exact Hg].
  - destruct (mf_mid_spec lo up Hlo Hup Hle) as (Hm & Hm1 & Hm2). set (mid := mf_mid lo up) in *.
    destruct (probe_ok M svs mid Hall ltac:(lra)) as [b Hb]. unfold mf_probe. rewrite Hb. cbn [rmap].
    destruct (length b <=? k)%nat eqn:E.
    + destruct (IH lo mid) as (cap & H1 & H2 & H3 & H4 & H5).
      * exact (conj Hlo (conj Hm (conj HM Hm1))).
      * apply (HG mid b Hb). apply Nat.leb_le. exact E.
      * exists cap. split; [exact H1|]. split; [exact H2|]. split; [exact H3|]. split; [lra|exact H5].
    + destruct (IH mid up) as (cap & H1 & H2 & H3 & H4 & H5).
      * assert (HM' : (inject_Z M <= dval mid)%Q) by lra. exact (conj Hm (conj Hup (conj HM' Hm2))).
      * exact Hg.
      * exists cap. split; [exact H1|]. split; [exact H2|]. split; [exact H3|]. split; [exact H4|exact H5].
Qed.


Lemma good_intro k svs c b :
  first_fit (fun v : Z => v) false (ffloor c) svs = Ok b -> (length b <= k)%nat -> good k svs c.
Proof. intros Hb Hl b' Hb'. rewrite Hb in Hb'. injection Hb' as <-. exact Hl. Qed.

(** ---- 7. the initial bounds ---- *)
Lemma Qdiv_Z_spec a b : 0 < b -> (inject_Z a / inject_Z b * inject_Z b == inject_Z a)%Q.
Proof. intros H. pose proof (inject_Z_pos b H). field. lra. Qed.

Lemma fof_Z_repr M : 0 <= M <= 2 ^ 53 -> repr (fof_Z M).
Proof. intros H. exact H. Qed.

Lemma rne_double n d : 0 < d -> rne (2 * n) (2 * d) = rne n d.
Proof.
  intros Hd. unfold rne. cbv zeta. rewrite Z.div_mul_cancel_l by lia. rewrite Z.mul_mod_distr_l by lia.
  set (q := n / d). set (r := n mod d).
  destruct (2 * r <? d) eqn:E1; destruct (2 * (2 * r) <? 2 * d) eqn:E1'; try lia; try reflexivity.
  destruct (d <? 2 * r) eqn:E2; destruct (2 * d <? 2 * (2 * r)) eqn:E2'; try lia; reflexivity.
Qed.

Lemma rnd53_double num den : 0 < num -> 0 < den -> rnd53 (2 * num) den = dbl (rnd53 num den).
Proof.
  intros Hn Hd. unfold rnd53. destruct (2 * num <=? 0) eqn:E0; [lia|]. destruct (num <=? 0) eqn:E0'; [lia|].
  cbv zeta. rewrite Z.log2_double by lia.
  set (e0 := Z.log2 num - Z.log2 den - 53).
  replace (Z.succ (Z.log2 num) - Z.log2 den - 53) with (e0 + 1) by (subst e0; lia).
  clearbody e0. unfold dy_scale. destruct (0 <=? e0) eqn:E1.
  - destruct (0 <=? e0 + 1) eqn:E2; [|lia]. cbn [fst snd].
    rewrite Z.pow_add_r by lia. change (2 ^ 1) with 2.
    replace (den * (2 ^ e0 * 2)) with (2 * (den * 2 ^ e0)) by ring.
    assert (Hp : 0 < den * 2 ^ e0) by (pose proof (pow2_pos e0 ltac:(lia)); nia).
    rewrite Z.div_mul_cancel_l by lia.
    destruct (num / (den * 2 ^ e0) <? 2 ^ 53); rewrite rne_double by lia; reflexivity.
  - destruct (0 <=? e0 + 1) eqn:E2.
    + assert (He : e0 = -1) by lia. subst e0. cbn [fst snd].
      change (2 ^ (- -1)) with 2. change (2 ^ (-1 + 1)) with 1.
      rewrite Z.mul_1_r. replace (num * 2) with (2 * num) by ring.
      destruct (2 * num / den <? 2 ^ 53); reflexivity.
    + cbn [fst snd].
      replace (num * 2 ^ (- e0)) with (2 * num * 2 ^ (- (e0 + 1))).
      * destruct (2 * num * 2 ^ (- (e0 + 1)) / den <? 2 ^ 53); reflexivity.
      * replace (- e0) with (- (e0 + 1) + 1) by lia. rewrite Z.pow_add_r by lia. change (2 ^ 1) with 2. ring.
Qed.

Lemma rnd53_double_val num den : 0 <= num -> 0 < den ->
  (dval (rnd53 (2 * num) den) == dval (rnd53 num den) * 2)%Q.
Proof.
  intros Hn Hd. destruct (Z.eq_dec num 0) as [E|E].
  - subst num. reflexivity.
  - rewrite rnd53_double by lia. apply dbl_spec.
Qed.

Lemma dval_nonneg a : 0 <= fst a -> (0 <= dval a)%Q.
Proof.
  intros H. unfold dval. pose proof (p2_pos (snd a)). pose proof (inject_Z_nonneg _ H). nra.
Qed.

Lemma init_ok k S M : 0 < k -> 0 <= S -> 0 <= M <= 2 ^ 53 ->
  mf_ok M (mf_lower0 k S M) (mf_upper0 k S M).
Proof.
  intros Hk HS HM. unfold mf_lower0, mf_upper0, fdiv_int.
  pose proof (rnd53_rounds S k _ HS Hk (Qdiv_Z_spec S k Hk)) as (R1 & _).
  pose proof (rnd53_rounds (2 * S) k _ ltac:(lia) Hk (Qdiv_Z_spec (2 * S) k Hk)) as (R2 & _).
  pose proof (rnd53_double_val S k HS Hk) as D. pose proof (dval_nonneg _ (proj1 R1)) as P1.
  set (r1 := rnd53 S k) in *. set (r2 := rnd53 (2 * S) k) in *.
  destruct (fmax_spec r1 (fof_Z M)) as (A1 & A2 & A3). destruct (fmax_spec r2 (fof_Z M)) as (B1 & B2 & B3).
  rewrite dval_fof_Z in *. unfold mf_ok. split; [|split; [|split]].
  - destruct A3 as [-> | ->]; [exact R1|apply fof_Z_repr; exact HM].
  - destruct B3 as [-> | ->]; [exact R2|apply fof_Z_repr; exact HM].
  - exact A2.
  - destruct A3 as [-> | ->]; [lra|rewrite dval_fof_Z; exact B2].
Qed.

(** the initial upper bound is large enough for first-fit to stay within k bins:
    (k+1) * (floor(upper0) + 1) > 2 S, because upper0 >= fl(2S/k) >= (2S/k)(1 - 2^-53) and k < 2^53 *)
Lemma cap0_ok k S M : 0 < k < 2 ^ 53 -> 0 <= S ->
  (k + 1) * (ffloor (mf_upper0 k S M) + 1) > 2 * S.
Proof.
  intros Hk HS. unfold mf_upper0, fdiv_int.
  set (x2 := (inject_Z (2 * S) / inject_Z k)%Q).
  assert (X2 : (x2 * inject_Z k == inject_Z (2 * S))%Q) by (apply Qdiv_Z_spec; lia).
  pose proof (rnd53_rounds (2 * S) k x2 ltac:(lia) ltac:(lia) X2) as (R2 & _ & _ & E2 & _).
  set (r2 := rnd53 (2 * S) k) in *.
  destruct (fmax_spec r2 (fof_Z M)) as (B1 & _ & _). set (u := fmax r2 (fof_Z M)) in *.
  destruct (ffloor_spec u) as [_ F]. set (C := ffloor u) in *.
  assert (PK : (0 < inject_Z k)%Q) by (apply inject_Z_pos; lia).
  assert (P2 : (0 <= x2)%Q).
  { pose proof (inject_Z_nonneg (2 * S) ltac:(lia)). nra. }
  apply Z.lt_gt. rewrite Zlt_Qlt. rewrite (inject_Z_mult (k + 1)), (inject_Z_plus k 1), <- X2.
  assert (KT : (inject_Z k + 1 <= inject_Z (2 ^ 53))%Q).
  { change 1%Q with (inject_Z 1). rewrite <- inject_Z_plus, <- Zle_Qle. lia. }
  change (inject_Z 1) with 1%Q.
  change (inject_Z (2 ^ 53)) with 9007199254740992%Q in *.
  change (inject_Z (2 ^ 53 - 1)) with 9007199254740991%Q in *.
  set (K := inject_Z k) in *. set (c := inject_Z (C + 1)) in *.
  set (rv := dval r2) in *. set (uv := dval u) in *.
  assert (S1 : (rv < c)%Q) by lra.
  assert (S2 : ((K + 1) * rv * 9007199254740992 < (K + 1) * c * 9007199254740992)%Q) by nra.
  assert (S3 : ((K + 1) * (x2 * 9007199254740991) <= (K + 1) * (rv * 9007199254740992))%Q) by nra.
  assert (S4 : (x2 * K * 9007199254740992 <= (K + 1) * (x2 * 9007199254740991))%Q) by nra.
  nra.
Qed.

Lemma init_bounds k S M T : 0 < k -> 0 <= S -> 0 <= M -> S <= k * T -> M <= T -> 0 <= T <= 2 ^ 53 ->
  (dval (mf_lower0 k S M) <= inject_Z T)%Q /\
  (dval (mf_upper0 k S M) - dval (mf_lower0 k S M) <= inject_Z T)%Q /\
  (dval (mf_upper0 k S M) <= 2 * inject_Z T)%Q.
Proof.
  intros Hk HS HM HST HMT HT. unfold mf_lower0, mf_upper0, fdiv_int.
  set (x1 := (inject_Z S / inject_Z k)%Q).
  assert (X1 : (x1 * inject_Z k == inject_Z S)%Q) by (apply Qdiv_Z_spec; exact Hk).
  pose proof (rnd53_rounds S k x1 HS Hk X1) as (R1 & _ & G3 & _ & _).
  pose proof (rnd53_double_val S k HS Hk) as D.
  set (a := rnd53 S k) in *. set (u := rnd53 (2 * S) k) in *.
  assert (HaT : (dval a <= inject_Z T)%Q).
  { rewrite <- (dval_fof_Z T). apply G3; [apply fof_Z_repr; exact HT|]. rewrite dval_fof_Z.
    apply (Qcancel_r _ _ (inject_Z k) (inject_Z_pos k Hk)). rewrite X1, <- inject_Z_mult, <- Zle_Qle. lia. }
  assert (Ha0 : (0 <= dval a)%Q) by (apply dval_nonneg; destruct R1; assumption).
  assert (HMT' : (inject_Z M <= inject_Z T)%Q) by (rewrite <- Zle_Qle; exact HMT).
  assert (HT0 : (0 <= inject_Z T)%Q) by (apply inject_Z_nonneg; lia).
  destruct (fmax_spec a (fof_Z M)) as (A1 & A2 & A3). destruct (fmax_spec u (fof_Z M)) as (B1 & B2 & B3).
  rewrite dval_fof_Z in A2, B2.
  assert (EA : (dval (fmax a (fof_Z M)) == dval a \/ dval (fmax a (fof_Z M)) == inject_Z M)%Q).
  { destruct A3 as [-> | ->]; [left; reflexivity|right; apply dval_fof_Z]. }
  assert (EB : (dval (fmax u (fof_Z M)) == dval u \/ dval (fmax u (fof_Z M)) == inject_Z M)%Q).
  { destruct B3 as [-> | ->]; [left; reflexivity|right; apply dval_fof_Z]. }
  set (lo := dval (fmax a (fof_Z M))) in *. set (up := dval (fmax u (fof_Z M))) in *.
  set (va := dval a) in *. set (vu := dval u) in *.
  split; [|split].
  - destruct EA as [E|E]; rewrite E; lra.
  - destruct EB as [E|E]; rewrite E; lra.
  - destruct EB as [E|E]; rewrite E; lra.
Qed.

(** ---- 8. any-fit: every two bins together exceed the capacity ---- *)
(** summing T <= a + c over all pairs: m (m - 1) T <= 2 (m - 1) * total *)
Lemma pairwise_sum T l : StronglySorted (fun a c => T <= a + c) l -> (2 <= length l)%nat ->
  Z.of_nat (length l) * T <= 2 * zsum l.
Proof.
  intros Hs Hlen.
  assert (Hone : forall a t, Forall (fun c => T <= a + c) t -> Z.of_nat (length t) * T <= Z.of_nat (length t) * a + zsum t).
  { intros a t Ht. induction Ht as [|c t Hc _ IH]; [reflexivity|].
    cbn [length]. rewrite zsum_cons, Nat2Z.inj_succ. lia. }
  assert (Hall : Z.of_nat (length l) * (Z.of_nat (length l) - 1) * T <= 2 * (Z.of_nat (length l) - 1) * zsum l).
  { clear Hlen. induction Hs as [|a t _ IH Ha]; [reflexivity|]. specialize (Hone a t Ha).
    cbn [length]. rewrite zsum_cons, Nat2Z.inj_succ. nia. }
  nia.
Qed.

Section AnyfitPairwise.
  Context {A : Type} (valueof : A -> Z).

  Lemma Forall_contents (P : A -> Prop) (b : bins A) :
    Forall P (contents b) -> Forall (fun bn => Forall P (snd bn)) b.
  Proof.
    induction b as [|bn t IH]; intros H; [constructor|].
    rewrite contents_cons in H. apply Forall_app in H. destruct H as [H1 H2].
    constructor; [exact H1|apply IH; exact H2].
  Qed.

  Lemma anyfit_pairwise C (b : bins A) :
    anyfit valueof C b -> wf valueof b -> Forall (fun x => 0 <= valueof x) (contents b) ->
    StronglySorted (fun a c => C + 1 <= a + c) (sums b).
  Proof.
    intros Ha Hw Hnn. apply Forall_contents in Hnn.
    induction b as [|bn t IH]; [constructor|].
    rewrite anyfit_cons in Ha. destruct Ha as [Hl Ht].
    inversion Hw as [|bn' t' Hwb Hwt]; subst. inversion Hnn as [|bn' t' Hnb Hnt]; subst.
    unfold sums. cbn [map]. constructor; [apply IH; assumption|].
    rewrite Forall_map. unfold wf in Hwt. rewrite Forall_forall in *.
    intros later Hin. specialize (Hl later Hin). unfold later_ok in Hl.
    destruct (snd later) as [|y l] eqn:E; [contradiction|].
    pose proof (wf_bin_head_le valueof later y l (Hwt later Hin) (Hnt later Hin) E). lia.
  Qed.
End AnyfitPairwise.

(** hence first-fit with a capacity C such that (k+1)(C+1) > 2 S uses at most k bins *)
Lemma good_of_cap0 (k : nat) svs C : svs <> [] -> Forall (fun v => 0 <= v) svs -> (1 <= k)%nat ->
  (Z.of_nat k + 1) * (C + 1) > 2 * zsum svs ->
  forall b, first_fit (fun v : Z => v) false C svs = Ok b -> (length b <= k)%nat.
Proof.
  intros Hne Hnn Hk Hcap b Hb.
  pose proof (ff_erase (fun v : Z => v) C svs) as He. rewrite Hb in He.
  destruct (first_fit (fun v : Z => v) true C svs) as [b1|e] eqn:E1; [|discriminate He].
  cbn [rmap] in He. injection He as He. subst b. rewrite erase_length.
  destruct (ff_Inv (fun v : Z => v) C svs b1 Hne Hnn E1) as (Hw & _ & Hp & _ & _ & Ha).
  destruct (le_lt_dec (length b1) k) as [Hle|Hgt]; [exact Hle|exfalso].
  assert (Hnn1 : Forall (fun x : Z => 0 <= x) (contents b1)).
  { eapply Permutation_Forall; [symmetry; exact Hp|exact Hnn]. }
  pose proof (anyfit_pairwise (fun v : Z => v) C b1 Ha Hw Hnn1) as Hs.
  pose proof (pairwise_sum (C + 1) (sums b1) Hs) as Hsum.
  assert (Hlen : length (sums b1) = length b1) by apply map_length.
  rewrite Hlen in Hsum. specialize (Hsum ltac:(lia)).
  rewrite (wf_total (fun v : Z => v) b1 Hw), map_id, (zsum_perm _ _ Hp) in Hsum.
  assert (Hs0 : 0 <= zsum svs) by (apply zsum_nonneg; exact Hnn).
  nia.
Qed.

Lemma cdiv_spec a b : 0 < b -> a <= cdiv a b * b < a + b.
Proof.
  intros Hb. unfold cdiv. pose proof (Z.div_mod (- a) b ltac:(lia)). pose proof (Z.mod_pos_bound (- a) b Hb). nia.
Qed.

(** ---- 9. the theorems ---- *)
Lemma multifit_capacity_unfold it k vs : vs <> [] -> (1 <= k)%nat ->
  multifit_capacity it k vs =
  mf_loop it k (sort_desc (fun v : Z => v) vs)
    (mf_lower0 (Z.of_nat k) (zsum vs) (zmax vs)) (mf_upper0 (Z.of_nat k) (zsum vs) (zmax vs)).
Proof.
  intros Hne Hk. unfold multifit_capacity. destruct vs as [|v t]; [congruence|].
  destruct k as [|k]; [lia|]. reflexivity.
Qed.

Lemma opt_le_total k vs opt : Opt MinLargest k vs opt -> Forall (fun v => 0 <= v) vs -> (1 <= k)%nat ->
  opt <= zsum vs.
Proof.
  intros [(s & Hs & Ev) _] Hnn Hk. rewrite value_MinLargest in Ev. subst opt.
  destruct (Attainable_bounds k vs Hnn s Hs) as [B1 _].
  rewrite <- (Attainable_sum _ _ _ Hs). apply zmax_le_zsum. exact B1.
Qed.

Section MultifitTheorems.
  Context {A : Type} (valueof : A -> Z).

  Section Facts.
    Variables (items : list A).
    Hypothesis Hne : items <> [].
    Hypothesis Hnn : Forall (fun x => 0 <= valueof x) items.
    Let vs := map valueof items.

    Lemma vs_ne : vs <> [].
    Proof. subst vs. destruct items; [congruence|discriminate]. Qed.
    Lemma vs_nonneg : Forall (fun v => 0 <= v) vs.
    Proof. subst vs. rewrite Forall_map. exact Hnn. Qed.
    Lemma vs_sum_nonneg : 0 <= zsum vs.
    Proof. apply zsum_nonneg, vs_nonneg. Qed.
    Lemma vs_max_nonneg : 0 <= zmax vs.
    Proof. pose proof (zmax_in vs vs_ne) as H. pose proof vs_nonneg as H2. rewrite Forall_forall in H2. apply H2, H. Qed.
    Lemma svs_le_max : Forall (fun v => v <= zmax vs) (sort_desc idZ vs).
    Proof. eapply Permutation_Forall; [symmetry; apply sort_desc_perm|apply zmax_ge]. Qed.
    Lemma svs_ne : sort_desc idZ vs <> [].
    Proof. apply sort_desc_nonnil, vs_ne. Qed.
    Lemma svs_nonneg : Forall (fun v => 0 <= v) (sort_desc idZ vs).
    Proof. eapply Permutation_Forall; [symmetry; apply sort_desc_perm|apply vs_nonneg]. Qed.
    Lemma svs_sum : zsum (sort_desc idZ vs) = zsum vs.
    Proof. apply zsum_perm, sort_desc_perm. Qed.
    Lemma svs_map : sort_desc idZ vs = map valueof (sort_desc valueof items).
    Proof. subst vs. symmetry. apply (sort_desc_map valueof valueof idZ). reflexivity. Qed.

    (** the binary search succeeds; its result is representable, at least the largest value,
        at most the initial upper bound, and satisfies every predicate that holds for the
        initial upper bound and for every probed capacity that needed <= k bins *)
    Lemma capacity_inv (G : dyadic -> Prop) it k : (1 <= k)%nat -> zmax vs <= 2 ^ 53 ->
      (forall c b, first_fit idZ false (ffloor c) (sort_desc idZ vs) = Ok b -> (length b <= k)%nat -> G c) ->
      G (mf_upper0 (Z.of_nat k) (zsum vs) (zmax vs)) ->
      exists cap, multifit_capacity it k vs = Ok cap /\ repr cap /\
        (inject_Z (zmax vs) <= dval cap)%Q /\
        (dval cap <= dval (mf_upper0 (Z.of_nat k) (zsum vs) (zmax vs)))%Q /\ G cap.
    Proof.
      intros Hk HM HG HG0. rewrite (multifit_capacity_unfold it k vs vs_ne Hk).
      apply (mf_loop_inv G (zmax vs) k (sort_desc idZ vs) svs_le_max HG).
      - apply init_ok; [lia|apply vs_sum_nonneg|]. split; [apply vs_max_nonneg|exact HM].
      - exact HG0.
    Qed.
  End Facts.

  (** a. the result is a partition of the items into non-empty bins with correct sums *)
  Theorem multifit_partition it k items b :
    items <> [] -> Forall (fun x => 0 <= valueof x) items ->
    multifit valueof true it k items = Ok b ->
    Permutation (contents b) items /\ wf valueof b /\ all_nonempty b.
  Proof.
    intros Hne Hnn H. unfold multifit in H.
    destruct (multifit_capacity it k (map valueof items)) as [cap|e]; [|discriminate H]. cbn [rbind] in H.
    destruct (ffd_Inv valueof (ffloor cap) items b Hne Hnn H) as (Hw & _ & Hp & Hr & _).
    split; [exact Hp|]. split; [exact Hw|exact Hr].
  Qed.

  (** a'. it never fails (either binner) *)
  Theorem multifit_total keep it k items :
    items <> [] -> Forall (fun x => 0 <= valueof x) items -> (1 <= k)%nat ->
    zmax (map valueof items) <= 2 ^ 53 ->
    exists b, multifit valueof keep it k items = Ok b.
  Proof.
    intros Hne Hnn Hk HM.
    destruct (capacity_inv items Hne Hnn (fun _ => True) it k Hk HM) as (cap & Hc & _ & Hge & _); [trivial|trivial|].
    unfold multifit. rewrite Hc. cbn [rbind]. apply ffloor_ge in Hge. apply ff_ok.
    eapply Permutation_Forall; [symmetry; apply sort_desc_perm|].
    pose proof (zmax_ge (map valueof items)) as Hmax. rewrite Forall_map in Hmax.
    eapply Forall_impl; [|exact Hmax]. intros x Hx. cbv beta in Hx. lia.
  Qed.

  (** c. the sums-only binner makes the same decisions; names are irrelevant *)
  Theorem multifit_erase it k items :
    rmap erase (multifit valueof true it k items) = multifit valueof false it k items.
  Proof.
    unfold multifit. destruct (multifit_capacity it k (map valueof items)) as [cap|e]; [|reflexivity].
    cbn [rbind]. apply ff_erase.
  Qed.

  Theorem multifit_names it k items :
    rmap (map_bins valueof) (multifit valueof true it k items) =
    multifit idZ true it k (map valueof items).
  Proof.
    unfold multifit. rewrite map_id.
    destruct (multifit_capacity it k (map valueof items)) as [cap|e]; [|reflexivity].
    cbn [rbind]. rewrite ff_names. rewrite (sort_desc_map valueof valueof idZ) by reflexivity. reflexivity.
  Qed.

  (** the bin count of the final run equals the bin count of the probe at the same capacity *)
  Lemma final_probe C items b :
    first_fit valueof true C (sort_desc valueof items) = Ok b ->
    first_fit idZ false C (sort_desc idZ (map valueof items)) = Ok (erase (map_bins valueof b)).
  Proof.
    intros H. rewrite <- (sort_desc_map valueof valueof idZ) by reflexivity.
    rewrite <- (ff_erase idZ), <- ff_names, H. reflexivity.
  Qed.

  (** b. at most k bins.  [k < 2^53]: numbins must itself be a double-representable count
      (for larger k the rounding error of 2*S/k could exceed the slack of the any-fit bound). *)
  Theorem multifit_at_most_k it k items b :
    items <> [] -> Forall (fun x => 0 <= valueof x) items -> (1 <= k)%nat ->
    zmax (map valueof items) <= 2 ^ 53 -> Z.of_nat k < 2 ^ 53 ->
    multifit valueof true it k items = Ok b -> (length b <= k)%nat.
  Proof.
    intros Hne Hnn Hk HM Hk53 H. set (vs := map valueof items).
    destruct (capacity_inv items Hne Hnn (good k (sort_desc idZ vs)) it k Hk HM) as (cap & Hc & _ & _ & _ & Hg).
    - intros c b0. apply good_intro.
    - unfold good. apply good_of_cap0.
      + apply svs_ne; assumption.
      + apply svs_nonneg; assumption.
      + exact Hk.
      + unfold vs. rewrite (svs_sum items). apply cap0_ok; [lia|apply vs_sum_nonneg; assumption].
    - unfold multifit in H. rewrite Hc in H. cbn [rbind] in H.
      apply final_probe in H. apply Hg in H. rewrite erase_length in H. unfold map_bins in H.
      rewrite map_length in H. exact H.
  Qed.

  Lemma multifit_sums_le_cap it k items b :
    items <> [] -> Forall (fun x => 0 <= valueof x) items ->
    multifit valueof true it k items = Ok b ->
    exists cap, multifit_capacity it k (map valueof items) = Ok cap /\ zmax (sums b) <= ffloor cap.
  Proof.
    intros Hne Hnn H. unfold multifit in H.
    destruct (multifit_capacity it k (map valueof items)) as [cap|e]; [|discriminate H]. cbn [rbind] in H.
    exists cap. split; [reflexivity|].
    destruct (ffd_Inv valueof (ffloor cap) items b Hne Hnn H) as (_ & Hf & Hp & _).
    assert (Hbne : sums b <> []).
    { destruct b as [|bn t]; [|discriminate]. apply Permutation_nil in Hp. congruence. }
    pose proof (zmax_in (sums b) Hbne) as Hin. unfold sums in Hin at 2. apply in_map_iff in Hin.
    destruct Hin as (bn & <- & Hin). unfold feasible in Hf. rewrite Forall_forall in Hf. exact (Hf bn Hin).
  Qed.

  (** the returned capacity is at most the initial upper bound, which is at most 2 T for every T >= S/k, M *)
  Lemma multifit_largest_le_2T it k items b T :
    items <> [] -> Forall (fun x => 0 <= valueof x) items -> (1 <= k)%nat ->
    zsum (map valueof items) <= Z.of_nat k * T -> zmax (map valueof items) <= T -> T <= 2 ^ 53 ->
    multifit valueof true it k items = Ok b -> zmax (sums b) <= 2 * T.
  Proof.
    intros Hne Hnn Hk HS HM HT H. pose proof (vs_max_nonneg items Hne Hnn) as VM.
    destruct (multifit_sums_le_cap it k items b Hne Hnn H) as (cap & Hc & Hle).
    destruct (capacity_inv items Hne Hnn (fun _ => True) it k Hk ltac:(lia))
      as (cap' & Hc' & _ & _ & Hup & _); [trivial|trivial|].
    rewrite Hc in Hc'. injection Hc' as <-.
    destruct (init_bounds (Z.of_nat k) _ _ T ltac:(lia) (vs_sum_nonneg items Hnn) VM HS HM ltac:(lia))
      as (_ & _ & HU).
    destruct (ffloor_spec cap) as [F1 _]. rewrite Zle_Qle in Hle.
    rewrite Zle_Qle, inject_Z_mult. change (inject_Z 2) with 2%Q. lra.
  Qed.

  (** d. (C08, constant 2) every bin sum is at most floor(upper_bound) <= 2 * max(ceil(S/k), M) *)
  Theorem multifit_ratio_2_bound it k items b :
    items <> [] -> Forall (fun x => 0 <= valueof x) items -> (1 <= k)%nat ->
    zsum (map valueof items) <= 2 ^ 53 ->
    multifit valueof true it k items = Ok b ->
    Forall (fun s => s <= 2 * Z.max (cdiv (zsum (map valueof items)) (Z.of_nat k)) (zmax (map valueof items)))
           (sums b).
  Proof.
    intros Hne Hnn Hk HS H.
    pose proof (vs_sum_nonneg items Hnn) as VS. pose proof (zmax_le_zsum _ (vs_nonneg items Hnn)) as VMS.
    destruct (cdiv_spec (zsum (map valueof items)) (Z.of_nat k) ltac:(lia)) as [C1 C2].
    set (T := Z.max (cdiv (zsum (map valueof items)) (Z.of_nat k)) (zmax (map valueof items))).
    assert (HL : zmax (sums b) <= 2 * T) by (apply (multifit_largest_le_2T it k items); auto; nia).
    pose proof (zmax_ge (sums b)) as G. eapply Forall_impl; [|exact G]. intros s Hs. cbv beta in Hs. lia.
  Qed.

  (** hence the largest sum is at most twice the optimal largest sum *)
  Theorem multifit_ratio_2 it k items b opt :
    items <> [] -> Forall (fun x => 0 <= valueof x) items -> (1 <= k)%nat ->
    zsum (map valueof items) <= 2 ^ 53 ->
    multifit valueof true it k items = Ok b ->
    Opt MinLargest k (map valueof items) opt ->
    zmax (sums b) <= 2 * opt.
  Proof.
    intros Hne Hnn Hk HS H Hopt. pose proof (vs_nonneg items Hnn) as Vnn.
    destruct (opt_minlargest_lower_bounds k _ opt Hopt Vnn Hk) as [O1 _].
    pose proof (opt_minlargest_ge_vmax k _ opt Hopt Vnn Hk) as O2.
    pose proof (opt_le_total k _ opt Hopt Vnn Hk) as O3.
    apply (multifit_largest_le_2T it k items); auto. lia.
  Qed.
End MultifitTheorems.

(** sums-only binner: same bound *)
Corollary multifit_at_most_k_sums {A} (valueof : A -> Z) it k items b :
  items <> [] -> Forall (fun x => 0 <= valueof x) items -> (1 <= k)%nat ->
  zmax (map valueof items) <= 2 ^ 53 -> Z.of_nat k < 2 ^ 53 ->
  multifit valueof false it k items = Ok b -> (length b <= k)%nat.
Proof.
  intros Hne Hnn Hk HM Hk53 H. rewrite <- multifit_erase in H.
  destruct (multifit valueof true it k items) as [b1|e] eqn:E; [|discriminate H].
  cbn [rmap] in H. injection H as <-. rewrite erase_length.
  apply (multifit_at_most_k valueof it k items b1); assumption.
Qed.

(** ---- 10. one rounding of the midpoint: |mid - (lo + up)/2| <= e  when  up <= e * 2^53 ---- *)
Lemma mf_mid_err lo up e : repr lo -> repr up -> (dval lo <= dval up)%Q ->
  (dval up <= e * inject_Z (2 ^ 53))%Q ->
  (dval lo + dval up - 2 * e <= 2 * dval (mf_mid lo up))%Q /\
  (2 * dval (mf_mid lo up) <= dval lo + dval up + 2 * e)%Q.
Proof.
  intros Hlo Hup Hle He. unfold mf_mid.
  destruct (fadd_rounds lo up ltac:(destruct Hlo; assumption) ltac:(destruct Hup; assumption))
    as (_ & _ & _ & E1 & E2).
  pose proof (fhalf_spec (fadd lo up)) as Hh.
  pose proof (dval_nonneg lo ltac:(destruct Hlo; assumption)) as L0.
  change (inject_Z (2 ^ 53)) with 9007199254740992%Q in *.
  change (inject_Z (2 ^ 53 - 1)) with 9007199254740991%Q in *.
  change (inject_Z (2 ^ 53 + 1)) with 9007199254740993%Q in *.
  set (r := dval (fadd lo up)) in *. set (m := dval (fhalf (fadd lo up))) in *.
  set (a := dval lo) in *. set (c := dval up) in *. split; lra.
Qed.

(** ---- 11. the binary search: the gap halves (up to the midpoint rounding e), and [lo] stays
        below every bound Lb on the failing capacities ---- *)
Lemma pow2_succ_Q it : (inject_Z (2 ^ Z.of_nat (S it)) == 2 * inject_Z (2 ^ Z.of_nat it))%Q.
Proof. rewrite Nat2Z.inj_succ, Z.pow_succ_r by lia. rewrite inject_Z_mult. reflexivity. Qed.

Lemma mf_loop_gap M k svs (Lb e : Q) : Forall (fun v => v <= M) svs ->
  (forall c b, repr c -> first_fit idZ false (ffloor c) svs = Ok b -> (k < length b)%nat -> (dval c <= Lb)%Q) ->
  forall it lo up G, mf_ok M lo up -> (dval lo <= Lb)%Q -> (dval up <= e * inject_Z (2 ^ 53))%Q ->
    (dval up - dval lo <= G + 2 * e)%Q ->
  exists cap, mf_loop it k svs lo up = Ok cap /\
    (dval cap * inject_Z (2 ^ Z.of_nat it) <= (Lb + 2 * e) * inject_Z (2 ^ Z.of_nat it) + G)%Q.
Proof.
  intros Hall Hfail. induction it as [|it IH]; intros lo up G Hok HloB HupE Hgap; cbn [mf_loop].
  - exists up. split; [reflexivity|]. change (inject_Z (2 ^ Z.of_nat 0)) with 1%Q. lra.
  - destruct Hok as (Hlo & Hup & HM & Hle).
    destruct (mf_mid_spec lo up Hlo Hup Hle) as (Hm & Hm1 & Hm2).
    destruct (mf_mid_err lo up e Hlo Hup Hle HupE) as [Me1 Me2].
    set (mid := mf_mid lo up) in *.
    destruct (probe_ok M svs mid Hall ltac:(lra)) as [b Hb]. unfold mf_probe. rewrite Hb. cbn [rmap].
    pose proof (pow2_succ_Q it) as Ep.
    set (p := inject_Z (2 ^ Z.of_nat it)) in *. set (p' := inject_Z (2 ^ Z.of_nat (S it))) in *.
    destruct (length b <=? k)%nat eqn:E.
    + destruct (IH lo mid (G * (1 # 2))%Q) as (cap & H1 & H2).
      * exact (conj Hlo (conj Hm (conj HM Hm1))).
      * exact HloB.
      * lra.
      * lra.
      * exists cap. split; [exact H1|]. rewrite Ep. nra.
    + assert (HmB : (dval mid <= Lb)%Q).
      { apply (Hfail mid b Hm Hb). apply Nat.leb_gt in E. exact E. }
      destruct (IH mid up (G * (1 # 2))%Q) as (cap & H1 & H2).
      * assert (HM' : (inject_Z M <= dval mid)%Q) by lra. exact (conj Hm (conj Hup (conj HM' Hm2))).
      * exact HmB.
      * exact HupE.
      * lra.
      * exists cap. split; [exact H1|]. rewrite Ep. nra.
Qed.

Lemma slack_arith (c P rd ms X opt n : Z) : 0 < c -> 0 < P -> 0 <= rd -> 0 <= opt -> opt <= n * c ->
  c * P * (rd * ms) <= c * P * X + rd * (c + P) * opt ->
  P * (rd * ms) <= P * X + rd * opt + rd * n * P.
Proof.
  intros Hc HP Hrd Hopt Hn H.
  assert (H1 : rd * P * opt <= rd * P * (n * c)) by (apply Z.mul_le_mono_nonneg_l; nia).
  apply (Z.mul_le_mono_pos_l _ _ c Hc). nia.
Qed.

(** clearing the denominator of ceil (rn * opt / rd) *)
Lemma ceil_ratio_arith (a e rn rd L opt : Z) : 0 <= a -> 0 < rd ->
  a * L <= a * cdiv (rn * opt) rd + e * opt ->
  a * (rd * L) <= a * (rn * opt + rd - 1) + rd * e * opt.
Proof.
  intros Ha Hrd H. destruct (cdiv_spec (rn * opt) rd Hrd) as [_ C2].
  assert (a * (rd * cdiv (rn * opt) rd) <= a * (rn * opt + rd - 1)) by (apply Z.mul_le_mono_nonneg_l; lia).
  nia.
Qed.

(** ---- 12. the search closes in on any capacity c0 >= OPT from which first-fit-decreasing stays
        within k bins:  largest sum <= c0 + OPT / 2^it + OPT / 2^51.
    A failed probe at a double c has floor(c) < c0, hence c < c0, so [lo] stays below c0; the
    initial gap is at most OPT ([init_bounds]); each midpoint is one rounding of a sum < 4 OPT,
    i.e. off by at most e = OPT / 2^52 after halving ([mf_mid_err]), and [mf_loop_gap] adds up
    2 e over the run. ---- *)
Section MultifitThreshold.
  Context {A : Type} (valueof : A -> Z).

  Theorem multifit_threshold (c0 : Z) it k items b opt :
    opt <= c0 ->
    (forall c, c0 <= c ->
       exists b0, first_fit idZ false c (sort_desc idZ (map valueof items)) = Ok b0 /\ (length b0 <= k)%nat) ->
    items <> [] -> Forall (fun x => 0 <= valueof x) items -> (1 <= k)%nat ->
    zsum (map valueof items) <= 2 ^ 53 ->
    multifit valueof true it k items = Ok b ->
    Opt MinLargest k (map valueof items) opt ->
    2 ^ 51 * 2 ^ Z.of_nat it * zmax (sums b)
    <= 2 ^ 51 * 2 ^ Z.of_nat it * c0 + (2 ^ 51 + 2 ^ Z.of_nat it) * opt.
  Proof.
    intros Hc0 Hcap Hne Hnn Hk HS H Hopt.
    pose proof (vs_nonneg valueof items Hnn) as Vnn. pose proof (vs_sum_nonneg valueof items Hnn) as VS.
    pose proof (vs_max_nonneg valueof items Hne Hnn) as VM.
    destruct (opt_minlargest_lower_bounds k _ opt Hopt Vnn Hk) as [O1 _].
    pose proof (opt_minlargest_ge_vmax k _ opt Hopt Vnn Hk) as O2.
    pose proof (opt_le_total k _ opt Hopt Vnn Hk) as O3.
    set (vs := map valueof items) in *. set (S := zsum vs) in *. set (M := zmax vs) in *.
    set (kz := Z.of_nat k) in *. assert (Hkz : 0 < kz) by (subst kz; lia).
    assert (HT : 0 <= opt <= 2 ^ 53) by lia.
    set (e := (inject_Z opt * (1 # 4503599627370496))%Q).
    assert (He : (e * inject_Z (2 ^ 53) == 2 * inject_Z opt)%Q).
    { subst e. change (inject_Z (2 ^ 53)) with 9007199254740992%Q. field. }
    assert (HTq : (0 <= inject_Z opt)%Q) by (apply inject_Z_nonneg; lia).
    assert (HTc : (inject_Z opt <= inject_Z c0)%Q) by (rewrite <- Zle_Qle; exact Hc0).
    destruct (init_bounds kz S M opt Hkz VS VM O1 O2 HT) as (I1 & I2 & I3).
    destruct (mf_loop_gap M k (sort_desc idZ vs) (inject_Z c0) e (svs_le_max valueof items)) with
      (it := it) (lo := mf_lower0 kz S M) (up := mf_upper0 kz S M) (G := inject_Z opt)
      as (cap & Hc & Hbound).
    - intros c b0 _ Hb0 Hlen. destruct (Z_le_gt_dec c0 (ffloor c)) as [Hle|Hgt].
      + destruct (Hcap (ffloor c) Hle) as (b1 & Hb1 & Hl1). fold vs in Hb1.
        rewrite Hb0 in Hb1. injection Hb1 as <-. lia.
      + destruct (ffloor_spec c) as [_ F2]. apply Qlt_le_weak.
        eapply Qlt_le_trans; [exact F2|]. rewrite <- Zle_Qle. lia.
    - apply init_ok; [exact Hkz|exact VS|]. split; [exact VM|lia].
    - lra.
    - rewrite He. exact I3.
    - subst e. lra.
    - (* the final first-fit run *)
      destruct (multifit_sums_le_cap valueof it k items b Hne Hnn H) as (cap' & Hc' & Hle). fold vs in Hc'.
      rewrite (multifit_capacity_unfold it k vs (vs_ne valueof items Hne Hnn) Hk) in Hc'.
      fold S M kz in Hc'. rewrite Hc in Hc'. injection Hc' as <-. set (ms := zmax (sums b)) in *.
      destruct (ffloor_spec cap) as [F1 _]. rewrite Zle_Qle in Hle.
      assert (Hms : (inject_Z ms <= dval cap)%Q) by lra.
      set (P := 2 ^ Z.of_nat it) in *.
      assert (PP : (0 < inject_Z P)%Q) by (apply inject_Z_pos; subst P; apply pow2_pos; lia).
      assert (B1 : (inject_Z ms * inject_Z P <= dval cap * inject_Z P)%Q)
        by (apply Qmult_le_compat_r; lra).
      rewrite Zle_Qle, !inject_Z_plus, !inject_Z_mult, !inject_Z_plus.
      change (inject_Z (2 ^ 51)) with 2251799813685248%Q. subst e. lra.
  Qed.

  Corollary multifit_ratio_ceil (rn rd : Z) it k items b opt :
    0 < rd <= rn ->
    (forall c, rn * opt <= rd * c ->
       exists b0, first_fit idZ false c (sort_desc idZ (map valueof items)) = Ok b0 /\ (length b0 <= k)%nat) ->
    items <> [] -> Forall (fun x => 0 <= valueof x) items -> (1 <= k)%nat ->
    zsum (map valueof items) <= 2 ^ 53 ->
    multifit valueof true it k items = Ok b ->
    Opt MinLargest k (map valueof items) opt ->
    2 ^ 51 * 2 ^ Z.of_nat it * zmax (sums b)
    <= 2 ^ 51 * 2 ^ Z.of_nat it * cdiv (rn * opt) rd + (2 ^ 51 + 2 ^ Z.of_nat it) * opt.
  Proof.
    intros Hr Hcap Hne Hnn Hk HS H Hopt.
    pose proof (opt_minlargest_nonneg k _ opt Hopt (vs_nonneg valueof items Hnn) Hk) as O0.
    destruct (cdiv_spec (rn * opt) rd ltac:(lia)) as [C1 _].
    apply (multifit_threshold _ it k items); try assumption; [nia|]. intros c Hc. apply Hcap. nia.
  Qed.

  (** with a total of at most n * 2^51 the accumulated rounding costs at most n *)
  Lemma multifit_slack (n rd X : Z) it k items (b : bins A) opt :
    Forall (fun x => 0 <= valueof x) items -> (1 <= k)%nat -> Opt MinLargest k (map valueof items) opt ->
    zsum (map valueof items) <= n * 2 ^ 51 -> 0 <= rd ->
    2 ^ 51 * 2 ^ Z.of_nat it * (rd * zmax (sums b))
    <= 2 ^ 51 * 2 ^ Z.of_nat it * X + rd * (2 ^ 51 + 2 ^ Z.of_nat it) * opt ->
    2 ^ Z.of_nat it * (rd * zmax (sums b)) <= 2 ^ Z.of_nat it * X + rd * opt + rd * n * 2 ^ Z.of_nat it.
  Proof.
    intros Hnn Hk Hopt HS Hrd H. pose proof (vs_nonneg valueof items Hnn) as Vnn.
    pose proof (opt_minlargest_nonneg k _ opt Hopt Vnn Hk) as O0.
    pose proof (opt_le_total k _ opt Hopt Vnn Hk) as O3.
    apply (slack_arith (2 ^ 51)); [reflexivity|apply pow2_pos; lia|exact Hrd|exact O0|lia|exact H].
  Qed.
End MultifitThreshold.

(** ---- 13. examples (docstring of multifit.py) ---- *)
Definition example4 : list Z := [9; 7; 6; 5; 5; 4; 4; 4; 4; 4; 4; 4; 4; 4].
Definition example13 : list Z :=
  concat (repeat [40; 13; 13] 8) ++ concat (repeat [25; 25; 16] 3) ++ concat (repeat [25; 24; 17] 2).

Example multifit_doc_1234 :
  multifit (fun v : Z => v) true 10 2 [1; 2; 3; 4] = Ok [(5, [4; 1]); (5, [3; 2])].
Proof. vm_compute. reflexivity. Qed.

Example multifit_example4_k4 :
  multifit (fun v : Z => v) true 10 4 example4 =
  Ok [(20, [9; 7; 4]); (20, [6; 5; 5; 4]); (20, [4; 4; 4; 4; 4]); (8, [4; 4])].
Proof. vm_compute. reflexivity. Qed.

Example multifit_example4_k5 :
  multifit (fun v : Z => v) true 10 5 example4 =
  Ok [(16, [9; 7]); (16, [6; 5; 5]); (16, [4; 4; 4; 4]); (16, [4; 4; 4; 4]); (4, [4])].
Proof. vm_compute. reflexivity. Qed.

Example multifit_example13_k13 :
  rmap (@sums Z) (multifit (fun v : Z => v) false 10 13 example13) = Ok (repeat 78 11).
Proof. vm_compute. reflexivity. Qed.

Example multifit_example13_k14 :
  rmap (@sums Z) (multifit (fun v : Z => v) false 10 14 example13) = Ok (repeat 65 13 ++ [13]).
Proof. vm_compute. reflexivity. Qed.

(** MultiFit may return FEWER than numbins bins (it returns first-fit's bins unpadded), so
    [is_partition k] (which demands exactly k bins) does not hold in general: *)
Example multifit_fewer_bins :
  rmap (@length (bin Z)) (multifit (fun v : Z => v) true 10 13 example13) = Ok 11%nat.
Proof. vm_compute. reflexivity. Qed.

(** the hypothesis [zmax <= 2^53] of [multifit_total] is needed: with the single item 2^53 + 1
    and 3 bins, lower = upper = 2^53 + 1 (a Python int), (lower+upper)/2 rounds to 2^53 and
    first-fit refuses the item.  prtpy raises the same ValueError. *)
Example multifit_unrepresentable_max_fails :
  multifit (fun v : Z => v) true 10 3 [2 ^ 53 + 1] = Err ValueError.
Proof. vm_compute. reflexivity. Qed.

(** degenerate inputs: max() of an empty sequence / division by zero *)
Example multifit_empty : multifit (fun v : Z => v) true 10 3 [] = Err ValueError.
Proof. vm_compute. reflexivity. Qed.
Example multifit_zero_bins : multifit (fun v : Z => v) true 10 0 [1; 2] = Err ZeroDivisionError.
Proof. vm_compute. reflexivity. Qed.

Check rnd53_rounds.
Check mf_loop_inv.
Check multifit_partition.
Check multifit_total.
Check multifit_at_most_k.
Check multifit_at_most_k_sums.
Check multifit_erase.
Check multifit_names.
Check multifit_ratio_2_bound.
Check multifit_ratio_2.

Print Assumptions rnd53_rounds.
Print Assumptions mf_loop_inv.
Print Assumptions multifit_partition.
Print Assumptions multifit_total.
Print Assumptions multifit_at_most_k.
Print Assumptions multifit_at_most_k_sums.
Print Assumptions multifit_erase.
Print Assumptions multifit_names.
Print Assumptions multifit_ratio_2_bound.
Print Assumptions multifit_ratio_2.
Print Assumptions multifit_example4_k4.
Print Assumptions multifit_unrepresentable_max_fails.
