(** Worst-case guarantees of the greedy (LPT) heuristic relative to the optimum (C08):
    list-scheduling bound, (2 - 1/k), Graham's (4/3 - 1/(3k)), and the bound on the smallest sum. *)
From Prtpy Require Import Base.Prelude Model.Binner Model.Greedy Model.Objectives Spec.Partition
  Proofs.BaseLemmas Proofs.BinnerLemmas Proofs.GreedyProofs Proofs.OracleSpec Proofs.CoveringProofs.
From Coq Require Import Sorting.Sorted Arith ZifyBool.

(** ================= A. generic facts on lists of integers ================= *)

Lemma length_pos_ne {T} (l : list T) : (1 <= length l)%nat -> l <> [].
Proof. destruct l as [|y t]; simpl; [lia|discriminate]. Qed.

Lemma zsum_le_len_max l : zsum l <= Z.of_nat (length l) * zmax l.
Proof. apply zsum_le_bound, zmax_ge. Qed.

Lemma len_min_le_zsum l : Z.of_nat (length l) * zmin l <= zsum l.
Proof. apply zsum_ge_bound, zmin_le. Qed.

(** one entry is [a], all the others are at least [m] *)
Lemma zsum_ge_one_plus_rest a m l : In a l -> Forall (fun y => m <= y) l ->
  a + (Z.of_nat (length l) - 1) * m <= zsum l.
Proof.
  intros Ha Hm. induction Hm as [|y t Hy Ht IH]; [contradiction|].
  simpl zsum; simpl length. destruct Ha as [Ha|Ha].
  - subst y. pose proof (zsum_ge_bound m t Ht) as H. lia.
  - specialize (IH Ha). lia.
Qed.

(** loads whose spread is at most [M]:  n * max <= total + (n - 1) * M *)
Lemma spread_sum_bound M l : l <> [] -> zmax l - zmin l <= M ->
  Z.of_nat (length l) * zmax l <= zsum l + (Z.of_nat (length l) - 1) * M.
Proof.
  intros Hne Hgap.
  pose proof (zsum_ge_one_plus_rest (zmax l) (zmin l) l (zmax_in l Hne) (zmin_le l)) as H1.
  assert (H2 : (Z.of_nat (length l) - 1) * zmax l <= (Z.of_nat (length l) - 1) * (zmin l + M)).
  { apply Z.mul_le_mono_nonneg_l; [|lia]. destruct l; [contradiction|cbn [length]; lia]. }
  lia.
Qed.

Lemma zmax_repeat0 n : zmax (repeat 0 n) = 0.
Proof.
  destruct n as [|n]; [reflexivity|].
  assert (H : In (zmax (repeat 0 (S n))) (repeat 0 (S n))) by (apply zmax_in; simpl; discriminate).
  apply repeat_spec in H. exact H.
Qed.

Lemma nth_update_ge s i j x : 0 <= x -> nth j s 0 <= nth j (update i (fun a => a + x) s) 0.
Proof.
  intros Hx. destruct (Nat.lt_ge_cases i (length s)) as [Hi|Hi].
  - rewrite nth_update by exact Hi. destruct (Nat.eqb i j); lia.
  - rewrite update_out by exact Hi. lia.
Qed.

Lemma zmax_update_mono s i x : 0 <= x -> zmax s <= zmax (update i (fun a => a + x) s).
Proof.
  intros Hx. destruct s as [|y t]; [destruct i; simpl; lia|].
  set (s := y :: t) in *.
  assert (Hin : In (zmax s) s) by (apply zmax_in; discriminate).
  destruct (In_nth s (zmax s) 0 Hin) as (j & Hj & Ej).
  pose proof (nth_update_ge s i j x Hx) as H1.
  assert (H2 : In (nth j (update i (fun a => a + x) s) 0) (update i (fun a => a + x) s)).
  { apply nth_In. rewrite update_length. exact Hj. }
  apply zmax_ge_in in H2. lia.
Qed.

Lemma sorted_desc_snoc l x : StronglySorted (fun a b : Z => b <= a) (l ++ [x]) ->
  StronglySorted (fun a b : Z => b <= a) l /\ Forall (fun a => x <= a) l.
Proof.
  induction l as [|y t IH]; intros H; simpl in *.
  - split; constructor.
  - inversion H as [|y' t' Ht Hy]; subst. destruct (IH Ht) as [H1 H2].
    apply Forall_app in Hy. destruct Hy as [Hy1 Hy2]. inversion Hy2 as [|x' t' Hx _]; subst.
    split; constructor; auto.
Qed.

(** ================= B. load vectors of assignments ================= *)

(** [loads] started from an arbitrary vector, so that the first step can be split off *)
Definition loads_from (s0 : list Z) (vs : list Z) (asg : list nat) : list Z :=
  fold_left lstep (combine vs asg) s0.

Lemma loads_eq k vs asg : loads k vs asg = loads_from (repeat 0 k) vs asg.
Proof. reflexivity. Qed.

Lemma loads_from_cons s0 x vs i asg :
  loads_from s0 (x :: vs) (i :: asg) = loads_from (update i (fun a => a + x) s0) vs asg.
Proof. reflexivity. Qed.

Lemma Attainable_sum k vs s : Attainable k vs s -> zsum s = zsum vs.
Proof. intros (asg & Hl & Hv & E). subst s. apply loads_sum; auto. Qed.

Lemma Attainable_nil_inv k s : Attainable k [] s -> s = repeat 0 k.
Proof. apply OracleSpec.Attainable_nil. Qed.

Lemma Attainable_snoc_inv k vs x s : Attainable k (vs ++ [x]) s ->
  exists s' i, Attainable k vs s' /\ (i < k)%nat /\ s = update i (fun a => a + x) s'.
Proof. apply OracleSpec.Attainable_snoc. Qed.

Lemma Attainable_perm_local k vs vs' s : Permutation vs vs' -> Attainable k vs s -> Attainable k vs' s.
Proof. exact (Attainable_perm k vs vs' s). Qed.

(** with non-negative values every load is non-negative and every value is at most the largest load *)
Lemma Attainable_bounds k vs : Forall (fun v => 0 <= v) vs -> forall s, Attainable k vs s ->
  Forall (fun a => 0 <= a) s /\ Forall (fun v => v <= zmax s) vs.
Proof.
  induction vs as [|x vs IH] using rev_ind; intros Hpos s H.
  - apply Attainable_nil_inv in H. subst s. split; [|constructor].
    apply Forall_forall. intros a Ha. apply repeat_spec in Ha. lia.
  - apply Forall_app in Hpos. destruct Hpos as [Hpos Hx]. inversion Hx as [|x' t' Hx0 _]; subst.
    destruct (Attainable_snoc_inv _ _ _ _ H) as (s' & i & Hs' & Hi & E). subst s.
    destruct (IH Hpos s' Hs') as [IH1 IH2].
    pose proof (Attainable_length _ _ _ Hs') as Hlen.
    rewrite Forall_forall in IH1.
    split.
    + apply Forall_forall. intros a Ha. apply (In_update _ 0) in Ha.
      destruct Ha as [Ha|[_ Ha]]; [apply IH1; exact Ha|].
      assert (0 <= nth i s' 0) by (apply IH1, nth_In; lia). lia.
    + apply Forall_app. split.
      * eapply Forall_impl; [|exact IH2]. intros v Hv. cbv beta in Hv.
        pose proof (zmax_update_mono s' i x Hx0). lia.
      * constructor; [|constructor].
        assert (Hin : In (nth i (update i (fun a => a + x) s') 0) (update i (fun a => a + x) s')).
        { apply nth_In. rewrite update_length. lia. }
        apply zmax_ge_in in Hin. rewrite update_nth_same in Hin by lia.
        assert (0 <= nth i s' 0) by (apply IH1, nth_In; lia). lia.
Qed.

(** ================= C. lower bounds on the optimum ================= *)

Lemma value_MinLargest s : value MinLargest s false = zmax s.
Proof. reflexivity. Qed.

Lemma value_MaxSmallest s : value MaxSmallest s false = - zmin s.
Proof. reflexivity. Qed.

Theorem opt_minlargest_lower_bounds k vs opt :
  Opt MinLargest k vs opt -> Forall (fun v => 0 <= v) vs -> (1 <= k)%nat ->
  zsum vs <= Z.of_nat k * opt /\ Forall (fun v => v <= opt) vs.
Proof.
  intros [(s & Hs & Ev) _] Hpos _. rewrite value_MinLargest in Ev. subst opt. split.
  - rewrite <- (Attainable_sum _ _ _ Hs), <- (Attainable_length _ _ _ Hs). apply zsum_le_len_max.
  - apply (Attainable_bounds k vs Hpos s Hs).
Qed.

Lemma opt_minlargest_nonneg k vs opt :
  Opt MinLargest k vs opt -> Forall (fun v => 0 <= v) vs -> (1 <= k)%nat -> 0 <= opt.
Proof.
  intros [(s & Hs & Ev) _] Hpos Hk. rewrite value_MinLargest in Ev. subst opt.
  destruct (Attainable_bounds k vs Hpos s Hs) as [H _]. rewrite Forall_forall in H.
  apply H. apply zmax_in. apply length_pos_ne. rewrite (Attainable_length _ _ _ Hs). exact Hk.
Qed.

Lemma opt_minlargest_ge_vmax k vs opt :
  Opt MinLargest k vs opt -> Forall (fun v => 0 <= v) vs -> (1 <= k)%nat -> zmax vs <= opt.
Proof.
  intros Hopt Hpos Hk. destruct vs as [|v t].
  - simpl. apply (opt_minlargest_nonneg k [] opt); auto.
  - destruct (opt_minlargest_lower_bounds _ _ _ Hopt Hpos Hk) as [_ H].
    rewrite Forall_forall in H. apply H. apply zmax_in. discriminate.
Qed.

(** ================= D. the greedy loop on load vectors ================= *)

Definition vstep (s : list Z) (x : Z) : list Z := update (argmin s) (fun a => a + x) s.
Definition vgreedy (l : list Z) (s : list Z) : list Z := fold_left vstep l s.

Lemma vstep_length s x : length (vstep s x) = length s.
Proof. apply update_length. Qed.

Lemma vgreedy_length l : forall s, length (vgreedy l s) = length s.
Proof.
  induction l as [|x t IH]; intros s; [reflexivity|].
  unfold vgreedy in *. cbn [fold_left]. rewrite IH. apply vstep_length.
Qed.

Lemma vgreedy_snoc l x s : vgreedy (l ++ [x]) s = vstep (vgreedy l s) x.
Proof. unfold vgreedy. rewrite fold_left_app. reflexivity. Qed.

Lemma argmin_lt s : (1 <= length s)%nat -> (argmin s < length s)%nat.
Proof. intros H. apply argmin_spec. apply length_pos_ne; exact H. Qed.

Lemma argmin_least s : (1 <= length s)%nat -> Forall (fun a => nth (argmin s) s 0 <= a) s.
Proof. intros H. apply argmin_spec. apply length_pos_ne; exact H. Qed.

(** the new maximum is the old one or the load of the bin that received the item *)
Lemma vstep_max_cases s x : (1 <= length s)%nat ->
  zmax (vstep s x) <= zmax s \/ zmax (vstep s x) = nth (argmin s) s 0 + x.
Proof.
  intros H.
  assert (Hin : In (zmax (vstep s x)) (vstep s x)).
  { apply zmax_in. apply length_pos_ne. rewrite vstep_length. exact H. }
  set (m := zmax (vstep s x)) in *. unfold vstep in Hin. apply (In_update _ 0) in Hin.
  destruct Hin as [Hin|[_ Hin]]; [left; apply zmax_ge_in; exact Hin|right; exact Hin].
Qed.

Lemma vgreedy_attainable k l : (1 <= k)%nat -> Attainable k l (vgreedy l (repeat 0 k)).
Proof.
  intros Hk. induction l as [|x l IH] using rev_ind.
  - apply OracleSpec.Attainable_nil. reflexivity.
  - rewrite vgreedy_snoc. apply OracleSpec.Attainable_snoc.
    exists (vgreedy l (repeat 0 k)), (argmin (vgreedy l (repeat 0 k))).
    split; [exact IH|]. split; [|reflexivity].
    rewrite <- (Attainable_length _ _ _ IH) at 2. apply argmin_lt.
    rewrite (Attainable_length _ _ _ IH). exact Hk.
Qed.

(** ================= E. greedy at item level ================= *)

Section Ratio.
  Context {A : Type} (valueof : A -> Z) (keep : bool).

  Lemma greedy_fold_sums l : forall b : bins A,
    sums (fold_left (greedy_step valueof keep) l b) = vgreedy (map valueof l) (sums b).
  Proof.
    induction l as [|x t IH]; intros b; [reflexivity|].
    cbn [fold_left map]. rewrite IH. unfold vgreedy. cbn [fold_left].
    unfold greedy_step. rewrite add_item_sums. reflexivity.
  Qed.

  (** the values in the order in which greedy processes them *)
  Definition sorted_values (items : list A) : list Z := map valueof (sort_desc valueof items).

  Lemma greedy_sums_vgreedy k items :
    sums (greedy valueof keep k items) = vgreedy (sorted_values items) (repeat 0 k).
  Proof. unfold greedy. rewrite greedy_fold_sums, new_bins_sums. reflexivity. Qed.

  Lemma sorted_values_perm items : Permutation (sorted_values items) (map valueof items).
  Proof. apply Permutation_map, sort_desc_perm. Qed.

  Lemma sorted_values_sorted items : StronglySorted (fun a b : Z => b <= a) (sorted_values items).
  Proof.
    unfold sorted_values. pose proof (sort_desc_sorted valueof items) as H.
    induction H as [|y t Ht IH Hy]; simpl; constructor; auto. rewrite Forall_map. exact Hy.
  Qed.

  Lemma values_nonneg items : Forall (fun x => 0 <= valueof x) items ->
    Forall (fun v => 0 <= v) (map valueof items).
  Proof. intros H. rewrite Forall_map. exact H. Qed.

  Lemma sorted_values_nonneg items : Forall (fun x => 0 <= valueof x) items ->
    Forall (fun v => 0 <= v) (sorted_values items).
  Proof.
    intros H. eapply Permutation_Forall; [symmetry; apply sorted_values_perm|].
    apply values_nonneg; exact H.
  Qed.

  Theorem greedy_attainable k items : (1 <= k)%nat ->
    Attainable k (map valueof items) (sums (greedy valueof keep k items)).
  Proof.
    intros Hk. rewrite greedy_sums_vgreedy.
    apply (Attainable_perm k (sorted_values items)); [apply sorted_values_perm|].
    apply vgreedy_attainable; exact Hk.
  Qed.

  (** list-scheduling bound:  L <= sum/k + (1 - 1/k) vmax *)
  Theorem lpt_graham_partial k items : (1 <= k)%nat -> Forall (fun x => 0 <= valueof x) items ->
    Z.of_nat k * zmax (sums (greedy valueof keep k items))
    <= zsum (map valueof items) + (Z.of_nat k - 1) * zmax (map valueof items).
  Proof.
    intros Hk Hpos. pose proof (greedy_attainable k items Hk) as Hs.
    pose proof (Attainable_length _ _ _ Hs) as Hlen.
    assert (Hne : sums (greedy valueof keep k items) <> []) by (apply length_pos_ne; lia).
    pose proof (spread_sum_bound _ _ Hne (greedy_gap_gen valueof keep k items Hpos)) as H.
    rewrite Hlen, (Attainable_sum _ _ _ Hs) in H. exact H.
  Qed.
End Ratio.

(** ================= F. consequences of a gap bound (greedy, KK, round-robin ...) ================= *)

(** any partition whose spread is at most the largest value is within (2 - 1/k) of the optimum *)
Theorem gap_ratio_2 k vs s opt : (1 <= k)%nat -> Forall (fun v => 0 <= v) vs ->
  Attainable k vs s -> zmax s - zmin s <= zmax vs -> Opt MinLargest k vs opt ->
  Z.of_nat k * zmax s <= (2 * Z.of_nat k - 1) * opt.
Proof.
  intros Hk Hpos Hs Hgap Hopt.
  destruct (opt_minlargest_lower_bounds _ _ _ Hopt Hpos Hk) as [Hsum _].
  pose proof (opt_minlargest_ge_vmax _ _ _ Hopt Hpos Hk) as Hvmax.
  pose proof (Attainable_length _ _ _ Hs) as Hlen.
  assert (Hne : s <> []) by (apply length_pos_ne; lia).
  pose proof (spread_sum_bound _ s Hne Hgap) as H1. rewrite Hlen, (Attainable_sum _ _ _ Hs) in H1.
  assert (H2 : (Z.of_nat k - 1) * zmax vs <= (Z.of_nat k - 1) * opt)
    by (apply Z.mul_le_mono_nonneg_l; lia).
  lia.
Qed.

(** the smallest sum of such a partition is within one largest value of the max-min optimum *)
Theorem gap_min_bound k vs s v : (1 <= k)%nat ->
  Attainable k vs s -> zmax s - zmin s <= zmax vs -> Opt MaxSmallest k vs v ->
  (- v) - zmax vs <= zmin s.
Proof.
  intros Hk Hs Hgap [(s' & Hs' & Ev) _]. rewrite value_MaxSmallest in Ev.
  pose proof (len_min_le_zsum s') as H1.
  rewrite (Attainable_length _ _ _ Hs'), (Attainable_sum _ _ _ Hs') in H1.
  pose proof (zsum_le_len_max s) as H2.
  rewrite (Attainable_length _ _ _ Hs), (Attainable_sum _ _ _ Hs) in H2.
  assert (H3 : Z.of_nat k * zmax s <= Z.of_nat k * (zmin s + zmax vs))
    by (apply Z.mul_le_mono_nonneg_l; lia).
  assert (H4 : zmin s' <= zmin s + zmax vs) by (apply (Z.mul_le_mono_pos_l _ _ (Z.of_nat k)); lia).
  lia.
Qed.

Section Ratio2.
  Context {A : Type} (valueof : A -> Z) (keep : bool).

  (** L <= (2 - 1/k) OPT *)
  Theorem lpt_ratio_2 k items opt : (1 <= k)%nat -> Forall (fun x => 0 <= valueof x) items ->
    Opt MinLargest k (map valueof items) opt ->
    Z.of_nat k * zmax (sums (greedy valueof keep k items)) <= (2 * Z.of_nat k - 1) * opt.
  Proof.
    intros Hk Hpos Hopt.
    apply (gap_ratio_2 k (map valueof items)); auto.
    - apply values_nonneg; exact Hpos.
    - apply greedy_attainable; exact Hk.
    - apply greedy_gap_gen; exact Hpos.
  Qed.

  (** the smallest sum of greedy:  m >= OPTmin - vmax,  where OPTmin = - v *)
  Theorem lpt_min_partial k items v : (1 <= k)%nat -> Forall (fun x => 0 <= valueof x) items ->
    Opt MaxSmallest k (map valueof items) v ->
    (- v) - zmax (map valueof items) <= zmin (sums (greedy valueof keep k items)).
  Proof.
    intros Hk Hpos Hopt.
    apply (gap_min_bound k (map valueof items)); auto.
    - apply greedy_attainable; exact Hk.
    - apply greedy_gap_gen; exact Hpos.
  Qed.
End Ratio2.

(** ================= G. Graham's bound  L <= (4/3 - 1/(3k)) OPT ================= *)

(** --- G1. running two load vectors (values and weights) along the same assignment --- *)

Lemma Forall2_repeat {T U} (P : T -> U -> Prop) a b n : P a b -> Forall2 P (repeat a n) (repeat b n).
Proof. intros H. induction n as [|n IH]; simpl; constructor; auto. Qed.

Lemma Forall2_transfer {T U} (P : T -> U -> Prop) (Q : T -> Prop) (R : U -> Prop) :
  (forall a b, P a b -> Q a -> R b) -> forall s t, Forall2 P s t -> Forall Q s -> Forall R t.
Proof.
  intros HPQ s t H. induction H as [|a b s t Hab Hst IH]; intros HQ; constructor;
    inversion HQ as [|a' s' Ha Hs]; subst; eauto.
Qed.

Lemma loads_from_pair (P : Z -> Z -> Prop) (w : Z -> Z) vs :
  Forall (fun a => forall l wl, P l wl -> P (l + a) (wl + w a)) vs ->
  forall asg s0 t0, Forall2 P s0 t0 ->
  Forall2 P (loads_from s0 vs asg) (loads_from t0 (map w vs) asg).
Proof.
  induction 1 as [|x t Hx Ht IH]; intros [|i asg] s0 t0 H0; try exact H0.
  cbn [map]. rewrite !loads_from_cons. apply IH.
  apply Forall2_update; [|exact H0]. intros a b Hab. apply Hx; exact Hab.
Qed.

(** the vector of total weights per bin, for the assignment that produced s *)
Lemma weights_along (P : Z -> Z -> Prop) (w : Z -> Z) k vs s :
  P 0 0 -> Forall (fun a => forall l wl, P l wl -> P (l + a) (wl + w a)) vs ->
  Attainable k vs s ->
  exists t, Forall2 P s t /\ length t = k /\ zsum t = zsum (map w vs).
Proof.
  intros H0 Hstep (asg & Hl & Hv & E). exists (loads k (map w vs) asg).
  split; [|split].
  - subst s. rewrite !loads_eq. apply loads_from_pair; [exact Hstep|].
    apply Forall2_repeat; exact H0.
  - apply loads_length.
  - apply loads_sum; [|exact Hv]. rewrite map_length. exact Hl.
Qed.

(** --- G2. the weight argument: an item a weighs 2 if it cannot share a bin of
        capacity T with the item x (a + x > T), and 1 otherwise --- *)

Definition wgt (T x a : Z) : Z := if T <? a + x then 2 else 1.

Lemma wgt_ge_1 T x a : 1 <= wgt T x a.
Proof. unfold wgt. destruct (T <? a + x); lia. Qed.

(** upper side: bins of load <= T made of items a >= x with 3a > T have weight <= 2.
    [Pup] relates load l and weight wl of such a bin: weight 1 is one item of weight 1; weight 2 is
    one item of weight 2 (T < l + x) or two of weight 1 (2T < 3l); weight >= 3 means l > T *)
Definition Pup (T x l wl : Z) : Prop :=
  0 <= wl /\ 0 <= l /\ (wl = 1 -> x <= l /\ T < 3 * l) /\
  (wl = 2 -> T < l + x \/ 2 * T < 3 * l) /\ (3 <= wl -> T < l).

Lemma Pup_step T x a l wl : 0 <= x -> x <= a -> T < 3 * a ->
  Pup T x l wl -> Pup T x (l + a) (wl + wgt T x a).
Proof.
  unfold Pup, wgt. intros Hx Hxa HTa (H0 & H1 & H2 & H3 & H4).
  destruct (T <? a + x) eqn:E; lia.
Qed.

Lemma weight_upper k T x vs s : 0 <= x -> Forall (fun a => x <= a /\ T < 3 * a) vs ->
  Attainable k vs s -> Forall (fun a => a <= T) s ->
  zsum (map (wgt T x) vs) <= 2 * Z.of_nat k.
Proof.
  intros Hx Hvs Hs HT.
  destruct (weights_along (Pup T x) (wgt T x) k vs s) as (t & H1 & H2 & H3).
  - unfold Pup. lia.
  - eapply Forall_impl; [|exact Hvs]. intros a [Ha1 Ha2] l wl Hl. apply Pup_step; auto.
  - exact Hs.
  - rewrite <- H3.
    assert (Ht : Forall (fun b => b <= 2) t).
    { apply (Forall2_transfer (Pup T x) (fun a => a <= T) (fun b => b <= 2)) with (s := s); auto.
      unfold Pup. intros a b Hab Ha. lia. }
    pose proof (zsum_le_bound 2 t Ht) as H4. rewrite H2 in H4. lia.
Qed.

(** lower side: a bin whose load exceeds T - x (with x <= T) has weight >= 2 *)
Definition Plow (T x l wl : Z) : Prop :=
  0 <= wl /\ (wl = 0 -> l <= 0) /\ (wl = 1 -> l + x <= T).

Lemma Plow_step T x a l wl : Plow T x l wl -> Plow T x (l + a) (wl + wgt T x a).
Proof.
  unfold Plow, wgt. intros (H0 & H1 & H2).
  destruct (T <? a + x) eqn:E; lia.
Qed.

Lemma weight_lower k T x vs s : x <= T -> Attainable k vs s -> Forall (fun a => T < a + x) s ->
  2 * Z.of_nat k <= zsum (map (wgt T x) vs).
Proof.
  intros HxT Hs HT.
  destruct (weights_along (Plow T x) (wgt T x) k vs s) as (t & H1 & H2 & H3).
  - unfold Plow. lia.
  - apply Forall_forall. intros a _ l wl Hl. apply Plow_step; exact Hl.
  - exact Hs.
  - rewrite <- H3.
    assert (Ht : Forall (fun b => 2 <= b) t).
    { apply (Forall2_transfer (Plow T x) (fun a => T < a + x) (fun b => 2 <= b)) with (s := s); auto.
      unfold Plow. intros a b Hab Ha. lia. }
    pose proof (zsum_ge_bound 2 t Ht) as H4. rewrite H2 in H4. lia.
Qed.

(** the "at most two items per bin" case of Graham's proof, as a contradiction:
    if all items are > T/3 and at least x, the items l cannot fill every bin above T - x
    while l ++ [x] still fits into k bins of capacity T *)
Lemma two_per_bin_contra k T x l g s : 0 <= x -> x <= T -> T < 3 * x ->
  Forall (fun a => x <= a) l ->
  Attainable k l g -> Forall (fun a => T < a + x) g ->
  Attainable k (l ++ [x]) s -> Forall (fun a => a <= T) s -> False.
Proof.
  intros Hx HxT HTx Hl Hg HgT Hs HsT.
  pose proof (weight_lower k T x l g HxT Hg HgT) as H1.
  assert (Hall : Forall (fun a => x <= a /\ T < 3 * a) (l ++ [x])).
  { apply Forall_app. split.
    - eapply Forall_impl; [|exact Hl]. intros a Ha. cbv beta in Ha. lia.
    - constructor; [lia|constructor]. }
  pose proof (weight_upper k T x (l ++ [x]) s Hx Hall Hs HsT) as H2.
  rewrite map_app, zsum_app in H2. simpl zsum in H2.
  pose proof (wgt_ge_1 T x x). lia.
Qed.

(** --- G3. the main induction over the prefixes of the sorted sequence --- *)

(** greedy on a non-increasing sequence of non-negative values against ANY attainable vector *)
Theorem lpt_43_values k : (1 <= k)%nat -> forall l s,
  StronglySorted (fun a b : Z => b <= a) l -> Forall (fun v => 0 <= v) l -> Attainable k l s ->
  3 * Z.of_nat k * zmax (vgreedy l (repeat 0 k)) <= (4 * Z.of_nat k - 1) * zmax s.
Proof.
  intros Hk l. induction l as [|x l IH] using rev_ind; intros s Hsort Hpos Hs.
  - apply Attainable_nil_inv in Hs. subst s. unfold vgreedy. cbn [fold_left].
    rewrite zmax_repeat0. lia.
  - destruct (sorted_desc_snoc l x Hsort) as [Hsl Hxl].
    apply Forall_app in Hpos. destruct Hpos as [Hposl Hposx].
    inversion Hposx as [|x' t' Hx _]; subst.
    destruct (Attainable_snoc_inv _ _ _ _ Hs) as (s' & i & Hs' & Hi & Es).
    assert (HT' : zmax s' <= zmax s) by (rewrite Es; apply zmax_update_mono; exact Hx).
    specialize (IH s' Hsl Hposl Hs').
    assert (Hposlx : Forall (fun v => 0 <= v) (l ++ [x])) by (apply Forall_app; auto).
    destruct (Attainable_bounds k (l ++ [x]) Hposlx s Hs) as [_ Hvals].
    apply Forall_app in Hvals. destruct Hvals as [_ HxT]. pose proof (Forall_inv HxT) as HxT0. cbv beta in HxT0.
    pose proof (zsum_le_len_max s) as Hsum.
    rewrite (Attainable_length _ _ _ Hs), (Attainable_sum _ _ _ Hs), zsum_app in Hsum.
    simpl zsum in Hsum.
    set (T := zmax s) in *. set (K := Z.of_nat k) in *.
    assert (HK : 1 <= K) by (unfold K; lia).
    pose proof (vgreedy_attainable k l Hk) as Hg.
    set (g := vgreedy l (repeat 0 k)) in *.
    pose proof (Attainable_length _ _ _ Hg) as Hglen.
    assert (Hg1 : (1 <= length g)%nat) by lia.
    rewrite vgreedy_snoc. fold g.
    pose proof (argmin_least g Hg1) as Hleast.
    pose proof (zsum_ge_bound _ _ Hleast) as Hmn.
    rewrite Hglen, (Attainable_sum _ _ _ Hg) in Hmn. fold K in Hmn.
    set (mn := nth (argmin g) g 0) in *.
    assert (HKT : 0 <= (K - 1) * T) by (apply Z.mul_nonneg_nonneg; lia).
    destruct (vstep_max_cases g x Hg1) as [Hc|Hc].
    + (* the maximum did not change: induction hypothesis *)
      assert (H1 : 3 * K * zmax (vstep g x) <= 3 * K * zmax g) by (apply Z.mul_le_mono_nonneg_l; lia).
      assert (H2 : (4 * K - 1) * zmax s' <= (4 * K - 1) * T) by (apply Z.mul_le_mono_nonneg_l; lia).
      lia.
    + (* the last (smallest) item determines the maximum *)
      fold mn in Hc. rewrite Hc.
      destruct (Z.le_gt_cases (mn + x) T) as [Hle|Hgt].
      * assert (H1 : 3 * K * (mn + x) <= 3 * K * T) by (apply Z.mul_le_mono_nonneg_l; lia).
        lia.
      * destruct (Z.le_gt_cases (3 * x) T) as [Hsmall|Hbig].
        -- assert (H1 : (K - 1) * (3 * x) <= (K - 1) * T) by (apply Z.mul_le_mono_nonneg_l; lia).
           lia.
        -- exfalso. apply (two_per_bin_contra k T x l g s); auto.
           ++ eapply Forall_impl; [|exact Hleast]. intros a Ha. cbv beta in Ha. fold mn in Ha. lia.
           ++ apply zmax_ge.
Qed.

(** removing the last value does not increase the min-max optimum *)
Lemma opt_monotone_prefix k vs x o o' : 0 <= x ->
  Opt MinLargest k vs o -> Opt MinLargest k (vs ++ [x]) o' -> o <= o'.
Proof.
  intros Hx [_ Hmin] [(s & Hs & Ev) _]. rewrite value_MinLargest in Ev. subst o'.
  destruct (Attainable_snoc_inv _ _ _ _ Hs) as (s' & i & Hs' & Hi & Es).
  specialize (Hmin s' Hs'). rewrite value_MinLargest in Hmin.
  pose proof (zmax_update_mono s' i x Hx) as H. rewrite <- Es in H. lia.
Qed.

Section Ratio3.
  Context {A : Type} (valueof : A -> Z) (keep : bool).

  (** greedy against any way of distributing the values over k bins *)
  Theorem lpt_ratio_43_attainable k items s : (1 <= k)%nat ->
    Forall (fun x => 0 <= valueof x) items -> Attainable k (map valueof items) s ->
    3 * Z.of_nat k * zmax (sums (greedy valueof keep k items)) <= (4 * Z.of_nat k - 1) * zmax s.
  Proof.
    intros Hk Hpos Hs. rewrite greedy_sums_vgreedy.
    apply lpt_43_values; [exact Hk|apply sorted_values_sorted|apply sorted_values_nonneg; exact Hpos|].
    apply (Attainable_perm k (map valueof items)); [|exact Hs].
    symmetry. apply sorted_values_perm.
  Qed.

  (** Graham's bound  L <= (4/3 - 1/(3k)) OPT *)
  Theorem lpt_ratio_43 k items opt : Opt MinLargest k (map valueof items) opt -> (1 <= k)%nat ->
    Forall (fun x => 0 <= valueof x) items ->
    3 * Z.of_nat k * zmax (sums (greedy valueof keep k items)) <= (4 * Z.of_nat k - 1) * opt.
  Proof.
    intros [(s & Hs & Ev) _] Hk Hpos. rewrite value_MinLargest in Ev. subst opt.
    apply lpt_ratio_43_attainable; auto.
  Qed.
End Ratio3.

(** the bound is attained: k = 2, values 3,3,2,2,2: greedy gives 7, the optimum is 6, and 3*2*7 = (4*2-1)*6 *)
Example lpt_ratio_43_tight :
  sums (greedy (fun v : Z => v) true 2 [3; 3; 2; 2; 2]) = [7; 5] /\
  loads 2 [3; 3; 2; 2; 2] [0; 0; 1; 1; 1]%nat = [6; 6].
Proof. vm_compute. split; reflexivity. Qed.

(** non-negativity cannot be dropped from the ratio bounds: greedy on [-1; -1] with 2 bins
    gives [-2; 0], i.e. L = 0, while the assignment [0; 1] has largest sum -1, so opt <= -1 < 0
    and both (2k-1) * opt and (4k-1) * opt are negative whereas k * L = 0 *)
Example lpt_ratio_needs_nonneg :
  sums (greedy (fun v : Z => v) true 2 [-1; -1]) = [-2; 0] /\
  loads 2 [-1; -1] [0; 1]%nat = [-1; -1].
Proof. vm_compute. split; reflexivity. Qed.

Print Assumptions opt_minlargest_lower_bounds.
Print Assumptions lpt_graham_partial.
Print Assumptions lpt_ratio_2.
Print Assumptions lpt_ratio_43_attainable.
Print Assumptions lpt_ratio_43.
Print Assumptions lpt_min_partial.
Print Assumptions gap_ratio_2.
Print Assumptions gap_min_bound.
Print Assumptions greedy_attainable.
Print Assumptions Attainable_perm_local.
Print Assumptions opt_monotone_prefix.
Print Assumptions lpt_43_values.
