(** Towards the absolute bound FF, BF <= floor(17/10 OPT) of Dosa and Sgall
    (STACS 2013 / ICALP 2014).  b = bins returned, m = length b, n = any number of bins of
    capacity C into which the values can be packed (in particular the optimum), beta = number
    of values above C/2 (beta <= n).  Everything is in integer arithmetic, weights scaled by 10 C.
    "Rung c" is the bound 10 m <= 17 n + c; it gives 10 m <= 17 n for the residues of n mod 10
    tabulated in FF17FloorProofs.additive_floor_table.  This file reaches rung 7, and rung 3 when
    no bin is a single item a with C/3 < a <= C/2; FF17FloorProofs.v reaches rung 3 and
    FF17PureProofs.v rung 2 unconditionally.  OPEN in the whole development: 10 m <= 17 n for
    n = 4, 7 mod 10 (see the end of FF17PureProofs.v).
    A [_partial] in a name marks a bound weaker than the published one, not an incomplete proof.

    PROVED, for first_fit and best_fit alike (items <> [], values >= 0):
      *_ratio_17_7_partial     10 m <= 17 n + 7                       (Xia & Tan: 1.7 OPT + 0.7)
      *_half_full_partial      10 m <= 15 n + 2 beta + 3              if every bin is > half full
      *_filled_partial         10 C m <= 15 C n + 2 C beta + max(0, 10 C - 12 l0)
                                                                      if every bin is filled to l0 > C/2
      *_ratio_17_1_partial     10 m <= 17 n + 1                       if every bin is > half full and
                               (the last bin without a value above C/2 is >= 2/3 full, or beta < n)
      *_low_bin_sharp_partial  10 m <= 17 n                           if some bin is <= half full and no
                               bin is a single item a with C/3 < a <= C/2
      *_ratio_17_3_partial     10 m <= 17 n + 3                       if no bin is such a single item
      *_ratio_17_floor_partial 10 m <= 17 n  for n <= 3 and n = 0, 3, 6 mod 10   (unconditional)
      *_ratio_17_floor_nms_partial  10 m <= 17 n  for n <> 1, 4, 7 mod 10, no such single item
    PROVED for first_fit only:
      ff_medium_single_partial      4 m <= 7 n   if some bin is a single item a, C/3 < a <= C/2
      ff_ratio_17_3_or_74_partial   10 m <= 17 n + 3  \/  4 m <= 7 n            (unconditional)
      ff_opt4_partial               n = 4 -> m <= 6
      ff_ratio_17_floor_small_partial   10 m <= 17 n for every n <= 6, and n = 9, 10, 13

    Weight function of Dosa and Sgall:
       W2(a) = 12 a + bonus(a),   bonus(a) = 0        if 6 a <= C
                                           = 6 a - C  if C < 6 a and 3 a <= C
                                           = C        if C < 3 a and 2 a <= C
                                           = 4 C      if C < 2 a
    (W2 = W of FF17Proofs.v except on values above C/2, where W2 = 12 a + 4 C > 10 C = W).
    A feasible bin weighs at most 17 C ([light_bin2]), at most 15 C without a value above C/2
    ([light_bin2_nobig]; [light_bin2b], [packable_wsum2b]: total weight <= 15 C n + 2 C beta).

    Rung 7: Lemma [heavy2] of FF17Proofs.v, applied to the bins AFTER the
    first one with coarseness alpha = C - s1 + 1 (s1 = sum of the first bin), gives
    10 C |t| <= W2(t) + 10 C - W(alpha); and 12 C + 1 <= W2(first bin) + W(alpha) unless
    s1 <= C/6, in which case all other bins are filled above 5C/6 and the sizes give the bound.

    The amortisation of Dosa and Sgall (the bonus of the first two items of a bin pays for the
    free space of the previous bin) is Lemma [heavy_gen], for any weight, unit, potential and
    condition on the sums of the bins, by the induction [coarse_ind] of FF17Proofs.v; a bin of
    sum s holding a value above C/2 contributes its excess 12 s - 6 C ([xs]).  With W2 and the
    potential [PhiS] (steps [PhiS_step], [PhiS_last]) it is [heavyRX] / [heavyX_all];
    FF17PureProofs.v uses it with the weights WM.  Only the first two items of a bin are used,
    which first-fit and best-fit both control ([anyfit] /\ [bf2]; [ff_facts], [bf_facts]). *)
From Prtpy Require Import Base.Prelude Model.Binner Model.Packing Spec.Partition
  Proofs.BaseLemmas Proofs.BinnerLemmas Proofs.PackingProofs Proofs.FFDRatioProofs
  Proofs.BFDRatioProofs Proofs.BCOptimalProofs Proofs.FF17Proofs Proofs.BF17Proofs.
From Coq Require Import ZifyBool.

(** ---- 0. sums of an arbitrary weight function over a packing ---- *)
Definition fsum (f : Z -> Z) (l : list Z) : Z := zsum (map f l).

Lemma fsum_nil f : fsum f [] = 0.
Proof. reflexivity. Qed.

Lemma fsum_cons f a l : fsum f (a :: l) = f a + fsum f l.
Proof. reflexivity. Qed.

Lemma fsum_app f l1 l2 : fsum f (l1 ++ l2) = fsum f l1 + fsum f l2.
Proof. unfold fsum. rewrite map_app. apply zsum_app. Qed.

Lemma fsum_perm f l1 l2 : Permutation l1 l2 -> fsum f l1 = fsum f l2.
Proof. intros P. unfold fsum. apply zsum_perm. apply Permutation_map. exact P. Qed.

Lemma fsum_nonneg f l : (forall z, 0 <= f z) -> 0 <= fsum f l.
Proof.
  intros Hf. induction l as [|w l IH]; [rewrite fsum_nil; lia|].
  rewrite fsum_cons. pose proof (Hf w). lia.
Qed.

Lemma fsum_ge_in f l y : (forall z, 0 <= f z) -> In y l -> f y <= fsum f l.
Proof.
  intros Hf Hin. apply in_le_zsum; [apply in_map; exact Hin|]. rewrite Forall_map. apply Forall_forall. auto.
Qed.

Lemma packable_fsum f C K vs n :
  (forall g, Forall (fun a => 0 <= a) g -> zsum g <= C -> fsum f g <= K) ->
  Forall (fun a => 0 <= a) vs -> Packable C vs n -> fsum f vs <= K * Z.of_nat n.
Proof. exact (packable_weight f C K vs n). Qed.

(** ---- 1. the weight function of Dosa and Sgall ---- *)
Definition bonus (C a : Z) : Z :=
  if 6 * a <=? C then 0
  else if 3 * a <=? C then 6 * a - C
  else if 2 * a <=? C then C
  else 4 * C.

Definition W2 (C a : Z) : Z := 12 * a + bonus C a.

Notation wsum2 C := (fsum (W2 C)).

Example W2_examples :
  map (W2 60) [0; 5; 10; 11; 20; 21; 30; 31; 60] = [0; 60; 120; 138; 300; 312; 420; 612; 960].
Proof. vm_compute. reflexivity. Qed.

Lemma bonus_spec C a :
  (6 * a <= C /\ bonus C a = 0) \/
  (C < 6 * a /\ 3 * a <= C /\ bonus C a = 6 * a - C) \/
  (C < 3 * a /\ 2 * a <= C /\ bonus C a = C) \/
  (C < 2 * a /\ bonus C a = 4 * C).
Proof.
  unfold bonus. destruct (6 * a <=? C) eqn:E6; [left; lia|].
  destruct (3 * a <=? C) eqn:E3; [right; left; lia|].
  destruct (2 * a <=? C) eqn:E2; [right; right; left; lia|].
  right; right; right; lia.
Qed.

Lemma W2_spec C a :
  (6 * a <= C /\ W2 C a = 12 * a) \/
  (C < 6 * a /\ 3 * a <= C /\ W2 C a = 18 * a - C) \/
  (C < 3 * a /\ 2 * a <= C /\ W2 C a = 12 * a + C) \/
  (C < 2 * a /\ W2 C a = 12 * a + 4 * C).
Proof. unfold W2. pose proof (bonus_spec C a). lia. Qed.

Lemma W_le_W2 C a : 0 <= C -> W C a <= W2 C a.
Proof. intros HC. pose proof (W_spec C a) as H1. pose proof (W2_spec C a) as H2. lia. Qed.

Lemma wsum_le_wsum2 C l : 0 <= C -> wsum C l <= wsum2 C l.
Proof.
  intros HC. induction l as [|a l IH]; [rewrite wsum_nil, fsum_nil; lia|].
  rewrite wsum_cons, fsum_cons. pose proof (W_le_W2 C a HC). lia.
Qed.

Lemma W2_small C a : 2 * a <= C -> W2 C a = W C a.
Proof. intros H. pose proof (W_spec C a). pose proof (W2_spec C a). lia. Qed.

Lemma wsum2_nobig C l : Forall (fun a => 2 * a <= C) l -> wsum2 C l = wsum C l.
Proof.
  intros H. induction H as [|a l Ha Hl IH]; [reflexivity|].
  rewrite fsum_cons, wsum_cons, IH, (W2_small C a Ha). reflexivity.
Qed.

Lemma wsum2_ge_12 C l : 0 <= C -> Forall (fun a => 0 <= a) l -> 12 * zsum l <= wsum2 C l.
Proof.
  intros HC H. induction H as [|a l Ha Hl IH]; [rewrite fsum_nil, zsum_nil; lia|].
  rewrite fsum_cons, zsum_cons. pose proof (W2_spec C a) as HWa. lia.
Qed.

Lemma wsum2_le_15 C l : Forall (fun a => 0 <= a) l -> Forall (fun a => 2 * a <= C) l ->
  wsum2 C l <= 15 * zsum l.
Proof. intros Hnn H. rewrite (wsum2_nobig C l H). apply wsum_le_15; assumption. Qed.

(** a feasible bin weighs at most 17 C; at most 15 C when it holds no value above C/2 *)
Lemma light_bin2_nobig C l : Forall (fun a => 0 <= a) l -> Forall (fun a => 2 * a <= C) l ->
  zsum l <= C -> wsum2 C l <= 15 * C.
Proof. intros Hnn Hnb HS. pose proof (wsum2_le_15 C l Hnn Hnb). lia. Qed.

Lemma light_bin2 C l : Forall (fun a => 0 <= a) l -> zsum l <= C -> wsum2 C l <= 17 * C.
Proof.
  intros Hnn HS. pose proof (zsum_nonneg l Hnn) as H0.
  destruct (feasible_split C l Hnn HS) as [Hnb|(x & r & P & Hx & Hr & Hs)].
  - pose proof (wsum2_le_15 C l Hnn Hnb). lia.
  - rewrite (fsum_perm _ _ _ P), fsum_cons, (wsum2_nobig C r (small_sum_nobig C r Hr Hs)).
    rewrite (zsum_perm _ _ P), zsum_cons in HS.
    pose proof (zsum_nonneg r Hr). pose proof (wsum_small C r Hr Hs). pose proof (W2_spec C x). lia.
Qed.

Lemma packable_wsum2 C vs n : Forall (fun a => 0 <= a) vs -> Packable C vs n ->
  wsum2 C vs <= 17 * C * Z.of_nat n.
Proof. apply packable_fsum. intros g. apply light_bin2. Qed.

(** ---- 2. rung 7 ---- *)

(** the first bin together with the potential of the remaining ones *)
Lemma first_bin_gain C l : 0 <= C -> Forall (fun a => 0 <= a) l -> zsum l <= C ->
  2 * C + 1 <= 12 * zsum l ->
  12 * C + 1 <= wsum2 C l + W C (C - zsum l + 1).
Proof.
  intros HC Hnn HS Hs. pose proof (wsum2_ge_12 C l HC Hnn) as H12.
  pose proof (W_spec C (C - zsum l + 1)) as Hal. lia.
Qed.

Section Const7.
  Context {A : Type} (valueof : A -> Z).

  Notation cw C b := (wsum C (map valueof (contents b))).
  Notation cw2 C b := (wsum2 C (map valueof (contents b))).

  (** bins whose first item is at least K are filled to at least K *)
  Lemma sums_ge_first K (t : bins A) : wf valueof t ->
    Forall (fun y => 0 <= valueof y) (contents t) ->
    Forall (fun c : bin A => match snd c with x :: _ => K <= valueof x | [] => False end) t ->
    K * Z.of_nat (length t) <= zsum (sums t).
  Proof.
    induction t as [|c t IH]; intros Hw Hnn Hk.
    - cbn [length Z.of_nat sums map]. rewrite zsum_nil. lia.
    - unfold wf in Hw. apply Forall_cons_iff in Hw. destruct Hw as [Hwc Hw].
      rewrite contents_cons in Hnn. apply Forall_app in Hnn. destruct Hnn as [Hn1 Hn2].
      apply Forall_cons_iff in Hk. destruct Hk as [Hc Hk].
      specialize (IH Hw Hn2 Hk). unfold sums in IH |- *. cbn [map length].
      rewrite zsum_cons, Nat2Z.inj_succ. unfold wf_bin in Hwc.
      destruct (snd c) as [|x r]; [contradiction|].
      cbn [map] in Hwc. rewrite zsum_cons in Hwc.
      apply Forall_cons_iff in Hn1. destruct Hn1 as [_ Hr].
      assert (Hr0 : 0 <= zsum (map valueof r)).
      { apply zsum_nonneg. rewrite Forall_map. exact Hr. }
      lia.
  Qed.

  Lemma ratio_17_7_core C (items : list A) (b : bins A) (n : nat) :
    Inv valueof C b items -> bf2 valueof C b -> 0 <= C -> (1 <= n)%nat ->
    Forall (fun y => 0 <= valueof y) (contents b) -> Packable C (map valueof items) n ->
    (10 * length b <= 17 * n + 7)%nat.
  Proof.
    intros HI Hb2 HC Hn Hnn Hpack.
    destruct (cap_pos_or_single valueof C items b n HI HC Hnn Hpack) as [Hpos|H1]; [|lia].
    destruct HI as (Hw & Hf & Hp & Hnem & Hns & Ha).
    pose proof (Permutation_map valueof Hp) as Hpv.
    destruct b as [|c t]; [cbn [length]; lia|].
    assert (Hvs : Forall (fun a => 0 <= a) (map valueof items)).
    { eapply Permutation_Forall; [exact Hpv|]. rewrite Forall_map. exact Hnn. }
    pose proof (packable_wsum2 C _ n Hvs Hpack) as Hlight.
    rewrite <- (fsum_perm _ _ _ Hpv) in Hlight.
    pose proof (packable_total C _ n Hpack) as Htot.
    rewrite <- (zsum_perm _ _ Hpv), <- (wf_total valueof _ Hw) in Htot.
    unfold wf in Hw. apply Forall_cons_iff in Hw. destruct Hw as [Hwc Hw]. unfold wf_bin in Hwc.
    unfold feasible in Hf. apply Forall_cons_iff in Hf. destruct Hf as [Hfc _].
    unfold all_nonempty in Hnem. apply Forall_cons_iff in Hnem. destruct Hnem as [_ Hnem].
    apply anyfit_cons in Ha. destruct Ha as [Hl1 Ha].
    cbn [bf2] in Hb2. destruct Hb2 as [Hl2 Hb2].
    rewrite contents_cons in Hnn. apply Forall_app in Hnn. destruct Hnn as [Hn1 Hn2].
    rewrite contents_cons, map_app, fsum_app in Hlight.
    unfold sums in Htot. cbn [map] in Htot. rewrite zsum_cons in Htot. cbn [length].
    destruct (Z_le_dec (2 * C + 1) (12 * fst c)) as [Hs|Hs].
    - (* the weights *)
      assert (Htail : 10 * C * Z.of_nat (length t) <= cw C t + (10 * C - W C (C - fst c + 1))).
      { apply (heavy2 valueof C HC t); auto.
        apply (head2_ge_next1 valueof C 0 (fst c)); auto; [lia|]. apply head2_ge_all. exact Hn2. }
      assert (Hn1' : Forall (fun a => 0 <= a) (map valueof (snd c)))
        by (rewrite Forall_map; exact Hn1).
      assert (Hgain : 12 * C + 1 <= wsum2 C (map valueof (snd c)) + W C (C - fst c + 1)).
      { rewrite Hwc. apply first_bin_gain.
        - lia.
        - exact Hn1'.
        - rewrite <- Hwc. exact Hfc.
        - rewrite <- Hwc. exact Hs. }
      assert (Hle : cw C t <= cw2 C t) by (apply wsum_le_wsum2; lia).
      assert (Hz : 10 * C * Z.of_nat (S (length t)) + 1 <= 17 * C * Z.of_nat n + 8 * C).
      { rewrite Nat2Z.inj_succ. lia. }
      assert (Hz' : 10 * Z.of_nat (S (length t)) < 17 * Z.of_nat n + 8) by nia.
      lia.
    - (* the first bin is filled to at most C/6: the sizes *)
      assert (Hk : (C - fst c + 1) * Z.of_nat (length t) <= zsum (sums t)).
      { apply sums_ge_first; auto. eapply Forall_impl; [|exact Hl1].
        intros c0 Hc0. unfold later_ok in Hc0. destruct (snd c0) as [|x r]; [exact Hc0|lia]. }
      unfold sums in Hk.
      assert (Hz : 5 * Z.of_nat (length t) < 6 * Z.of_nat n) by nia.
      lia.
  Qed.

  Theorem ff_ratio_17_7_partial C (items : list A) (b : bins A) (n : nat) :
    items <> [] -> Forall (fun x : A => 0 <= valueof x) items ->
    first_fit valueof true C items = Ok b -> Packable C (map valueof items) n ->
    (10 * length b <= 17 * n + 7)%nat.
  Proof.
    intros Hne Hnn Hff Hpack.
    destruct (ff_facts valueof C items b n Hne Hnn Hff Hpack) as (HI & Hb2 & HC & Hn & Hnnb).
    apply (ratio_17_7_core C items b n); assumption.
  Qed.

  Theorem bf_ratio_17_7_partial C (items : list A) (b : bins A) (n : nat) :
    items <> [] -> Forall (fun x : A => 0 <= valueof x) items ->
    best_fit valueof true C items = Ok b -> Packable C (map valueof items) n ->
    (10 * length b <= 17 * n + 7)%nat.
  Proof.
    intros Hne Hnn Hbf Hpack.
    destruct (bf_facts valueof C items b n Hne Hnn Hbf Hpack) as (HI & Hb2 & HC & Hn & Hnnb).
    apply (ratio_17_7_core C items b n); assumption.
  Qed.
End Const7.

(** ---- 3. the amortised analysis of Dosa and Sgall when every bin is more than half full ---- *)

Lemma bonus_mono C a a' : 0 <= C -> a <= a' -> bonus C a <= bonus C a'.
Proof. intros HC H. pose proof (bonus_spec C a). pose proof (bonus_spec C a'). lia. Qed.

(** the largest possible deficit 10 C |t| - W2(t) of bins that are more than half full and whose
    items are all at least alpha, the last one without a value above C/2 being filled to at least
    l0: that bin is filled to at least max(l0, 2 alpha) and the first one holds two items of bonus
    at least bonus(alpha) *)
Definition PhiS (C l0 alpha : Z) : Z :=
  10 * C - Z.max (12 * l0) (24 * alpha) - 2 * bonus C alpha.

Lemma PhiS_mono C l0 a a' : 0 <= C -> a <= a' -> PhiS C l0 a' <= PhiS C l0 a.
Proof. intros HC H. unfold PhiS. pose proof (bonus_mono C a a' HC H). lia. Qed.

(** The step of the amortisation, for a bin of sum s = x1 + x2 + r without a value above C/2 whose
    first two items x1, x2 are at least alpha; the items of the bins after it exceed C - s. *)

(** no bin needs to follow: s >= l0, s >= 2 alpha and the two bonuses cancel the potential *)
Lemma PhiS_last C l0 alpha x1 x2 r : 0 <= C -> l0 <= x1 + x2 + r -> 0 <= r ->
  alpha <= x1 -> alpha <= x2 ->
  10 * C <= W2 C x1 + W2 C x2 + 12 * r + PhiS C l0 alpha.
Proof.
  intros HC Hl Hr H1 H2. unfold PhiS, W2.
  pose proof (bonus_mono C alpha x1 HC H1). pose proof (bonus_mono C alpha x2 HC H2). lia.
Qed.

(** At least 2/3 full: 12 s + 2 bonus (C - s + 1) >= 10 C.  Less, with l0 <= (2 C + 2) / 3: the
    later items exceed C/3, so the potential grows by 24 (C - s + 1) + 2 C - max (12 l0, 12 s). *)
Lemma PhiS_step C l0 alpha x1 x2 r : 0 <= C -> 0 <= r ->
  alpha <= x1 -> alpha <= x2 -> 2 * x1 <= C -> 2 * x2 <= C -> C < 2 * (x1 + x2 + r) ->
  2 * C <= 3 * (x1 + x2 + r) \/ 3 * l0 <= 2 * C + 2 ->
  10 * C + PhiS C l0 (Z.max alpha (C - (x1 + x2 + r) + 1)) <=
  W2 C x1 + W2 C x2 + 12 * r + PhiS C l0 alpha.
Proof.
  intros HC Hr H1 H2 Hx1 Hx2 Hs Hc. unfold PhiS, W2.
  pose proof (bonus_mono C alpha x1 HC H1). pose proof (bonus_mono C alpha x2 HC H2).
  pose proof (bonus_spec C (Z.max alpha (C - (x1 + x2 + r) + 1))). lia.
Qed.

Lemma wsum2_big C l : 0 <= C -> Forall (fun a => 0 <= a) l -> Exists (fun a => ~ 2 * a <= C) l ->
  12 * zsum l + 4 * C <= wsum2 C l.
Proof.
  intros HC Hnn H. induction H as [a l Ha|a l Hl IH].
  - apply Forall_cons_iff in Hnn. destruct Hnn as [Ha0 Hl0].
    rewrite fsum_cons, zsum_cons. pose proof (wsum2_ge_12 C l HC Hl0).
    pose proof (W2_spec C a) as HWa. lia.
  - apply Forall_cons_iff in Hnn. destruct Hnn as [Ha0 Hl0].
    rewrite fsum_cons, zsum_cons. specialize (IH Hl0).
    pose proof (W2_spec C a) as HWa. lia.
Qed.

Section Amortised.
  Context {A : Type} (valueof : A -> Z).

  Notation cw2 C b := (wsum2 C (map valueof (contents b))).

  Definition half_full (C : Z) (b : bins A) : Prop := Forall (fun bn : bin A => C < 2 * fst bn) b.
  (** every bin is filled to at least l0 *)
  Definition filled (l0 : Z) (b : bins A) : Prop := Forall (fun bn : bin A => l0 <= fst bn) b.

  Definition hasbig (C : Z) (c : bin A) : Prop := Exists (fun a => ~ 2 * a <= C) (map valueof (snd c)).
  Definition nobig (C : Z) (c : bin A) : Prop := Forall (fun a => 2 * a <= C) (map valueof (snd c)).

  (** some bin without a value above C/2 is filled to l0 and is followed only by bins holding a
      value above C/2 *)
  Inductive regular (C l0 : Z) : bins A -> Prop :=
  | reg_last c t : nobig C c -> l0 <= fst c -> Forall (hasbig C) t -> regular C l0 (c :: t)
  | reg_cons c t : regular C l0 t -> regular C l0 (c :: t).

  Lemma regular_app C l0 (t1 : bins A) t : regular C l0 t -> regular C l0 (t1 ++ t).
  Proof. intros H. induction t1 as [|c t1 IH]; [exact H|]. cbn [app]. apply reg_cons. exact IH. Qed.

  (** a list either holds only bins with a value above C/2, or has a last bin without one *)
  Lemma last_common_split C (b : bins A) :
    Forall (hasbig C) b \/
    exists t1 c t2, b = t1 ++ c :: t2 /\ nobig C c /\ Forall (hasbig C) t2.
  Proof.
    induction b as [|c t IH]; [left; constructor|].
    destruct IH as [Hall|(t1 & c0 & t2 & E & Hnb & Hall)].
    - destruct (Forall_Exists_dec (fun a => 2 * a <= C) (fun a => Z_le_dec (2 * a) C)
                  (map valueof (snd c))) as [Hnb|Hbig].
      + right. exists [], c, t. split; [reflexivity|]. split; [exact Hnb|exact Hall].
      + left. constructor; [exact Hbig|exact Hall].
    - right. exists (c :: t1), c0, t2. subst t. split; [reflexivity|]. split; assumption.
  Qed.

  (** the last bin without a value above C/2, if there is one, is at least 2/3 full *)
  Definition last_common_23 (C : Z) (b : bins A) : Prop :=
    forall t1 c t2, b = t1 ++ c :: t2 -> nobig C c -> Forall (hasbig C) t2 -> 2 * C <= 3 * fst c.

  Definition bigb (C : Z) (c : bin A) : bool := existsb (fun y => C <? 2 * valueof y) (snd c).

  Lemma bigb_true C c : bigb C c = true <-> hasbig C c.
  Proof.
    unfold bigb, hasbig. rewrite existsb_exists, Exists_exists. split.
    - intros (y & Hin & Hy). exists (valueof y). split; [apply in_map; exact Hin|lia].
    - intros (v & Hin & Hv). apply in_map_iff in Hin. destruct Hin as (y & E & Hin).
      exists y. split; [exact Hin|lia].
  Qed.

  Lemma bigb_false C c : bigb C c = false <-> nobig C c.
  Proof.
    unfold nobig. split.
    - intros E. rewrite Forall_forall. intros v Hin.
      destruct (Z_le_dec (2 * v) C) as [Hle|Hgt]; [exact Hle|]. exfalso.
      assert (Hb : bigb C c = true).
      { apply bigb_true. unfold hasbig. apply Exists_exists. exists v. split; assumption. }
      congruence.
    - intros H. destruct (bigb C c) eqn:E; [|reflexivity]. exfalso.
      apply bigb_true in E. unfold hasbig in E. apply Exists_exists in E.
      destruct E as (v & Hin & Hv). rewrite Forall_forall in H. apply Hv. apply H. exact Hin.
  Qed.

  (** the excess: a bin of sum s holding a value above C/2 weighs at least
      12 s + 4 C = 10 C + (12 s - 6 C) *)
  Fixpoint xs (C : Z) (b : bins A) : Z :=
    match b with
    | [] => 0
    | c :: t => (if bigb C c then 12 * fst c - 6 * C else 0) + xs C t
    end.

  Lemma xs_app C (b1 b2 : bins A) : xs C (b1 ++ b2) = xs C b1 + xs C b2.
  Proof. induction b1 as [|c t IH]; cbn [app xs]; [lia|]. rewrite IH. lia. Qed.

  Lemma xs_nonneg C (b : bins A) : half_full C b -> 0 <= xs C b.
  Proof.
    intros H. induction H as [|c t Hc Ht IH]; cbn [xs]; [lia|]. destruct (bigb C c); lia.
  Qed.

  (** a single bin with a value above C/2 contributes its excess *)
  Lemma xs_ge_in C (b : bins A) c : half_full C b -> In c b -> bigb C c = true ->
    12 * fst c - 6 * C <= xs C b.
  Proof.
    intros H Hin Hb. apply in_split in Hin. destruct Hin as (l1 & l2 & E). subst b.
    unfold half_full in H. apply Forall_app in H. destruct H as [H1 H2].
    apply Forall_cons_iff in H2. destruct H2 as [_ H2].
    rewrite xs_app. cbn [xs]. rewrite Hb.
    pose proof (xs_nonneg C l1 H1). pose proof (xs_nonneg C l2 H2). lia.
  Qed.

  (** The amortised analysis for any weight W with unit U (the weight that a bin should have),
      by the induction [coarse_ind] of FF17Proofs.v (cf. [heavy2] there):
      a bin holding a value above C/2 has k times its excess to spare ([Hbig]); the deficit of a
      bin without such a value is at most the potential [Phi] of the smallest size alpha of an
      item in the later bins, provided its sum satisfies [ok] ([Hstep]); the last one of these
      bins is filled to l0 at least ([Hlast]). *)
  Section HeavyGen.
    Variables (W : Z -> Z) (C U k l0 : Z) (Phi : Z -> Z) (ok : Z -> Prop).
    Hypothesis Hbig : forall l, Forall (fun a => 0 <= a) l -> Exists (fun a => ~ 2 * a <= C) l ->
      U + k * (12 * zsum l - 6 * C) <= fsum W l.
    Hypothesis Hge : forall l, Forall (fun a => 0 <= a) l -> 12 * k * zsum l <= fsum W l.
    Hypothesis Hmono : forall a a', a <= a' -> Phi a' <= Phi a.
    Hypothesis Hlast : forall alpha x1 x2 r, l0 <= x1 + x2 + r -> 0 <= r -> alpha <= x1 -> alpha <= x2 ->
      U <= W x1 + W x2 + 12 * k * r + Phi alpha.
    Hypothesis Hstep : forall alpha x1 x2 r, 0 <= r -> alpha <= x1 -> alpha <= x2 ->
      2 * x1 <= C -> 2 * x2 <= C -> C < 2 * (x1 + x2 + r) -> ok (x1 + x2 + r) ->
      U + Phi (Z.max alpha (C - (x1 + x2 + r) + 1)) <= W x1 + W x2 + 12 * k * r + Phi alpha.

    Notation cw b := (fsum W (map valueof (contents b))).

    Lemma heavy_gen_big (c : bin A) : wf_bin valueof c -> Forall (fun y => 0 <= valueof y) (snd c) ->
      hasbig C c -> U + k * (12 * fst c - 6 * C) <= fsum W (map valueof (snd c)).
    Proof.
      intros Hw Hnn Hb. unfold wf_bin in Hw. rewrite Hw. apply Hbig; [|exact Hb].
      rewrite Forall_map. exact Hnn.
    Qed.

    Lemma heavy_gen_allbig (t : bins A) : wf valueof t ->
      Forall (fun y => 0 <= valueof y) (contents t) -> Forall (hasbig C) t ->
      U * Z.of_nat (length t) + k * xs C t <= cw t.
    Proof.
      induction t as [|c t IH]; intros Hw Hnn Hb.
      - cbn [length Z.of_nat xs]. unfold contents, lists. cbn [map concat]. rewrite fsum_nil. lia.
      - apply Forall_cons_iff in Hb. destruct Hb as [Hc Hb].
        unfold wf in Hw. apply Forall_cons_iff in Hw. destruct Hw as [Hwc Hw].
        rewrite contents_cons in Hnn. apply Forall_app in Hnn. destruct Hnn as [Hn1 Hn2].
        specialize (IH Hw Hn2 Hb).
        rewrite contents_cons, map_app, fsum_app. cbn [length xs]. rewrite Nat2Z.inj_succ.
        pose proof (heavy_gen_big c Hwc Hn1 Hc) as H1.
        assert (Eb : bigb C c = true) by (apply bigb_true; exact Hc). rewrite Eb. lia.
    Qed.

    Lemma heavy_gen : forall (b : bins A) alpha,
      wf valueof b -> all_nonempty b -> anyfit valueof C b -> bf2 valueof C b ->
      Forall (fun y => 0 <= valueof y) (contents b) -> Forall (head2_ge valueof C alpha) b ->
      half_full C b -> Forall (fun c : bin A => nobig C c -> ok (fst c)) b -> regular C l0 b ->
      U * Z.of_nat (length b) + k * xs C b <= cw b + Phi alpha.
    Proof.
      apply (coarse_ind valueof C (fun alpha b => half_full C b ->
               Forall (fun c : bin A => nobig C c -> ok (fst c)) b -> regular C l0 b ->
               U * Z.of_nat (length b) + k * xs C b <= cw b + Phi alpha)).
      - intros alpha _ _ Hreg. inversion Hreg.
      - intros alpha bn t Hwb Hbn Hnn1 Hge1 _ Hw Hnn2 IH Hhf Hok Hreg.
        unfold half_full in Hhf. apply Forall_cons_iff in Hhf. destruct Hhf as [Hh1 Hhf].
        apply Forall_cons_iff in Hok. destruct Hok as [Hok1 Hok]. specialize (IH Hhf Hok).
        rewrite contents_cons, !map_app, !fsum_app. cbn [length xs]. rewrite Nat2Z.inj_succ.
        set (alpha' := Z.max alpha (C - fst bn + 1)) in *.
        assert (Hm : Phi alpha' <= Phi alpha) by (apply Hmono; unfold alpha'; lia).
        (* the bins after this one: either all hold a value above C/2, or the induction hypothesis *)
        assert (Htail : (l0 <= fst bn /\ nobig C bn /\
                         U * Z.of_nat (length t) + k * xs C t <= cw t) \/
                        U * Z.of_nat (length t) + k * xs C t <= cw t + Phi alpha').
        { inversion Hreg as [c t0 Hnb Hlv Hallbig E1|c t0 Hreg' E1]; subst.
          - left. split; [exact Hlv|]. split; [exact Hnb|]. apply heavy_gen_allbig; auto.
          - right. exact (IH Hreg'). }
        destruct (bigb C bn) eqn:Eb.
        + (* a value above C/2: not the last common bin *)
          apply bigb_true in Eb. pose proof (heavy_gen_big bn Hwb Hnn1 Eb) as Hw10.
          destruct Htail as [(_ & Hnb & _)|Ht].
          * exfalso. apply bigb_false in Hnb. apply bigb_true in Eb. congruence.
          * lia.
        + apply bigb_false in Eb. specialize (Hok1 Eb).
          destruct (common_two valueof C alpha bn Hwb Hbn Hnn1 Hge1 Eb)
            as [(_ & _ & Hs)|(x1 & x2 & rest & Em & Es & Ha1 & Ha2 & _ & _ & Hx1 & Hx2 & Hr & _)];
            [lia|].
          rewrite Em, !fsum_cons.
          pose proof (zsum_nonneg _ Hr) as Hr0. pose proof (Hge rest Hr) as Hr12.
          destruct Htail as [(Hlv & _ & Ht)|Ht].
          * pose proof (Hlast alpha x1 x2 (zsum rest) ltac:(lia) Hr0 Ha1 Ha2). lia.
          * pose proof (Hstep alpha x1 x2 (zsum rest) Hr0 Ha1 Ha2 Hx1 Hx2 ltac:(lia)
                          ltac:(rewrite <- Es; exact Hok1)) as Hs.
            rewrite <- Es in Hs. fold alpha' in Hs. lia.
    Qed.
  End HeavyGen.

  (** with the weights W2: every bin without a value above C/2 is 2/3 full, unless l0 is at
      most 2/3 of C *)
  Definition okX (C l0 : Z) (b : bins A) : Prop :=
    Forall (fun c : bin A => nobig C c -> 2 * C <= 3 * fst c \/ 3 * l0 <= 2 * C + 2) b.

  Lemma wsum2_excess C l : 0 <= C -> Forall (fun a => 0 <= a) l -> Exists (fun a => ~ 2 * a <= C) l ->
    10 * C + 1 * (12 * zsum l - 6 * C) <= wsum2 C l.
  Proof. intros HC Hl Hb. pose proof (wsum2_big C l HC Hl Hb). lia. Qed.

  Lemma heavyRX C l0 : 0 <= C -> forall (b : bins A) alpha,
    wf valueof b -> all_nonempty b -> anyfit valueof C b -> bf2 valueof C b -> half_full C b ->
    okX C l0 b -> regular C l0 b ->
    Forall (fun y => 0 <= valueof y) (contents b) ->
    Forall (head2_ge valueof C alpha) b ->
    10 * C * Z.of_nat (length b) + xs C b <= cw2 C b + PhiS C l0 alpha.
  Proof.
    intros HC b alpha Hw Hne Haf Hb2 Hhf Hok Hreg Hnn Hge.
    assert (H : 10 * C * Z.of_nat (length b) + 1 * xs C b <= cw2 C b + PhiS C l0 alpha); [|lia].
    apply (heavy_gen (W2 C) C (10 * C) 1 l0 (PhiS C l0)
             (fun s => 2 * C <= 3 * s \/ 3 * l0 <= 2 * C + 2)); auto.
    - intros l. apply wsum2_excess. exact HC.
    - intros l Hl. pose proof (wsum2_ge_12 C l HC Hl). lia.
    - intros a a'. apply PhiS_mono. exact HC.
    - intros a x1 x2 r Hl Hr H1 H2. pose proof (PhiS_last C l0 a x1 x2 r HC Hl Hr H1 H2). lia.
    - intros a x1 x2 r Hr H1 H2 Hx1 Hx2 Hs Hc.
      pose proof (PhiS_step C l0 a x1 x2 r HC Hr H1 H2 Hx1 Hx2 Hs Hc). lia.
  Qed.

  (** ... for all the bins: the last bin without a value above C/2, if there is one, is filled to
      l0; the deficit is max(0, 10 C - 12 l0) *)
  Lemma heavyX_all C l0 (b : bins A) : 0 <= C -> 0 <= l0 ->
    wf valueof b -> all_nonempty b -> anyfit valueof C b -> bf2 valueof C b -> half_full C b ->
    okX C l0 b -> Forall (fun y => 0 <= valueof y) (contents b) ->
    (forall t1 c t2, b = t1 ++ c :: t2 -> nobig C c -> Forall (hasbig C) t2 -> l0 <= fst c) ->
    10 * C * Z.of_nat (length b) + xs C b <= cw2 C b + Z.max 0 (10 * C - 12 * l0).
  Proof.
    intros HC Hl0 Hw Hne Haf Hb2 Hhf Hok Hnn Hlc.
    destruct (last_common_split C b) as [Hall|(t1 & c & t2 & E & Hnb & Hall)].
    - pose proof (heavy_gen_allbig (W2 C) C (10 * C) 1 (fun l => wsum2_excess C l HC) b Hw Hnn Hall).
      lia.
    - assert (Hreg : regular C l0 b).
      { rewrite E. apply regular_app. apply reg_last; auto. exact (Hlc t1 c t2 E Hnb Hall). }
      pose proof (heavyRX C l0 HC b 0 Hw Hne Haf Hb2 Hhf Hok Hreg Hnn
                    (head2_ge_all valueof C 0 b Hnn)) as H.
      unfold PhiS in H. pose proof (bonus_spec C 0). lia.
  Qed.
End Amortised.

(** ---- 4. the weight of a packing, counting the values above C/2 ---- *)

(** W2 minus 2 C for every value above C/2: at most 15 C on a feasible bin *)
Definition W2b (C a : Z) : Z := W2 C a - 2 * C * bigw C a.

Lemma fsum_W2b C l : fsum (W2b C) l = wsum2 C l - 2 * C * fsum (bigw C) l.
Proof.
  induction l as [|a l IH]; [rewrite !fsum_nil; lia|].
  rewrite !fsum_cons, IH. unfold W2b. lia.
Qed.

Lemma fsum_bigw_nonneg C l : 0 <= fsum (bigw C) l.
Proof. apply fsum_nonneg. intros z. pose proof (bigw_range C z). lia. Qed.

Lemma fsum_bigw_pos C l : Exists (fun a => ~ 2 * a <= C) l -> 1 <= fsum (bigw C) l.
Proof.
  intros H. induction H as [a l Ha|a l Hl IH]; rewrite fsum_cons.
  - pose proof (fsum_bigw_nonneg C l).
    assert (E1 : bigw C a = 1) by (unfold bigw; destruct (C <? 2 * a) eqn:E; lia). lia.
  - pose proof (bigw_range C a). lia.
Qed.

Lemma light_bin2b C l : 0 <= C -> Forall (fun a => 0 <= a) l -> zsum l <= C ->
  fsum (W2b C) l <= 15 * C.
Proof.
  intros HC Hnn HS. rewrite fsum_W2b.
  destruct (Forall_Exists_dec (fun a => 2 * a <= C) (fun a => Z_le_dec (2 * a) C) l) as [Hnb|Hbig].
  - pose proof (wsum2_le_15 C l Hnn Hnb). pose proof (fsum_bigw_nonneg C l) as Hb.
    assert (0 <= 2 * C * fsum (bigw C) l) by (apply Z.mul_nonneg_nonneg; lia). lia.
  - pose proof (light_bin2 C l Hnn HS). pose proof (fsum_bigw_pos C l Hbig) as Hb.
    assert (2 * C * 1 <= 2 * C * fsum (bigw C) l) by (apply Z.mul_le_mono_nonneg_l; lia). lia.
Qed.

(** total weight at most 15 C n + 2 C (number of values above C/2) *)
Lemma packable_wsum2b C vs n : 0 <= C -> Forall (fun a => 0 <= a) vs -> Packable C vs n ->
  wsum2 C vs <= 15 * C * Z.of_nat n + 2 * C * fsum (bigw C) vs.
Proof.
  intros HC Hnn Hp.
  assert (H : fsum (W2b C) vs <= 15 * C * Z.of_nat n).
  { apply (packable_fsum (W2b C) C); auto. intros g Hg Hs. apply light_bin2b; auto. }
  rewrite fsum_W2b in H. lia.
Qed.

(** ---- 5. first-fit when every bin is more than half full: the additive constant 3/10 ---- *)
Section HalfFull.
  Context {A : Type} (valueof : A -> Z).

  (** the sum of [bigw] is the number of values above C/2.  The additive term is
      max(0, 10 - 12 l0 / C) (0 when every bin is filled to 5/6, 2 when filled to 2/3) *)
  Lemma filled_core C l0 (items : list A) (b : bins A) (n : nat) :
    Inv valueof C b items -> bf2 valueof C b -> Forall (fun y => 0 <= valueof y) (contents b) ->
    Packable C (map valueof items) n -> 0 < C -> C < 2 * l0 -> filled l0 b ->
    10 * C * Z.of_nat (length b) <=
      15 * C * Z.of_nat n + 2 * C * fsum (bigw C) (map valueof items) + Z.max 0 (10 * C - 12 * l0).
  Proof.
    intros (Hw & _ & Hp & Hnem & _ & Ha) Hb2 Hnnb Hpack HC Hl0 Hfl.
    pose proof (Permutation_map valueof Hp) as Hpv.
    assert (HC0 : 0 <= C) by lia.
    assert (Hhf : half_full C b).
    { eapply Forall_impl; [|exact Hfl]. intros bn Hbn. cbv beta in Hbn. lia. }
    assert (Hok : okX valueof C l0 b).
    { eapply Forall_impl; [|exact Hfl]. intros bn Hbn _. cbv beta in Hbn. lia. }
    assert (Hlc : forall t1 c t2, b = t1 ++ c :: t2 -> nobig valueof C c ->
                    Forall (hasbig valueof C) t2 -> l0 <= fst c).
    { intros t1 c t2 E _ _. subst b. exact (Forall_elt _ _ _ Hfl). }
    pose proof (heavyX_all valueof C l0 b HC0 ltac:(lia) Hw Hnem Ha Hb2 Hhf Hok Hnnb Hlc) as Hheavy.
    pose proof (xs_nonneg valueof C b Hhf) as Hxs.
    assert (Hvs : Forall (fun a => 0 <= a) (map valueof items)).
    { eapply Permutation_Forall; [exact Hpv|]. rewrite Forall_map. exact Hnnb. }
    pose proof (packable_wsum2b C _ n HC0 Hvs Hpack) as Hlight.
    rewrite (fsum_perm (W2 C) _ _ Hpv) in Hheavy. lia.
  Qed.

  (** every bin more than half full, i.e. filled to l0 = C/2 + 1: the additive term is below 4 *)
  Lemma half_full_core C (items : list A) (b : bins A) (n : nat) :
    Inv valueof C b items -> bf2 valueof C b -> 0 <= C -> (1 <= n)%nat ->
    Forall (fun y => 0 <= valueof y) (contents b) -> Packable C (map valueof items) n ->
    half_full C b ->
    10 * Z.of_nat (length b) <= 15 * Z.of_nat n + 2 * fsum (bigw C) (map valueof items) + 3.
  Proof.
    intros HI Hb2 HC0 Hn Hnnb Hpack Hhf.
    pose proof (fsum_bigw_nonneg C (map valueof items)) as Hb0.
    destruct (cap_pos_or_single valueof C items b n HI HC0 Hnnb Hpack) as [HC|H1]; [|lia].
    pose proof (Z.div_mod C 2) as Hdm. pose proof (Z.mod_pos_bound C 2) as Hmb.
    assert (Hh : C - 1 <= 2 * (C / 2) <= C) by lia.
    clear Hdm Hmb. set (h := C / 2) in *.
    assert (Hfl : filled (h + 1) b).
    { unfold filled. eapply Forall_impl; [|exact Hhf]. intros bn Hbn. cbv beta in Hbn. lia. }
    pose proof (filled_core C (h + 1) items b n HI Hb2 Hnnb Hpack HC ltac:(lia) Hfl) as H.
    apply Z.lt_succ_r, (Z.mul_lt_mono_pos_l C); lia.
  Qed.

  Theorem ff_half_full_partial C (items : list A) (b : bins A) (n : nat) :
    items <> [] -> Forall (fun x : A => 0 <= valueof x) items ->
    first_fit valueof true C items = Ok b -> Packable C (map valueof items) n ->
    half_full C b ->
    10 * Z.of_nat (length b) <=
      15 * Z.of_nat n + 2 * fsum (bigw C) (map valueof items) + 3.
  Proof.
    intros Hne Hnn Hff Hpack Hhf.
    destruct (ff_facts valueof C items b n Hne Hnn Hff Hpack) as (HI & Hb2 & HC & Hn & Hnnb).
    apply (half_full_core C items b n); assumption.
  Qed.

  Theorem bf_half_full_partial C (items : list A) (b : bins A) (n : nat) :
    items <> [] -> Forall (fun x : A => 0 <= valueof x) items ->
    best_fit valueof true C items = Ok b -> Packable C (map valueof items) n ->
    half_full C b ->
    10 * Z.of_nat (length b) <=
      15 * Z.of_nat n + 2 * fsum (bigw C) (map valueof items) + 3.
  Proof.
    intros Hne Hnn Hbf Hpack Hhf.
    destruct (bf_facts valueof C items b n Hne Hnn Hbf Hpack) as (HI & Hb2 & HC & Hn & Hnnb).
    apply (half_full_core C items b n); assumption.
  Qed.

  (** every bin filled to at least l0 > C/2 *)
  Theorem ff_filled_partial C l0 (items : list A) (b : bins A) (n : nat) :
    items <> [] -> Forall (fun x : A => 0 <= valueof x) items ->
    first_fit valueof true C items = Ok b -> Packable C (map valueof items) n ->
    0 < C -> C < 2 * l0 -> filled l0 b ->
    10 * C * Z.of_nat (length b) <=
      15 * C * Z.of_nat n + 2 * C * fsum (bigw C) (map valueof items) + Z.max 0 (10 * C - 12 * l0).
  Proof.
    intros Hne Hnn Hff Hpack HC Hl0 Hfl.
    destruct (ff_facts valueof C items b n Hne Hnn Hff Hpack) as (HI & Hb2 & _ & _ & Hnnb).
    apply (filled_core C l0 items b n); assumption.
  Qed.

  Theorem bf_filled_partial C l0 (items : list A) (b : bins A) (n : nat) :
    items <> [] -> Forall (fun x : A => 0 <= valueof x) items ->
    best_fit valueof true C items = Ok b -> Packable C (map valueof items) n ->
    0 < C -> C < 2 * l0 -> filled l0 b ->
    10 * C * Z.of_nat (length b) <=
      15 * C * Z.of_nat n + 2 * C * fsum (bigw C) (map valueof items) + Z.max 0 (10 * C - 12 * l0).
  Proof.
    intros Hne Hnn Hbf Hpack HC Hl0 Hfl.
    destruct (bf_facts valueof C items b n Hne Hnn Hbf Hpack) as (HI & Hb2 & _ & _ & Hnnb).
    apply (filled_core C l0 items b n); assumption.
  Qed.

  (** in particular: all bins filled to 5/6 give the sharp bound, all bins filled to 2/3 give
      17 n + 2, and the sharp bound again when fewer than n values exceed C/2 *)
  Corollary filled_56_sharp C l0 (m n : nat) beta :
    0 < C -> 5 * C <= 6 * l0 -> beta <= Z.of_nat n ->
    10 * C * Z.of_nat m <= 15 * C * Z.of_nat n + 2 * C * beta + Z.max 0 (10 * C - 12 * l0) ->
    (10 * m <= 17 * n)%nat.
  Proof. intros HC Hl Hb H. assert (10 * Z.of_nat m <= 17 * Z.of_nat n) by nia. lia. Qed.

  Corollary filled_23 C l0 (m n : nat) beta :
    0 < C -> 2 * C <= 3 * l0 -> beta <= Z.of_nat n ->
    10 * C * Z.of_nat m <= 15 * C * Z.of_nat n + 2 * C * beta + Z.max 0 (10 * C - 12 * l0) ->
    (10 * m <= 17 * n + 2)%nat /\ (beta < Z.of_nat n -> (10 * m <= 17 * n)%nat).
  Proof.
    intros HC Hl Hb H. split.
    - assert (10 * Z.of_nat m <= 17 * Z.of_nat n + 2) by nia. lia.
    - intros Hlt. assert (10 * Z.of_nat m <= 17 * Z.of_nat n) by nia. lia.
  Qed.
End HalfFull.

(** ---- 6. the regular case of Dosa and Sgall: additive constant 1/10 ----
    All bins more than half full, and the LAST bin without a value above C/2 (the last "common"
    bin) filled to at least l0 = (2C+2)/3: a common bin that is less than 2/3 full is paid for by
    the bins after it (their items exceed C/3).  A bin with a value above C/2 has an excess of
    at least 6, which makes the final inequality strict. *)
Lemma bigc_nobig C l : Forall (fun a => 2 * a <= C) l -> fsum (bigw C) l = 0.
Proof.
  intros H. induction H as [|a l Ha Hl IH]; [reflexivity|].
  rewrite fsum_cons, IH.
  assert (E : bigw C a = 0) by (unfold bigw; destruct (C <? 2 * a) eqn:E; lia). lia.
Qed.

Section Regular.
  Context {A : Type} (valueof : A -> Z).

  Notation bigc C b := (fsum (bigw C) (map valueof (contents b))).

  Lemma xs_pos C (b : bins A) : half_full C b -> 1 <= bigc C b -> 6 <= xs valueof C b.
  Proof.
    intros H. induction H as [|c t Hc Ht IH]; intros Hb.
    - unfold contents, lists in Hb. cbn [map concat] in Hb. rewrite fsum_nil in Hb. lia.
    - rewrite contents_cons, map_app, fsum_app in Hb. cbn [xs].
      pose proof (xs_nonneg valueof C t Ht). destruct (bigb valueof C c) eqn:Eb; [lia|].
      apply bigb_false in Eb. rewrite (bigc_nobig C _ Eb) in Hb. specialize (IH Hb). lia.
  Qed.

  Lemma regular_core C (b : bins A) (vs : list Z) (n : nat) :
    0 < C -> (1 <= n)%nat -> wf valueof b -> all_nonempty b -> anyfit valueof C b ->
    bf2 valueof C b -> Forall (fun y => 0 <= valueof y) (contents b) ->
    Permutation (map valueof (contents b)) vs -> Packable C vs n ->
    half_full C b -> last_common_23 valueof C b ->
    (10 * length b <= 17 * n + 1)%nat.
  Proof.
    intros HC Hn Hw Hnem Ha Hb2 Hnnb Hpv Hpack Hhf Hlc.
    assert (HC0 : 0 <= C) by lia.
    assert (Hvs : Forall (fun a => 0 <= a) vs).
    { eapply Permutation_Forall; [exact Hpv|]. rewrite Forall_map. exact Hnnb. }
    pose proof (packable_wsum2b C _ n HC0 Hvs Hpack) as Hlight.
    pose proof (packable_big C vs n HC0 Hvs Hpack) as Hbig.
    change (zsum (map (bigw C) vs)) with (fsum (bigw C) vs) in Hbig.
    pose proof (fsum_bigw_nonneg C vs) as Hb0.
    rewrite <- (fsum_perm (bigw C) _ _ Hpv) in Hbig, Hb0, Hlight.
    rewrite <- (fsum_perm (W2 C) _ _ Hpv) in Hlight.
    set (beta := fsum (bigw C) (map valueof (contents b))) in *.
    pose proof (Z.div_mod (2 * C + 2) 3) as Hdm. pose proof (Z.mod_pos_bound (2 * C + 2) 3) as Hmb.
    assert (Hl : 2 * C <= 3 * ((2 * C + 2) / 3) <= 2 * C + 2) by lia.
    clear Hdm Hmb. set (l0 := (2 * C + 2) / 3) in *.
    assert (Hok : okX valueof C l0 b).
    { unfold okX. rewrite Forall_forall. intros c _ _. right. lia. }
    assert (Hlc' : forall t1 c t2, b = t1 ++ c :: t2 -> nobig valueof C c ->
                     Forall (hasbig valueof C) t2 -> l0 <= fst c).
    { intros t1 c t2 E Hnb Hall. specialize (Hlc t1 c t2 E Hnb Hall). lia. }
    pose proof (heavyX_all valueof C l0 b HC0 ltac:(lia) Hw Hnem Ha Hb2 Hhf Hok Hnnb Hlc') as Hheavy.
    pose proof (xs_nonneg valueof C b Hhf) as Hxs0.
    assert (Hz : 10 * Z.of_nat (length b) < 17 * Z.of_nat n + 2).
    { destruct (Z.eq_dec beta 0) as [E0|E0]; [nia|].
      pose proof (xs_pos C b Hhf ltac:(fold beta; lia)). nia. }
    lia.
  Qed.
End Regular.

(** ---- 7. a bin that is at most half full, other than a single item a with C/3 < a <= C/2 ----
    Let L be such a bin, of sum s.  Every other bin is filled above C - s.
    - s <= C/3: the sizes give 2 m <= 3 n + 1.
    - s > C/3 and L holds at least two items: one of the first two is at most s/2, so the earlier
      bins are filled above C - s/2; the later bins are single items above C - s >= C/2, at most n
      of them; the sizes give 3 m <= 5 n + 1. *)

(** k bins filled above C - s and a bin of sum s <= C/3 in n bins *)
Lemma low_third C s k n : 0 < C -> 0 <= s -> 3 * s <= C -> 0 <= k -> 1 <= n ->
  (C - s + 1) * k + s <= n * C -> 2 * k + 1 <= 3 * n.
Proof.
  intros HC Hs H3 Hk Hn H.
  assert (H1 : (2 * C + 3) * k <= 3 * (C - s + 1) * k) by (apply Z.mul_le_mono_nonneg_r; lia).
  destruct (Z_le_dec (2 * k + 1) (3 * n)) as [Hz|Hz]; [exact Hz|exfalso].
  assert (H2 : C * (3 * n) <= C * (2 * k)) by (apply Z.mul_le_mono_nonneg_l; lia).
  lia.
Qed.

(** p bins filled above C - y with 2 y <= s, q <= n bins filled above C - s, and a bin of sum
    s <= C/2, in n bins: four times the sizes give 3 p + 2 q + 3 <= 4 n unless p + 2 q < 2 *)
Lemma low_half C s y p q n S1 S2 : 0 < C -> 2 * s <= C -> 2 * y <= s -> 0 <= p -> 0 <= q -> q <= n ->
  p + q + 1 < 2 * n ->
  (C - y + 1) * p <= S1 -> (C - s + 1) * q <= S2 -> S1 + (s + S2) <= n * C ->
  10 * (p + q + 1) <= 17 * n.
Proof.
  intros HC Hs Hy Hp Hq Hqn Hlt H1 H2 Htot.
  destruct (Z_le_dec 2 (p + 2 * q)) as [Hpq|Hpq]; [|lia].
  assert (Hyp : 2 * y * p <= s * p) by (apply Z.mul_le_mono_nonneg_r; lia).
  assert (HD : 2 * s * (p + 2 * q - 2) <= C * (p + 2 * q - 2)) by (apply Z.mul_le_mono_nonneg_r; lia).
  assert (H4 : C * (3 * p + 2 * q + 2) + 4 * (p + q) <= C * (4 * n)) by lia.
  destruct (Z_le_dec (3 * p + 2 * q + 3) (4 * n)) as [H5|H5]; [lia|exfalso].
  assert (H6 : C * (4 * n) <= C * (3 * p + 2 * q + 2)) by (apply Z.mul_le_mono_nonneg_l; lia).
  lia.
Qed.

Section LowBin.
  Context {A : Type} (valueof : A -> Z).

  Lemma sums_cons (c : bin A) (t : bins A) : sums (c :: t) = fst c :: sums t.
  Proof. reflexivity. Qed.

  Lemma bf2_at C (l1 : bins A) bn l2 : bf2 valueof C (l1 ++ bn :: l2) ->
    Forall (fun c => later2_ok valueof C (fst c) bn) l1.
  Proof.
    induction l1 as [|a l1 IH]; cbn [app]; [intros _; constructor|].
    cbn [bf2]. intros [H1 H2]. constructor; [|apply IH; exact H2].
    apply Forall_app in H1. destruct H1 as [_ H1]. apply Forall_cons_iff in H1.
    destruct H1 as [H1 _]. exact H1.
  Qed.

  Lemma bin_view C (b : bins A) L : In L b ->
    wf valueof b -> all_nonempty b -> Forall (fun y => 0 <= valueof y) (contents b) ->
    anyfit valueof C b ->
    exists l1 l2, b = l1 ++ L :: l2 /\
      (wf valueof l1 /\ all_nonempty l1 /\ Forall (fun y => 0 <= valueof y) (contents l1) /\
       Forall (fun c => later_ok valueof C (fst c) L) l1) /\
      (wf_bin valueof L /\ snd L <> [] /\ Forall (fun y => 0 <= valueof y) (snd L)) /\
      (wf valueof l2 /\ all_nonempty l2 /\ Forall (fun y => 0 <= valueof y) (contents l2) /\
       Forall (later_ok valueof C (fst L)) l2).
  Proof.
    intros Hin Hw Hne Hnn Ha. apply in_split in Hin. destruct Hin as (l1 & l2 & E). subst b.
    exists l1, l2. split; [reflexivity|].
    unfold wf in Hw. apply Forall_app in Hw. destruct Hw as [Hw1 Hw].
    apply Forall_cons_iff in Hw. destruct Hw as [HwL Hw2].
    unfold all_nonempty in Hne. apply Forall_app in Hne. destruct Hne as [Hne1 Hne].
    apply Forall_cons_iff in Hne. destruct Hne as [HneL Hne2].
    rewrite contents_app, contents_cons in Hnn.
    apply Forall_app in Hnn. destruct Hnn as [Hnn1 Hnn].
    apply Forall_app in Hnn. destruct Hnn as [HnnL Hnn2].
    pose proof (anyfit_at valueof C l1 L l2 Ha) as Hpre.
    apply anyfit_app_r, anyfit_cons in Ha. destruct Ha as [Hsuf _].
    repeat split; assumption.
  Qed.

  (** bins whose first item exceeds C/2 hold that many values above C/2 *)
  Lemma first_big_count C (t : bins A) :
    Forall (fun c : bin A => match snd c with x :: _ => C < 2 * valueof x | [] => False end) t ->
    Z.of_nat (length t) <= fsum (bigw C) (map valueof (contents t)).
  Proof.
    intros H. induction H as [|c t Hc Ht IH].
    - cbn [length Z.of_nat]. unfold contents, lists. cbn [map concat]. rewrite fsum_nil. lia.
    - rewrite contents_cons, map_app, fsum_app. cbn [length]. rewrite Nat2Z.inj_succ.
      destruct (snd c) as [|x r]; [contradiction|]. cbn [map]. rewrite fsum_cons.
      pose proof (fsum_bigw_nonneg C (map valueof r)).
      assert (E1 : bigw C (valueof x) = 1) by (unfold bigw; destruct (C <? 2 * valueof x) eqn:E; lia).
      lia.
  Qed.

  Lemma first_le_sum (c : bin A) x r : wf_bin valueof c -> snd c = x :: r ->
    Forall (fun y => 0 <= valueof y) (snd c) -> valueof x <= fst c.
  Proof.
    intros Hw E Hnn. unfold wf_bin in Hw. rewrite E in Hw, Hnn. cbn [map] in Hw.
    rewrite zsum_cons in Hw. apply Forall_cons_iff in Hnn. destruct Hnn as [_ Hr].
    assert (0 <= zsum (map valueof r)) by (apply zsum_nonneg; rewrite Forall_map; exact Hr). lia.
  Qed.

  Lemma low_bin_core C (b : bins A) (vs : list Z) (n : nat) :
    0 < C -> (1 <= n)%nat ->
    wf valueof b -> all_nonempty b -> nonneg_sums b -> anyfit valueof C b -> bf2 valueof C b ->
    Forall (fun y => 0 <= valueof y) (contents b) ->
    Permutation (map valueof (contents b)) vs -> Packable C vs n ->
    ~ half_full C b ->
    (forall bn a, In bn b -> snd bn = [a] -> ~ (C < 3 * valueof a /\ 2 * valueof a <= C)) ->
    (10 * length b <= 17 * n)%nat.
  Proof.
    intros HC Hn Hw Hnem Hns Ha Hb2 Hnnb Hpv Hpack Hnhf Hno1.
    assert (HC0 : 0 <= C) by lia.
    pose proof (anyfit_lt_2n_perm valueof C b vs n Ha Hw Hnnb Hpv Hpack) as Hlt.
    assert (Hvs : Forall (fun a => 0 <= a) vs).
    { eapply Permutation_Forall; [exact Hpv|]. rewrite Forall_map. exact Hnnb. }
    pose proof (packable_total C vs n Hpack) as Htot.
    rewrite <- (zsum_perm _ _ Hpv), <- (wf_total valueof _ Hw) in Htot.
    pose proof (packable_big C vs n HC0 Hvs Hpack) as Hbig.
    change (zsum (map (bigw C) vs)) with (fsum (bigw C) vs) in Hbig.
    rewrite <- (fsum_perm _ _ _ Hpv) in Hbig.
    (* the bin L *)
    assert (Hex : Exists (fun bn : bin A => ~ C < 2 * fst bn) b).
    { destruct (Forall_Exists_dec (fun bn : bin A => C < 2 * fst bn)
                  (fun bn => Z_lt_dec C (2 * fst bn)) b) as [Hall|Hex]; [|exact Hex].
      exfalso. apply Hnhf. exact Hall. }
    apply Exists_exists in Hex. destruct Hex as (L & HinL & HsL).
    assert (HnsL : 0 <= fst L) by (unfold nonneg_sums in Hns; rewrite Forall_forall in Hns; auto).
    destruct (bin_view C b L HinL Hw Hnem Hnnb Ha)
      as (l1 & l2 & E & (_ & _ & _ & Hpre1) & (HwL & HneL & HnnL) & (Hw2 & _ & Hnn2 & Hsuf)).
    subst b. pose proof (bf2_at C l1 L l2 Hb2) as Hpre2.
    rewrite contents_app, contents_cons, !map_app, !fsum_app in Hbig.
    rewrite sums_app, sums_cons, zsum_app, zsum_cons in Htot.
    rewrite app_length. cbn [length]. rewrite app_length in Hlt. cbn [length] in Hlt.
    set (s := fst L) in *.
    (* the later bins *)
    assert (Hk2 : (C - s + 1) * Z.of_nat (length l2) <= zsum (sums l2)).
    { apply (sums_ge_first valueof); auto. eapply Forall_impl; [|exact Hsuf].
      intros c Hc. unfold later_ok in Hc. destruct (snd c) as [|x r]; [exact Hc|lia]. }
    pose proof (fsum_bigw_nonneg C (map valueof (contents l1))) as Hb1.
    pose proof (fsum_bigw_nonneg C (map valueof (snd L))) as HbL.
    destruct (snd L) as [|x1 r] eqn:EL; [congruence|].
    pose proof (first_le_sum L x1 r HwL EL) as Hx1. rewrite EL in Hx1. specialize (Hx1 HnnL).
    destruct (Z_le_dec (3 * s) C) as [H3|H3].
    - assert (Hk1 : Z.of_nat (length l1) * (C - s + 1) <= zsum (sums l1)).
      { apply sums_ge_bound. eapply Forall_impl; [|exact Hpre1].
        intros c Hc. unfold later_ok in Hc. rewrite EL in Hc. lia. }
      pose proof (low_third C s (Z.of_nat (length l1) + Z.of_nat (length l2)) (Z.of_nat n)
                    HC HnsL H3 ltac:(lia) ltac:(lia) ltac:(lia)) as Hz.
      lia.
    - unfold wf_bin in HwL. rewrite EL in HwL. cbn [map] in HwL. rewrite zsum_cons in HwL.
      destruct r as [|x2 r].
      { exfalso. apply (Hno1 L x1 HinL EL). cbn [map] in HwL. rewrite zsum_nil in HwL.
        unfold s in *. lia. }
      cbn [map] in HwL. rewrite zsum_cons in HwL.
      apply Forall_cons_iff in HnnL. destruct HnnL as [Hv1 HnnL].
      apply Forall_cons_iff in HnnL. destruct HnnL as [Hv2 Hr].
      assert (Hr0 : 0 <= zsum (map valueof r)) by (apply zsum_nonneg; rewrite Forall_map; exact Hr).
      (* the smaller of the first two items fits into no earlier bin *)
      set (y := Z.min (valueof x1) (valueof x2)).
      assert (Hk1 : (C - y + 1) * Z.of_nat (length l1) <= zsum (sums l1)).
      { rewrite Z.mul_comm. apply sums_ge_bound. rewrite Forall_forall in *. intros c Hc.
        specialize (Hpre1 c Hc). specialize (Hpre2 c Hc).
        unfold later_ok in Hpre1. unfold later2_ok in Hpre2. rewrite EL in Hpre1, Hpre2.
        unfold y. lia. }
      (* every later bin holds a value above C - s >= C/2 *)
      assert (Hq : Z.of_nat (length l2) <= fsum (bigw C) (map valueof (contents l2))).
      { apply first_big_count. eapply Forall_impl; [|exact Hsuf].
        intros c Hc. unfold later_ok in Hc. destruct (snd c) as [|x r0]; [exact Hc|lia]. }
      pose proof (low_half C s y (Z.of_nat (length l1)) (Z.of_nat (length l2)) (Z.of_nat n) _ _
                    HC ltac:(lia) ltac:(unfold y, s in *; lia) ltac:(lia) ltac:(lia) ltac:(lia)
                    ltac:(lia) Hk1 Hk2 Htot) as Hz.
      lia.
  Qed.
End LowBin.

(** ---- 8. rung 3, except for a bin {a} with C/3 < a <= C/2 ---- *)
Section Const3.
  Context {A : Type} (valueof : A -> Z).

  (** no bin consists of a single item a with C/3 < a <= C/2 *)
  Definition no_medium_single (C : Z) (b : bins A) : Prop :=
    forall bn a, In bn b -> snd bn = [a] -> ~ (C < 3 * valueof a /\ 2 * valueof a <= C).

  (** a bin that is at most half full and is not a single item a with C/3 < a <= C/2: the
      sharp bound *)
  Lemma low_bin_sharp_core C (items : list A) (b : bins A) (n : nat) :
    Inv valueof C b items -> bf2 valueof C b -> 0 <= C -> (1 <= n)%nat ->
    Forall (fun y => 0 <= valueof y) (contents b) ->
    Packable C (map valueof items) n -> no_medium_single C b -> ~ half_full C b ->
    (10 * length b <= 17 * n)%nat.
  Proof.
    intros HI Hb2 HC Hn Hnnb Hpack Hno1 Hnhf.
    destruct (cap_pos_or_single valueof C items b n HI HC Hnnb Hpack) as [HCpos|H1]; [|lia].
    destruct HI as (Hw & _ & Hp & Hnem & Hns & Ha).
    apply (low_bin_core valueof C b (map valueof items) n); auto. apply Permutation_map. exact Hp.
  Qed.

  Lemma ratio_17_3_core C (items : list A) (b : bins A) (n : nat) :
    Inv valueof C b items -> bf2 valueof C b -> 0 <= C -> (1 <= n)%nat ->
    Forall (fun y => 0 <= valueof y) (contents b) ->
    Packable C (map valueof items) n -> no_medium_single C b ->
    (10 * length b <= 17 * n + 3)%nat.
  Proof.
    intros HI Hb2 HC Hn Hnnb Hpack Hno1.
    destruct (Forall_dec (fun bn : bin A => C < 2 * fst bn)
                (fun bn => Z_lt_dec C (2 * fst bn)) b) as [Hhf|Hnhf].
    - pose proof (half_full_core valueof C items b n HI Hb2 HC Hn Hnnb Hpack Hhf) as H.
      pose proof (packable_big C _ n HC (Inv_values_nonneg valueof C items b HI Hnnb) Hpack) as Hbig.
      unfold fsum in H. lia.
    - pose proof (low_bin_sharp_core C items b n HI Hb2 HC Hn Hnnb Hpack Hno1 Hnhf). lia.
  Qed.

  Theorem ff_ratio_17_3_partial C (items : list A) (b : bins A) (n : nat) :
    items <> [] -> Forall (fun x : A => 0 <= valueof x) items ->
    first_fit valueof true C items = Ok b -> Packable C (map valueof items) n ->
    no_medium_single C b -> (10 * length b <= 17 * n + 3)%nat.
  Proof.
    intros Hne Hnn Hff Hpack Hno1.
    destruct (ff_facts valueof C items b n Hne Hnn Hff Hpack) as (HI & Hb2 & HC & Hn & Hnnb).
    apply (ratio_17_3_core C items b n); auto.
  Qed.

  Theorem bf_ratio_17_3_partial C (items : list A) (b : bins A) (n : nat) :
    items <> [] -> Forall (fun x : A => 0 <= valueof x) items ->
    best_fit valueof true C items = Ok b -> Packable C (map valueof items) n ->
    no_medium_single C b -> (10 * length b <= 17 * n + 3)%nat.
  Proof.
    intros Hne Hnn Hbf Hpack Hno1.
    destruct (bf_facts valueof C items b n Hne Hnn Hbf Hpack) as (HI & Hb2 & HC & Hn & Hnnb).
    apply (ratio_17_3_core C items b n); auto.
  Qed.

  (** the regular case: every bin more than half full and either the last bin without a value
      above C/2 is at least 2/3 full, or fewer than n values exceed C/2 *)
  Lemma ratio_17_1_core C (items : list A) (b : bins A) (n : nat) :
    Inv valueof C b items -> bf2 valueof C b -> 0 <= C -> (1 <= n)%nat ->
    Forall (fun y => 0 <= valueof y) (contents b) ->
    Packable C (map valueof items) n -> half_full C b ->
    last_common_23 valueof C b \/ fsum (bigw C) (map valueof items) < Z.of_nat n ->
    (10 * length b <= 17 * n + 1)%nat.
  Proof.
    intros HI Hb2 HC Hn Hnnb Hpack Hhf [Hlc|Hbeta].
    - destruct (cap_pos_or_single valueof C items b n HI HC Hnnb Hpack) as [HCpos|H1]; [|lia].
      destruct HI as (Hw & _ & Hp & Hnem & _ & Ha).
      apply (regular_core valueof C b (map valueof items) n); auto. apply Permutation_map. exact Hp.
    - pose proof (half_full_core valueof C items b n HI Hb2 HC Hn Hnnb Hpack Hhf). lia.
  Qed.

  Theorem ff_ratio_17_1_partial C (items : list A) (b : bins A) (n : nat) :
    items <> [] -> Forall (fun x : A => 0 <= valueof x) items ->
    first_fit valueof true C items = Ok b -> Packable C (map valueof items) n ->
    half_full C b ->
    last_common_23 valueof C b \/ fsum (bigw C) (map valueof items) < Z.of_nat n ->
    (10 * length b <= 17 * n + 1)%nat.
  Proof.
    intros Hne Hnn Hff Hpack Hhf Hor.
    destruct (ff_facts valueof C items b n Hne Hnn Hff Hpack) as (HI & Hb2 & HC & Hn & Hnnb).
    apply (ratio_17_1_core C items b n); auto.
  Qed.

  Theorem bf_ratio_17_1_partial C (items : list A) (b : bins A) (n : nat) :
    items <> [] -> Forall (fun x : A => 0 <= valueof x) items ->
    best_fit valueof true C items = Ok b -> Packable C (map valueof items) n ->
    half_full C b ->
    last_common_23 valueof C b \/ fsum (bigw C) (map valueof items) < Z.of_nat n ->
    (10 * length b <= 17 * n + 1)%nat.
  Proof.
    intros Hne Hnn Hbf Hpack Hhf Hor.
    destruct (bf_facts valueof C items b n Hne Hnn Hbf Hpack) as (HI & Hb2 & HC & Hn & Hnnb).
    apply (ratio_17_1_core C items b n); auto.
  Qed.

  Theorem ff_low_bin_sharp_partial C (items : list A) (b : bins A) (n : nat) :
    items <> [] -> Forall (fun x : A => 0 <= valueof x) items ->
    first_fit valueof true C items = Ok b -> Packable C (map valueof items) n ->
    no_medium_single C b -> ~ half_full C b -> (10 * length b <= 17 * n)%nat.
  Proof.
    intros Hne Hnn Hff Hpack Hno1 Hnhf.
    destruct (ff_facts valueof C items b n Hne Hnn Hff Hpack) as (HI & Hb2 & HC & Hn & Hnnb).
    apply (low_bin_sharp_core C items b n); assumption.
  Qed.

  Theorem bf_low_bin_sharp_partial C (items : list A) (b : bins A) (n : nat) :
    items <> [] -> Forall (fun x : A => 0 <= valueof x) items ->
    best_fit valueof true C items = Ok b -> Packable C (map valueof items) n ->
    no_medium_single C b -> ~ half_full C b -> (10 * length b <= 17 * n)%nat.
  Proof.
    intros Hne Hnn Hbf Hpack Hno1 Hnhf.
    destruct (bf_facts valueof C items b n Hne Hnn Hbf Hpack) as (HI & Hb2 & HC & Hn & Hnnb).
    apply (low_bin_sharp_core C items b n); assumption.
  Qed.
End Const3.

(** ---- 9. first-fit with a bin {a}, C/3 < a <= C/2: 4 m <= 7 n ----
    Put theta = C - a.  The bins after {a} hold single items above theta ("huge"); a does not
    fit the bins before, so these are filled above theta.  A bin without a huge item holds at
    least two items, and all of these bins but one are filled to 2C/3 (the items after a bin
    filled below 2C/3 exceed C/3).  With h bins holding a huge item and k without:
      sizes:     3 (theta+1) h + 2 C k + C + 3 <= 3 n C,  hence  4 k + 3 h + 3 <= 6 n;
      conflicts: a huge item shares a bin with no item >= a, at most two items >= a share a bin
                 (3 a > C), hence 2 h + 1 <= 2 n.
    Together 4 (k + h + 1) <= 7 n. *)
Definition fE (C a y : Z) : Z := if C - a <? y then 2 else if a <=? y then 1 else 0.
Definition FE (C a R : Z) : Z :=
  if (C - a + 1 <=? R) || (2 * a <=? R) then 2 else if a <=? R then 1 else 0.

Lemma fE_spec C a y :
  (C - a < y /\ fE C a y = 2) \/ (y <= C - a /\ a <= y /\ fE C a y = 1) \/
  (y <= C - a /\ y < a /\ fE C a y = 0).
Proof.
  unfold fE. destruct (C - a <? y) eqn:E1; [left; lia|].
  destruct (a <=? y) eqn:E2; [right; left; lia|right; right; lia].
Qed.

Lemma FE_spec C a R :
  ((C - a + 1 <= R \/ 2 * a <= R) /\ FE C a R = 2) \/
  (R <= C - a /\ R < 2 * a /\ a <= R /\ FE C a R = 1) \/
  (R <= C - a /\ R < 2 * a /\ R < a /\ FE C a R = 0).
Proof.
  unfold FE. destruct (C - a + 1 <=? R) eqn:E1; cbn [orb]; [left; lia|].
  destruct (2 * a <=? R) eqn:E2; [left; lia|].
  destruct (a <=? R) eqn:E3; [right; left; lia|right; right; lia].
Qed.

Lemma fE_nonneg C a y : 0 <= fE C a y.
Proof. pose proof (fE_spec C a y). lia. Qed.

Lemma light_fE C a : C < 3 * a -> 2 * a <= C -> forall l R,
  Forall (fun y => 0 <= y) l -> zsum l <= R -> R <= C -> fsum (fE C a) l <= FE C a R.
Proof.
  intros H3 H2. induction l as [|y l IH]; intros R Hnn Hs HR.
  - rewrite fsum_nil. pose proof (FE_spec C a R). lia.
  - apply Forall_cons_iff in Hnn. destruct Hnn as [Hy Hl]. rewrite zsum_cons in Hs.
    rewrite fsum_cons. assert (H1 : zsum l <= R - y) by lia. assert (H1' : R - y <= C) by lia.
    specialize (IH (R - y) Hl H1 H1'). pose proof (zsum_nonneg l Hl) as H0.
    pose proof (fE_spec C a y). pose proof (FE_spec C a R). pose proof (FE_spec C a (R - y)). lia.
Qed.

Section MediumSingle.
  Context {A : Type} (valueof : A -> Z).

  (** the bin holds an item above th *)
  Definition hbb (th : Z) (c : bin A) : bool := existsb (fun y => th <? valueof y) (snd c).

  Fixpoint cntb (P : bin A -> bool) (t : bins A) : Z :=
    match t with [] => 0 | c :: t' => (if P c then 1 else 0) + cntb P t' end.

  Lemma cntb_total P (t : bins A) :
    cntb P t + cntb (fun c => negb (P c)) t = Z.of_nat (length t).
  Proof.
    induction t as [|c t IH]; [reflexivity|]. cbn [cntb length]. rewrite Nat2Z.inj_succ.
    destruct (P c); cbn [negb]; lia.
  Qed.

  Lemma cntb_nonneg P (t : bins A) : 0 <= cntb P t.
  Proof. induction t as [|c t IH]; cbn [cntb]; [lia|]. destruct (P c); lia. Qed.

  Lemma sfit_app C (l1 t : bins A) : sfit valueof C (l1 ++ t) ->
    sfit valueof C l1 /\ sfit valueof C t /\
    Forall (fun c => Forall (fun y => C < fst c + valueof y) (contents t)) l1.
  Proof.
    induction l1 as [|c l1 IH]; cbn [app sfit].
    - intros H. split; [exact I|]. split; [exact H|constructor].
    - intros [H1 H2]. destruct (IH H2) as (Ha & Hb & Hc).
      rewrite contents_app in H1. apply Forall_app in H1. destruct H1 as [H1a H1b].
      split; [split; assumption|]. split; [exact Hb|]. constructor; assumption.
  Qed.

  Lemma cntb_hbb_le (f : Z -> Z) k th (t : bins A) :
    (forall z, 0 <= f z) -> (forall z, th < z -> k <= f z) ->
    k * cntb (hbb th) t <= fsum f (map valueof (contents t)).
  Proof.
    intros Hf Hk. induction t as [|c t IH].
    - cbn [cntb]. unfold contents, lists. cbn [map concat]. rewrite fsum_nil. lia.
    - rewrite contents_cons, map_app, fsum_app. cbn [cntb].
      pose proof (fsum_nonneg f (map valueof (snd c)) Hf) as H0.
      destruct (hbb th c) eqn:E; [|lia].
      unfold hbb in E. apply existsb_exists in E. destruct E as (y & Hin & Hy).
      pose proof (fsum_ge_in f _ _ Hf (in_map valueof _ _ Hin)) as Hge.
      specialize (Hk (valueof y) ltac:(lia)). lia.
  Qed.

  (** the conflict count: twice the bins with an item above C - a *)
  Lemma fE_sum_ge C a (t : bins A) :
    2 * cntb (hbb (C - a)) t <= fsum (fE C a) (map valueof (contents t)).
  Proof.
    apply cntb_hbb_le; [apply fE_nonneg|]. intros z Hz. pose proof (fE_spec C a z). lia.
  Qed.

  Lemma cntb_all_huge th (t : bins A) :
    Forall (fun c : bin A => match snd c with x :: _ => th < valueof x | [] => False end) t ->
    cntb (hbb th) t = Z.of_nat (length t).
  Proof.
    intros H. induction H as [|c t Hc Ht IH]; [reflexivity|].
    cbn [cntb length]. rewrite Nat2Z.inj_succ, IH.
    destruct (snd c) as [|x r] eqn:E; [contradiction|].
    assert (Hb : hbb th c = true).
    { unfold hbb. rewrite E. cbn [existsb]. apply orb_true_iff. left. lia. }
    rewrite Hb. lia.
  Qed.

  (** the exceptional bin filled below 2C/3 is still available iff alpha <= C/3 *)
  Definition DE (C th alpha : Z) : Z := if 3 * alpha <=? C then Z.max 0 (2 * C - 3 * th - 3) else 0.

  Lemma sizeG C th : forall (t : bins A) alpha, 0 <= alpha ->
    wf valueof t -> all_nonempty t -> sfit valueof C t ->
    Forall (fun y => 0 <= valueof y) (contents t) ->
    Forall (fun y => alpha <= valueof y) (contents t) ->
    Forall (fun c : bin A => th + 1 <= fst c) t ->
    3 * (th + 1) * cntb (hbb th) t + 2 * C * cntb (fun c => negb (hbb th c)) t <=
      3 * zsum (sums t) + DE C th alpha.
  Proof.
    induction t as [|c t IH]; intros alpha Hal Hw Hne Hsf Hnn Hge Hlv.
    - cbn [cntb sums map]. rewrite zsum_nil. unfold DE. destruct (3 * alpha <=? C); lia.
    - unfold wf in Hw. apply Forall_cons_iff in Hw. destruct Hw as [Hwc Hw].
      unfold all_nonempty in Hne. apply Forall_cons_iff in Hne. destruct Hne as [Hnc Hne].
      cbn [sfit] in Hsf. destruct Hsf as [Hs1 Hsf].
      rewrite contents_cons in Hnn, Hge.
      apply Forall_app in Hnn. destruct Hnn as [Hnn1 Hnn2].
      apply Forall_app in Hge. destruct Hge as [Hge1 Hge2].
      apply Forall_cons_iff in Hlv. destruct Hlv as [Hl1 Hlv].
      set (alpha' := Z.max alpha (C - fst c + 1)).
      assert (Hnext : 3 * (th + 1) * cntb (hbb th) t + 2 * C * cntb (fun c0 => negb (hbb th c0)) t <=
                      3 * zsum (sums t) + DE C th alpha').
      { apply IH; auto; [unfold alpha'; lia|].
        rewrite Forall_forall in *. intros y Hy. specialize (Hs1 y Hy). specialize (Hge2 y Hy).
        unfold alpha'. lia. }
      cbn [cntb]. unfold sums in Hnext |- *. cbn [map]. rewrite zsum_cons.
      assert (HDE : DE C th alpha' <= DE C th alpha).
      { unfold DE, alpha'. destruct (3 * alpha <=? C) eqn:E1;
          destruct (3 * Z.max alpha (C - fst c + 1) <=? C) eqn:E2; lia. }
      destruct (hbb th c) eqn:Eh; cbn [negb].
      + lia.
      + (* no item above th: at least two items *)
        unfold hbb in Eh. unfold wf_bin in Hwc.
        destruct (snd c) as [|x1 r] eqn:Es; [congruence|].
        cbn [existsb] in Eh. apply orb_false_iff in Eh. destruct Eh as [Eh1 Eh2].
        cbn [map] in Hwc. rewrite zsum_cons in Hwc.
        apply Forall_cons_iff in Hnn1. destruct Hnn1 as [Hx1 Hr].
        apply Forall_cons_iff in Hge1. destruct Hge1 as [Ha1 Hgr].
        destruct r as [|x2 r'].
        * cbn [map] in Hwc. rewrite zsum_nil in Hwc. lia.
        * cbn [map] in Hwc. rewrite zsum_cons in Hwc.
          apply Forall_cons_iff in Hr. destruct Hr as [Hx2 Hr'].
          apply Forall_cons_iff in Hgr. destruct Hgr as [Ha2 _].
          assert (Hr0 : 0 <= zsum (map valueof r')) by (apply zsum_nonneg; rewrite Forall_map; exact Hr').
          assert (Hs2 : 2 * alpha <= fst c) by lia.
          unfold DE in *. unfold alpha' in *.
          destruct (3 * alpha <=? C) eqn:E1;
            destruct (3 * Z.max alpha (C - fst c + 1) <=? C) eqn:E2; lia.
  Qed.

  Lemma light_fE_bin C a : C < 3 * a -> 2 * a <= C -> forall g,
    Forall (fun y => 0 <= y) g -> zsum g <= C -> fsum (fE C a) g <= 2.
  Proof.
    intros H3 H2 g Hg Hs. pose proof (light_fE C a H3 H2 g C Hg Hs ltac:(lia)) as H.
    pose proof (FE_spec C a C). lia.
  Qed.

  (** the structure around a bin {a} with C/3 < a <= C/2 (th = C - a) *)
  Lemma medium_single_split C (items : list A) (b : bins A) (n : nat) :
    items <> [] -> Forall (fun x : A => 0 <= valueof x) items ->
    first_fit valueof true C items = Ok b -> Packable C (map valueof items) n ->
    (exists bn xa, In bn b /\ snd bn = [xa] /\ C < 3 * valueof xa /\ 2 * valueof xa <= C) ->
    exists (l1 l2 : bins A) a, C < 3 * a /\ 2 * a <= C /\
      length b = (length l1 + S (length l2))%nat /\
      wf valueof l1 /\ all_nonempty l1 /\ sfit valueof C l1 /\
      Forall (fun y => 0 <= valueof y) (contents l1) /\
      Forall (fun c : bin A => C - a + 1 <= fst c) l1 /\
      zsum (sums l1) + (a + zsum (sums l2)) <= Z.of_nat n * C /\
      (C - a + 1) * Z.of_nat (length l2) <= zsum (sums l2) /\
      cntb (hbb (C - a)) l1 + Z.of_nat (length l2) + 1 <= Z.of_nat n.
  Proof.
    intros Hne Hnn Hff Hpack (E & xa & HinE & EsE & Ha3 & Ha2).
    pose proof (ff_sfit valueof C items b Hnn Hff) as Hsf.
    destruct (ff_facts valueof C items b n Hne Hnn Hff Hpack)
      as ((Hw & Hf & Hp & Hnem & Hns & Ha) & _ & HC & Hn & Hnnb).
    pose proof (Permutation_map valueof Hp) as Hpv.
    set (a := valueof xa) in *.
    assert (Hvs : Forall (fun v => 0 <= v) (map valueof items)) by (rewrite Forall_map; exact Hnn).
    (* the two bounds on an optimal packing *)
    pose proof (packable_total C _ n Hpack) as Htot.
    rewrite <- (zsum_perm _ _ Hpv), <- (wf_total valueof _ Hw) in Htot.
    assert (Hconf : fsum (fE C a) (map valueof (contents b)) <= 2 * Z.of_nat n).
    { rewrite (fsum_perm _ _ _ Hpv). apply (packable_fsum (fE C a) C); auto.
      intros g Hg Hs. apply light_fE_bin; auto. }
    (* split the bins at {a} *)
    destruct (bin_view valueof C b E HinE Hw Hnem Hnnb Ha)
      as (l1 & l2 & Eb & (Hw1 & Hne1 & Hnn1 & _) & (HwE & _ & _) & (Hw2 & Hne2 & Hnn2 & _)).
    subst b. apply sfit_app in Hsf. destruct Hsf as (Hsf1 & Hsf2 & Hpre).
    cbn [sfit] in Hsf2. destruct Hsf2 as [Hsuf _].
    rewrite contents_app, contents_cons in Hconf.
    rewrite !map_app, !fsum_app in Hconf. rewrite EsE in Hconf. cbn [map] in Hconf.
    rewrite fsum_cons, fsum_nil in Hconf.
    rewrite sums_app, sums_cons, zsum_app, zsum_cons in Htot.
    assert (EsumE : fst E = a).
    { unfold wf_bin in HwE. rewrite EsE in HwE. cbn [map] in HwE.
      rewrite zsum_cons, zsum_nil in HwE. unfold a. lia. }
    rewrite EsumE in Htot.
    set (th := C - a) in *.
    (* the bins after {a}: single items above th *)
    assert (Hsuf' : Forall (fun c : bin A => match snd c with x :: _ => th < valueof x | [] => False end) l2).
    { destruct (sfit_later valueof C (fst E) l2 Hne2 Hsuf) as [Hlat _].
      eapply Forall_impl; [|exact Hlat]. intros c Hc. unfold later_ok in Hc.
      destruct (snd c) as [|x r]; [exact Hc|unfold th; lia]. }
    assert (Hk2 : (th + 1) * Z.of_nat (length l2) <= zsum (sums l2)).
    { apply (sums_ge_first valueof); auto. eapply Forall_impl; [|exact Hsuf'].
      intros c Hc. cbv beta in Hc. destruct (snd c) as [|x r]; [exact Hc|lia]. }
    pose proof (fE_sum_ge C a l2) as Hf2. fold th in Hf2.
    rewrite (cntb_all_huge th l2 Hsuf') in Hf2.
    (* the bins before {a} *)
    assert (Hlv1 : Forall (fun c : bin A => th + 1 <= fst c) l1).
    { eapply Forall_impl; [|exact Hpre]. intros c Hc. cbv beta in Hc.
      rewrite contents_cons, EsE in Hc. apply Forall_app in Hc. destruct Hc as [Hc _].
      apply Forall_cons_iff in Hc. destruct Hc as [Hc _]. fold a in Hc. unfold th. lia. }
    pose proof (fE_sum_ge C a l1) as Hf1. fold th in Hf1.
    assert (HfEa : fE C a a = 1).
    { pose proof (fE_spec C a a). lia. }
    fold a in Hconf. rewrite HfEa in Hconf.
    unfold th in *. clear th.
    exists l1, l2, a. repeat split; auto.
    - rewrite app_length. reflexivity.
    - lia.
  Qed.

  Theorem ff_medium_single_partial C (items : list A) (b : bins A) (n : nat) :
    items <> [] -> Forall (fun x : A => 0 <= valueof x) items ->
    first_fit valueof true C items = Ok b -> Packable C (map valueof items) n ->
    (exists bn xa, In bn b /\ snd bn = [xa] /\ C < 3 * valueof xa /\ 2 * valueof xa <= C) ->
    (4 * length b <= 7 * n)%nat.
  Proof.
    intros Hne Hnn Hff Hpack Hex.
    destruct (medium_single_split C items b n Hne Hnn Hff Hpack Hex)
      as (l1 & l2 & a & Ha3 & Ha2 & Elen & Hw1 & Hne1 & Hsf1 & Hnn1 & Hlv1 & Htot & Hk2 & Hconf).
    rewrite Elen.
    set (th := C - a) in *.
    pose proof (sizeG C th l1 0 ltac:(lia) Hw1 Hne1 Hsf1 Hnn1 Hnn1 Hlv1) as Hsz.
    pose proof (cntb_total (hbb th) l1) as Hcnt.
    pose proof (cntb_nonneg (hbb th) l1) as Hh0.
    pose proof (cntb_nonneg (fun c => negb (hbb th c)) l1) as Hk0.
    assert (HDE : DE C th 0 = Z.max 0 (2 * C - 3 * th - 3)).
    { unfold DE. destruct (3 * 0 <=? C) eqn:E0; lia. }
    rewrite HDE in Hsz.
    set (h1 := cntb (hbb th) l1) in *. set (k := cntb (fun c => negb (hbb th c)) l1) in *.
    set (q := Z.of_nat (length l2)) in *. set (nn := Z.of_nat n) in *.
    assert (Hq0 : 0 <= q) by (unfold q; lia).
    assert (Eth : th = C - a) by reflexivity. clearbody th.
    assert (Hth : C + 2 <= 2 * (th + 1)) by lia.
    assert (Hhq : 0 <= h1 + q) by lia.
    assert (H1 : 3 * ((th + 1) * h1) + 3 * ((th + 1) * q) + 2 * C * k + C + 1 <= 3 * (nn * C)) by lia.
    assert (H2 : (C + 2) * (h1 + q) <= 2 * (th + 1) * (h1 + q))
      by (apply Z.mul_le_mono_nonneg_r; lia).
    assert (H3 : C * (3 * (h1 + q) + 4 * k + 2) + 6 * (h1 + q) + 2 <= C * (6 * nn)) by lia.
    assert (H4 : 3 * (h1 + q) + 4 * k + 3 <= 6 * nn).
    { destruct (Z_le_dec (3 * (h1 + q) + 4 * k + 3) (6 * nn)) as [H4|H4]; [exact H4|]. exfalso.
      assert (C * (6 * nn) <= C * (3 * (h1 + q) + 4 * k + 2))
        by (apply Z.mul_le_mono_nonneg_l; lia).
      lia. }
    lia.
  Qed.

  (** Three bins without an item above th, in a list whose bins are all filled above th: the
      third holds two items, which fit neither the first nor the second.  [prev] holds the sums
      of the bins without an item above th met so far. *)
  Lemma three_bins_gen C th : 0 <= th -> forall (t : bins A) (prev : list Z),
    wf valueof t -> sfit valueof C t ->
    Forall (fun y => 0 <= valueof y) (contents t) ->
    Forall (fun c : bin A => th + 1 <= fst c) t ->
    Forall (fun s => Forall (fun y => C < s + valueof y) (contents t)) prev ->
    (length prev <= 2)%nat ->
    3 <= Z.of_nat (length prev) + cntb (fun c => negb (hbb th c)) t ->
    (th + 1) * (Z.of_nat (length t) + Z.of_nat (length prev) - 3) + 2 * C + 2
      <= zsum prev + zsum (sums t).
  Proof.
    intros Hth. induction t as [|c t IH]; intros prev Hw Hsf Hnn Hlv Hprev Hlen H3.
    - cbn [cntb] in H3. lia.
    - unfold wf in Hw. apply Forall_cons_iff in Hw. destruct Hw as [Hwc Hw].
      cbn [sfit] in Hsf. destruct Hsf as [Hs1 Hsf].
      rewrite contents_cons in Hnn. apply Forall_app in Hnn. destruct Hnn as [Hnn1 Hnn2].
      apply Forall_cons_iff in Hlv. destruct Hlv as [Hl1 Hlv].
      assert (Hprev' : Forall (fun s => Forall (fun y => C < s + valueof y) (contents t)) (fst c :: prev)).
      { constructor; [exact Hs1|]. eapply Forall_impl; [|exact Hprev]. intros s H. cbv beta.
        rewrite contents_cons in H. apply Forall_app in H. tauto. }
      rewrite sums_cons, zsum_cons. cbn [length cntb] in H3 |- *. rewrite Nat2Z.inj_succ.
      destruct (hbb th c) eqn:Eh; cbn [negb] in H3.
      + apply Forall_cons_iff in Hprev'. destruct Hprev' as [_ Hprev'].
        specialize (IH prev Hw Hsf Hnn2 Hlv Hprev' Hlen ltac:(lia)). lia.
      + destruct (le_lt_dec 2 (length prev)) as [H2|H2].
        * (* two earlier bins: the first two items of c fit neither *)
          destruct prev as [|s1 [|s2 [|s3 prev]]]; cbn [length] in Hlen, H2 |- *; try lia.
          apply Forall_cons_iff in Hprev. destruct Hprev as [Hp1 Hprev].
          apply Forall_cons_iff in Hprev. destruct Hprev as [Hp2 _].
          rewrite contents_cons in Hp1, Hp2. apply Forall_app in Hp1, Hp2.
          destruct Hp1 as [Hp1 _]. destruct Hp2 as [Hp2 _].
          pose proof (sums_ge_bound (th + 1) t Hlv) as St.
          rewrite !zsum_cons, zsum_nil.
          unfold hbb in Eh. unfold wf_bin in Hwc.
          destruct (snd c) as [|x1 [|x2 r]]; cbn [map existsb] in Hwc, Eh;
            rewrite ?zsum_cons, ?zsum_nil in Hwc; [lia|lia|].
          apply Forall_cons_iff in Hp1. destruct Hp1 as [F1 _].
          apply Forall_cons_iff in Hp2. destruct Hp2 as [_ Hp2].
          apply Forall_cons_iff in Hp2. destruct Hp2 as [F2 _].
          apply Forall_cons_iff in Hnn1. destruct Hnn1 as [_ Hr].
          apply Forall_cons_iff in Hr. destruct Hr as [_ Hr].
          assert (Hr0 : 0 <= zsum (map valueof r)) by (apply zsum_nonneg; rewrite Forall_map; exact Hr).
          lia.
        * specialize (IH (fst c :: prev) Hw Hsf Hnn2 Hlv Hprev' ltac:(cbn [length]; lia)
                        ltac:(cbn [length]; lia)).
          cbn [length] in IH. rewrite zsum_cons in IH. lia.
  Qed.

  Lemma three_bins C th (t : bins A) : 0 <= th ->
    wf valueof t -> sfit valueof C t ->
    Forall (fun y => 0 <= valueof y) (contents t) ->
    Forall (fun c : bin A => th + 1 <= fst c) t ->
    3 <= cntb (fun c => negb (hbb th c)) t ->
    (th + 1) * (Z.of_nat (length t) - 3) + 2 * C + 2 <= zsum (sums t).
  Proof.
    intros Hth Hw Hsf Hnn Hlv H3.
    pose proof (three_bins_gen C th Hth t [] Hw Hsf Hnn Hlv ltac:(constructor) ltac:(cbn; lia) H3) as H.
    cbn [length Z.of_nat] in H. rewrite zsum_nil in H. lia.
  Qed.

  (** the bin is a single item a with C/3 < a <= C/2 *)
  Definition msb (C : Z) (bn : bin A) : bool :=
    match snd bn with
    | [xa] => (C <? 3 * valueof xa) && (2 * valueof xa <=? C)
    | _ => false
    end.

  (** bins with an item above th >= C/2 hold that many values above C/2 *)
  Lemma hbb_count C th (t : bins A) : C <= 2 * th + 1 ->
    cntb (hbb th) t <= fsum (bigw C) (map valueof (contents t)).
  Proof.
    intros Hth. rewrite <- (Z.mul_1_l (cntb (hbb th) t)).
    apply cntb_hbb_le; intros z; unfold bigw; destruct (C <? 2 * z) eqn:E; lia.
  Qed.

  Lemma medium_single_dec C (b : bins A) :
    (exists bn xa, In bn b /\ snd bn = [xa] /\ C < 3 * valueof xa /\ 2 * valueof xa <= C) \/
    no_medium_single valueof C b.
  Proof.
    destruct (existsb (msb C) b) eqn:E.
    - left. apply existsb_exists in E. destruct E as (bn & Hin & Hm).
      unfold msb in Hm. destruct (snd bn) as [|xa [|y r]] eqn:Es; try discriminate Hm.
      exists bn, xa. repeat split; auto; lia.
    - right. intros bn xa Hin Es [H3 H2].
      assert (Hm : msb C bn = true) by (unfold msb; rewrite Es; lia).
      assert (Hex : existsb (msb C) b = true) by (apply existsb_exists; exists bn; auto).
      congruence.
  Qed.
End MediumSingle.

(** ---- 10. first-fit with OPT = 4 uses at most 6 bins ---- *)
Section Opt4.
  Context {A : Type} (valueof : A -> Z).

  Theorem ff_opt4_partial C (items : list A) (b : bins A) :
    items <> [] -> Forall (fun x : A => 0 <= valueof x) items ->
    first_fit valueof true C items = Ok b -> Packable C (map valueof items) 4 ->
    (length b <= 6)%nat.
  Proof.
    intros Hne Hnn Hff Hpack.
    destruct (le_lt_dec (length b) 6) as [Hle|Hgt]; [exact Hle|]. exfalso.
    pose proof (ff_sfit valueof C items b Hnn Hff) as Hsf.
    destruct (ff_facts valueof C items b 4 Hne Hnn Hff Hpack) as (HI & Hb2 & HC & Hn & Hnnb).
    pose proof HI as (Hw & _ & Hp & _).
    pose proof (Permutation_map valueof Hp) as Hpv.
    assert (Hvs : Forall (fun v => 0 <= v) (map valueof items)) by (rewrite Forall_map; exact Hnn).
    destruct (medium_single_dec valueof C b) as [Hex|Hno1].
    - (* a bin {a} with C/3 < a <= C/2 *)
      pose proof (ff_medium_single_partial valueof C items b 4 Hne Hnn Hff Hpack Hex) as H74.
      destruct (medium_single_split valueof C items b 4 Hne Hnn Hff Hpack Hex)
        as (l1 & l2 & a & Ha3 & Ha2 & Elen & Hw1 & Hne1 & Hsf1 & Hnn1 & Hlv1 & Htot & Hk2 & Hconf).
      pose proof (cntb_total (hbb valueof (C - a)) l1) as Hcnt.
      pose proof (cntb_nonneg (hbb valueof (C - a)) l1) as Hh0.
      assert (Hk3 : 3 <= cntb (fun c => negb (hbb valueof (C - a) c)) l1) by lia.
      pose proof (three_bins valueof C (C - a) l1 ltac:(lia) Hw1 Hsf1 Hnn1 Hlv1 Hk3) as H3b.
      set (q := Z.of_nat (length l2)) in *.
      assert (Ep : Z.of_nat (length l1) = 6 - q) by (unfold q; lia).
      rewrite Ep in H3b. change (Z.of_nat 4) with 4 in *. lia.
    - (* no such bin *)
      destruct (Forall_dec (fun bn : bin A => C < 2 * fst bn)
                  (fun bn => Z_lt_dec C (2 * fst bn)) b) as [Hhf|Hnhf].
      + (* every bin more than half full: at most 4 bins hold a value above C/2 *)
        pose proof (Z.div_mod C 2) as Hdm. pose proof (Z.mod_pos_bound C 2) as Hmb.
        assert (Hh : C - 1 <= 2 * (C / 2) <= C) by lia.
        clear Hdm Hmb. set (h := C / 2) in *.
        assert (Hlv : Forall (fun c : bin A => h + 1 <= fst c) b).
        { eapply Forall_impl; [|exact Hhf]. intros bn Hbn. cbv beta in Hbn. lia. }
        pose proof (hbb_count valueof C h b ltac:(lia)) as Hcb.
        pose proof (packable_big C _ 4 HC Hvs Hpack) as Hbig.
        change (zsum (map (bigw C) (map valueof items))) with (fsum (bigw C) (map valueof items)) in Hbig.
        rewrite <- (fsum_perm _ _ _ Hpv) in Hbig.
        pose proof (cntb_total (hbb valueof h) b) as Hcnt.
        assert (Hk3 : 3 <= cntb (fun c => negb (hbb valueof h c)) b).
        { change (Z.of_nat 4) with 4 in Hbig. lia. }
        pose proof (three_bins valueof C h b ltac:(lia) Hw Hsf Hnnb Hlv Hk3) as H3b.
        pose proof (packable_total C _ 4 Hpack) as Htot.
        rewrite <- (zsum_perm _ _ Hpv), <- (wf_total valueof _ Hw) in Htot.
        change (Z.of_nat 4) with 4 in Htot.
        assert (Hm7 : 7 <= Z.of_nat (length b)) by lia.
        assert (Hmul : (h + 1) * 4 <= (h + 1) * (Z.of_nat (length b) - 3))
          by (apply Z.mul_le_mono_nonneg_l; lia).
        lia.
      + pose proof (low_bin_sharp_core valueof C items b 4 HI Hb2 HC Hn Hnnb Hpack Hno1 Hnhf). lia.
  Qed.
End Opt4.

(** ---- 11. what the additive constants give for the sharp bound floor(17 n / 10) ---- *)

(** an arithmetic exhibit, not used below: rung c with (17 n mod 10) + c < 10 gives 10 m <= 17 n *)
Lemma floor_of_additive (m n c k r : nat) :
  (10 * m <= 17 * n + c)%nat -> (17 * n = 10 * k + r)%nat -> (r + c < 10)%nat ->
  (10 * m <= 17 * n)%nat.
Proof. intros H E Hr. lia. Qed.

Section Sharp.
  Context {A : Type} (valueof : A -> Z).

  Theorem ff_ratio_17_floor_partial C (items : list A) (b : bins A) (n : nat) :
    items <> [] -> Forall (fun x : A => 0 <= valueof x) items ->
    first_fit valueof true C items = Ok b -> MinBins C (map valueof items) n ->
    (n <= 3)%nat \/ (exists k, n = 10 * k \/ n = 10 * k + 3 \/ n = 10 * k + 6)%nat ->
    (10 * length b <= 17 * n)%nat.
  Proof.
    intros Hne Hnn Hff [Hpack _] Hcase.
    pose proof (ff_ratio_17_7_partial valueof C items b n Hne Hnn Hff Hpack) as H7.
    destruct (ff_facts valueof C items b n Hne Hnn Hff Hpack) as (HI & _ & _ & Hn & _).
    pose proof (Inv_lt_2n valueof C b items n HI Hne Hnn Hpack) as H2.
    destruct Hcase as [Hs|(k & [E|[E|E]])]; lia.
  Qed.

  Theorem bf_ratio_17_floor_partial C (items : list A) (b : bins A) (n : nat) :
    items <> [] -> Forall (fun x : A => 0 <= valueof x) items ->
    best_fit valueof true C items = Ok b -> MinBins C (map valueof items) n ->
    (n <= 3)%nat \/ (exists k, n = 10 * k \/ n = 10 * k + 3 \/ n = 10 * k + 6)%nat ->
    (10 * length b <= 17 * n)%nat.
  Proof.
    intros Hne Hnn Hbf [Hpack _] Hcase.
    pose proof (bf_ratio_17_7_partial valueof C items b n Hne Hnn Hbf Hpack) as H7.
    destruct (bf_facts valueof C items b n Hne Hnn Hbf Hpack) as (HI & _ & _ & Hn & _).
    pose proof (Inv_lt_2n valueof C b items n HI Hne Hnn Hpack) as H2.
    destruct Hcase as [Hs|(k & [E|[E|E]])]; lia.
  Qed.

  Theorem ff_ratio_17_floor_nms_partial C (items : list A) (b : bins A) (n : nat) :
    items <> [] -> Forall (fun x : A => 0 <= valueof x) items ->
    first_fit valueof true C items = Ok b -> MinBins C (map valueof items) n ->
    no_medium_single valueof C b ->
    (n = 1)%nat \/ (exists k r, n = 10 * k + r /\ r < 10 /\ r <> 1 /\ r <> 4 /\ r <> 7)%nat ->
    (10 * length b <= 17 * n)%nat.
  Proof.
    intros Hne Hnn Hff [Hpack _] Hno1 Hcase.
    pose proof (ff_ratio_17_3_partial valueof C items b n Hne Hnn Hff Hpack Hno1) as H3.
    destruct (ff_facts valueof C items b n Hne Hnn Hff Hpack) as (HI & _ & _ & Hn & _).
    pose proof (Inv_lt_2n valueof C b items n HI Hne Hnn Hpack) as H2.
    destruct Hcase as [Hs|(k & r & E & Hr & H1 & H4 & H7)]; lia.
  Qed.

  Theorem bf_ratio_17_floor_nms_partial C (items : list A) (b : bins A) (n : nat) :
    items <> [] -> Forall (fun x : A => 0 <= valueof x) items ->
    best_fit valueof true C items = Ok b -> MinBins C (map valueof items) n ->
    no_medium_single valueof C b ->
    (n = 1)%nat \/ (exists k r, n = 10 * k + r /\ r < 10 /\ r <> 1 /\ r <> 4 /\ r <> 7)%nat ->
    (10 * length b <= 17 * n)%nat.
  Proof.
    intros Hne Hnn Hbf [Hpack _] Hno1 Hcase.
    pose proof (bf_ratio_17_3_partial valueof C items b n Hne Hnn Hbf Hpack Hno1) as H3.
    destruct (bf_facts valueof C items b n Hne Hnn Hbf Hpack) as (HI & _ & _ & Hn & _).
    pose proof (Inv_lt_2n valueof C b items n HI Hne Hnn Hpack) as H2.
    destruct Hcase as [Hs|(k & r & E & Hr & H1 & H4 & H7)]; lia.
  Qed.

  Theorem ff_ratio_17_3_or_74_partial C (items : list A) (b : bins A) (n : nat) :
    items <> [] -> Forall (fun x : A => 0 <= valueof x) items ->
    first_fit valueof true C items = Ok b -> Packable C (map valueof items) n ->
    (10 * length b <= 17 * n + 3)%nat \/ (4 * length b <= 7 * n)%nat.
  Proof.
    intros Hne Hnn Hff Hpack. destruct (medium_single_dec valueof C b) as [Hex|Hno1].
    - right. exact (ff_medium_single_partial valueof C items b n Hne Hnn Hff Hpack Hex).
    - left. exact (ff_ratio_17_3_partial valueof C items b n Hne Hnn Hff Hpack Hno1).
  Qed.

  Corollary ff_ratio_17_floor_small_partial C (items : list A) (b : bins A) (n : nat) :
    items <> [] -> Forall (fun x : A => 0 <= valueof x) items ->
    first_fit valueof true C items = Ok b -> MinBins C (map valueof items) n ->
    (n <= 6)%nat \/ (n = 9)%nat \/ (n = 10)%nat \/ (n = 13)%nat ->
    (10 * length b <= 17 * n)%nat.
  Proof.
    intros Hne Hnn Hff [Hpack _] Hcase.
    pose proof (ff_ratio_17_3_or_74_partial C items b n Hne Hnn Hff Hpack) as H.
    destruct (ff_facts valueof C items b n Hne Hnn Hff Hpack) as (HI & _ & _ & Hn & _).
    pose proof (Inv_lt_2n valueof C b items n HI Hne Hnn Hpack) as H2.
    destruct (Nat.eq_dec n 4) as [E4|N4].
    - subst n. pose proof (ff_opt4_partial valueof C items b Hne Hnn Hff Hpack). lia.
    - lia.
  Qed.
End Sharp.

(** ---- 12. an instance: optimum 3, first-fit 5 = floor(17 * 3 / 10); the fourth bin is a single
    item a = C/2, the case section 8 excludes ---- *)
Example ff_opt3_uses5 :
  first_fit (fun v : Z => v) true 30 [7; 6; 10; 8; 8; 17; 15; 16] =
    Ok [(23, [7; 6; 10]); (16, [8; 8]); (17, [17]); (15, [15]); (16, [16])] /\
  MinBins 30 [7; 6; 10; 8; 8; 17; 15; 16] 3.
Proof.
  split; [vm_compute; reflexivity|]. split.
  - apply gpack_packable. exists [[15; 8; 7]; [16; 8; 6]; [17; 10]].
    split; [reflexivity|]. split.
    + etransitivity; [symmetry; apply (sort_desc_perm (fun v : Z => v))|].
      etransitivity; [|apply (sort_desc_perm (fun v : Z => v))]. vm_compute. reflexivity.
    + repeat constructor; vm_compute; discriminate.
  - intros m Hm. pose proof (packable_total 30 _ m Hm) as H.
    change (zsum [7; 6; 10; 8; 8; 17; 15; 16]) with 87 in H. lia.
Qed.

Print Assumptions ff_ratio_17_7_partial.
Print Assumptions bf_ratio_17_7_partial.
Print Assumptions ff_half_full_partial.
Print Assumptions bf_half_full_partial.
Print Assumptions ff_filled_partial.
Print Assumptions bf_filled_partial.
Print Assumptions ff_ratio_17_3_partial.
Print Assumptions bf_ratio_17_3_partial.
Print Assumptions ff_ratio_17_1_partial.
Print Assumptions bf_ratio_17_1_partial.
Print Assumptions ff_medium_single_partial.
Print Assumptions ff_opt4_partial.
Print Assumptions ff_low_bin_sharp_partial.
Print Assumptions bf_low_bin_sharp_partial.
Print Assumptions ff_ratio_17_floor_partial.
Print Assumptions bf_ratio_17_floor_partial.
Print Assumptions ff_ratio_17_floor_nms_partial.
Print Assumptions ff_ratio_17_3_or_74_partial.
Print Assumptions ff_ratio_17_floor_small_partial.
Print Assumptions bf_ratio_17_floor_nms_partial.
