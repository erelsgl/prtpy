(** C08, max-min side: what follows from the exact guarantee (3k-1) * OPTmin <= (4k-2) * LPTmin of
    [Proofs/LPTMinExactValues.v] for the smallest sum produced by greedy (LPT) (Deuermeyer, Friesen, Langston
    1982; Csirik, Kellerer, Woeginger 1992): the statement itself as a proposition, weaker and special forms
    of it, the instances on which it is attained, and its relation to a stronger statement about deficits
    that is left open.  A [_partial] in a name marks a weaker constant or a
    restricted range, not an incomplete proof. *)
From Prtpy Require Import Base.Prelude Model.Binner Model.Greedy Model.Objectives Spec.Partition
  Oracle.Reach Proofs.BaseLemmas Proofs.BinnerLemmas Proofs.GreedyProofs Proofs.RatioProofs Proofs.OracleSpec
  Proofs.LPTMinCore Proofs.LPTMinExactValues.
From Coq Require Import Sorting.Sorted Arith ZifyBool.

(** ---- weaker and special forms ---- *)

(** the full statement (Csirik, Kellerer, Woeginger 1992): LPTmin >= (3k-1)/(4k-2) * OPTmin *)
Definition lpt_min_ratio_statement : Prop :=
  forall (A : Type) (valueof : A -> Z) (keep : bool) (k : nat) (items : list A) (v : Z),
    (1 <= k)%nat -> Forall (fun x => 0 <= valueof x) items ->
    Opt MaxSmallest k (map valueof items) v ->
    (3 * Z.of_nat k - 1) * (- v) <= (4 * Z.of_nat k - 2) * zmin (sums (greedy valueof keep k items)).

Section MinWeaker.
  Context {A : Type} (valueof : A -> Z) (keep : bool).

  (** LPTmin >= k/(2k-1) * OPTmin  (in particular more than one half) *)
  Theorem lpt_min_ratio_half_partial k items v : (1 <= k)%nat ->
    Forall (fun x => 0 <= valueof x) items -> Opt MaxSmallest k (map valueof items) v ->
    Z.of_nat k * (- v) <= (2 * Z.of_nat k - 1) * zmin (sums (greedy valueof keep k items)).
  Proof.
    intros Hk Hpos Hopt. destruct (opt_min_attained _ _ _ Hopt) as (s & Hs & ->).
    pose proof (lpt_min_exact_attainable valueof keep k items s Hk Hpos Hs) as H.
    pose proof (init_zmin_nonneg k (sorted_values valueof items) Hk (sorted_values_nonneg valueof items Hpos)) as H0.
    rewrite <- (greedy_sums_vgreedy valueof keep) in H0.
    set (L := zmin (sums (greedy valueof keep k items))) in *. set (K := Z.of_nat k) in *.
    assert (HK : 1 <= K) by (unfold K; lia).
    (* 2k <= 3k - 1, used on the side of the sign of OPTmin *)
    destruct (Z.le_gt_cases 0 (zmin s)) as [HT|HT].
    - assert (0 <= (K - 1) * zmin s) by (apply Z.mul_nonneg_nonneg; lia). lia.
    - assert (K * zmin s <= 0) by (apply Z.mul_nonneg_nonpos; lia).
      assert (0 <= (2 * K - 1) * L) by (apply Z.mul_nonneg_nonneg; lia). lia.
  Qed.

  Theorem lpt_min_ratio_k12_partial k items v : (1 <= k <= 2)%nat ->
    Forall (fun x => 0 <= valueof x) items -> Opt MaxSmallest k (map valueof items) v ->
    (3 * Z.of_nat k - 1) * (- v) <= (4 * Z.of_nat k - 2) * zmin (sums (greedy valueof keep k items)).
  Proof.
    intros [Hk _] Hpos Hopt. destruct (opt_min_attained _ _ _ Hopt) as (s & Hs & ->).
    apply lpt_min_exact_attainable; assumption.
  Qed.
End MinWeaker.

(** ---- the constant is attained ---- *)

Lemma opt_min_perfect k vs asg m : (1 <= k)%nat -> length asg = length vs -> valid_asg k asg ->
  loads k vs asg = repeat m k -> Opt MaxSmallest k vs (- m).
Proof.
  intros Hk Hlen Hv E.
  assert (Ha : Attainable k vs (repeat m k)) by (exists asg; auto).
  assert (Hall : Forall (fun a => a <= m) (repeat m k)).
  { apply Forall_forall. intros a Hin. apply repeat_spec in Hin. lia. }
  split.
  - exists (repeat m k). split; [exact Ha|]. rewrite value_MaxSmallest. f_equal.
    apply (repeat_spec k). apply zmin_in. destruct k; [lia|discriminate].
  - intros s Hs. rewrite value_MaxSmallest.
    pose proof (len_min_le_zsum s) as H1. pose proof (zsum_le_bound m _ Hall) as H2.
    rewrite (Attainable_length _ _ _ Hs), (Attainable_sum _ _ _ Hs) in H1.
    rewrite repeat_length, (Attainable_sum _ _ _ Ha) in H2.
    assert (zmin s <= m) by (apply (Zmult_le_reg_r _ _ (Z.of_nat k)); lia). lia.
Qed.

(** the tight family 2k-1, 2k-1, ..., k+1, k+1, k, ..., k (k+1 copies of k): OPTmin = 4k-2, LPTmin = 3k-1 *)
Example lpt_min_ratio_tight2 :
  Opt MaxSmallest 2 [3; 3; 2; 2; 2] (-6) /\
  zmin (sums (greedy (fun v : Z => v) true 2 [3; 3; 2; 2; 2])) = 5 /\
  (3 * 2 - 1) * 6 = (4 * 2 - 2) * 5.
Proof.
  split; [|vm_compute; split; reflexivity].
  apply (opt_min_perfect 2 _ [0; 0; 1; 1; 1]%nat 6); [lia|reflexivity|repeat constructor|reflexivity].
Qed.

Example lpt_min_ratio_tight3 :
  Opt MaxSmallest 3 [5; 5; 4; 4; 3; 3; 3; 3] (-10) /\
  zmin (sums (greedy (fun v : Z => v) true 3 [5; 5; 4; 4; 3; 3; 3; 3])) = 8 /\
  (3 * 3 - 1) * 10 = (4 * 3 - 2) * 8.
Proof.
  split; [|vm_compute; split; reflexivity].
  apply (opt_min_perfect 3 _ [0; 0; 1; 2; 1; 1; 2; 2]%nat 10); [lia|reflexivity|repeat constructor|reflexivity].
Qed.

Example lpt_min_ratio_tight4 :
  Opt MaxSmallest 4 [7; 7; 6; 6; 5; 5; 4; 4; 4; 4; 4] (-14) /\
  zmin (sums (greedy (fun v : Z => v) true 4 [7; 7; 6; 6; 5; 5; 4; 4; 4; 4; 4])) = 11 /\
  (3 * 4 - 1) * 14 = (4 * 4 - 2) * 11.
Proof.
  split; [|vm_compute; split; reflexivity].
  apply (opt_min_perfect 4 _ [0; 0; 1; 2; 3; 3; 1; 1; 2; 2; 3]%nat 14); [lia|reflexivity|repeat constructor|reflexivity].
Qed.

(** ---- small instances ---- *)

(** all non-increasing lists of length n over the (decreasing) list of values *)
Fixpoint msets (vals : list Z) (n : nat) : list (list Z) :=
  match vals with
  | [] => match n with O => [[]] | _ => [] end
  | v :: t => flat_map (fun c => map (app (repeat v c)) (msets t (n - c))) (seq 0 (S n))
  end.

Lemma msets_incl vals : forall n vs, In vs (msets vals n) -> incl vs vals.
Proof.
  induction vals as [|v t IH]; intros n vs Hin; cbn [msets] in Hin.
  - destruct n; [|contradiction]. destruct Hin as [<-|[]]. apply incl_nil_l.
  - apply in_flat_map in Hin. destruct Hin as (c & _ & Hin).
    apply in_map_iff in Hin. destruct Hin as (r & <- & Hr).
    apply incl_app.
    + intros a Ha. apply repeat_spec in Ha. subst a. left. reflexivity.
    + apply incl_tl. exact (IH _ _ Hr).
Qed.

(** every multiset of at most 7 values from 1..6 with 3 bins, of at most 9 values from 3..7 with 4 bins:
    not an enumeration but an instance of [lpt_min_exact_attainable] *)
Theorem lpt_min_ratio_checked_partial k vs v :
  (k = 3%nat /\ In vs (flat_map (msets [6; 5; 4; 3; 2; 1]) (seq 0 8))) \/
  (k = 4%nat /\ In vs (flat_map (msets [7; 6; 5; 4; 3]) (seq 0 10))) ->
  Opt MaxSmallest k vs v ->
  (3 * Z.of_nat k - 1) * (- v) <= (4 * Z.of_nat k - 2) * zmin (sums (greedy (fun v : Z => v) true k vs)).
Proof.
  intros Hin Hopt. rewrite <- (map_id vs) in Hopt. destruct (opt_min_attained _ _ _ Hopt) as (s & Hs & ->).
  apply lpt_min_exact_attainable; [lia| |exact Hs].
  destruct Hin as [[_ Hin]|[_ Hin]]; apply in_flat_map in Hin; destruct Hin as (n & _ & Hin);
    apply (incl_Forall (msets_incl _ _ _ Hin)); repeat constructor; lia.
Qed.

(** ---- a stronger statement, left open ---- *)

(** total amount missing to bring every load up to [t] *)
Definition deficit (t : Z) (s : list Z) : Z := zsum (map (fun a => Z.max 0 (t - a)) s).

(** A candidate inductive strengthening of the full statement (it survives randomized testing against
    brute force for k <= 4): whatever greedy misses below (3k-1)/(4k-2) * t, every assignment misses
    below t.  Adding the next (smallest) item preserves it trivially unless the item lifts the smallest
    bin of greedy strictly above the lower threshold; that step needs the combinatorial core of
    Csirik-Kellerer-Woeginger (at most three "big" items per bin) and is NOT proved here. *)
Definition lpt_deficit_statement : Prop :=
  forall (k : nat) (l s : list Z) (t : Z), (1 <= k)%nat ->
    StronglySorted (fun a b : Z => b <= a) l -> Forall (fun v => 0 <= v) l -> Attainable k l s ->
    zsum (map (fun a => Z.max 0 ((3 * Z.of_nat k - 1) * t - (4 * Z.of_nat k - 2) * a))
              (vgreedy l (repeat 0 k)))
    <= (4 * Z.of_nat k - 2) * deficit t s.

Lemma deficit_zmin s : deficit (zmin s) s = 0.
Proof.
  unfold deficit. pose proof (zmin_le s) as H. generalize dependent (zmin s). intros m H.
  induction H as [|y t Hy Ht IH]; simpl; [reflexivity|]. rewrite IH. lia.
Qed.

Lemma zsum_pos_parts_zero (f : Z -> Z) l : (forall a, 0 <= f a) -> zsum (map f l) <= 0 ->
  Forall (fun a => f a <= 0) l.
Proof.
  intros Hf. induction l as [|y t IH]; simpl; intros H; constructor.
  - assert (0 <= zsum (map f t)) by (apply zsum_nonneg; rewrite Forall_map; apply Forall_forall; auto).
    pose proof (Hf y). lia.
  - apply IH. pose proof (Hf y). lia.
Qed.

(** the strengthening does imply the full statement *)
Theorem lpt_deficit_implies_ratio : lpt_deficit_statement -> lpt_min_ratio_statement.
Proof.
  intros HD A valueof keep k items v Hk Hpos Hopt. destruct (opt_min_attained _ _ _ Hopt) as (s & Hs & ->).
  apply (greedy_min_attainable valueof keep
           (fun t l => (3 * Z.of_nat k - 1) * t <= (4 * Z.of_nat k - 2) * l) k items s); [|exact Hpos|exact Hs].
  clear - HD Hk. intros l s Hsort Hpos Hs.
  pose proof (HD k l s (zmin s) Hk Hsort Hpos Hs) as H.
  rewrite deficit_zmin, Z.mul_0_r in H.
  apply zsum_pos_parts_zero in H; [|intros a; lia].
  assert (Hne : vgreedy l (repeat 0 k) <> []).
  { apply length_pos_ne. rewrite vgreedy0_length. exact Hk. }
  rewrite Forall_forall in H. specialize (H _ (zmin_in _ Hne)). cbv beta in H. lia.
Qed.

(* The deficit statement is NOT proved (nor refuted).  [lpt_min_ratio_statement] itself is proved by other
   means: [lpt_min_ratio_statement_holds] in Proofs/LPTMinExactProofs.v. *)

Print Assumptions lpt_min_ratio_half_partial.
Print Assumptions lpt_min_ratio_k12_partial.
Print Assumptions lpt_min_ratio_tight3.
Print Assumptions lpt_min_ratio_checked_partial.
Print Assumptions lpt_deficit_implies_ratio.
