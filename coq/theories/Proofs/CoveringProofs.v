(** Properties of the covering models (Model/Covering.v):
    C05 valid cover wasting less than one bin, C10 never more than OPT (and the 1/2 bound of
    next-fit-decreasing), C06 sums-only run, C07 names irrelevant. *)
From Prtpy Require Import Base.Prelude Model.Binner Model.Covering Spec.Partition
  Proofs.BaseLemmas Proofs.BinnerLemmas Proofs.OracleSpec.
From Coq Require Import Sorting.Sorted ZifyBool.

(** ---- a small solver for permutation goals between concatenations of the same atoms ---- *)

Lemma perm_cancel {T} (a l r1 r2 : list T) :
  Permutation l (r1 ++ r2) -> Permutation (a ++ l) (r1 ++ a ++ r2).
Proof.
  intros H. rewrite H. rewrite !app_assoc. apply Permutation_app_tail, Permutation_app_comm.
Qed.

Ltac perm_split T a r :=
  lazymatch r with
  | a ++ ?r2 => constr:((@nil T, r2))
  | ?x ++ ?r' =>
      let p := perm_split T a r' in
      lazymatch p with (?r1, ?r2) => constr:((x ++ r1, r2)) end
  end.

Ltac perm_norm :=
  repeat match goal with
    | |- context [?x :: ?l] =>
        lazymatch l with [] => fail | _ => change (x :: l) with ([x] ++ l) end
    end;
  rewrite <- ?app_assoc; rewrite ?app_nil_l; rewrite ?app_nil_r.

(** [perm_solve] proves [Permutation l r] between two [++]-lists with the same atoms.  One step:
    [perm_split] finds the head atom [a] of the left side in the right side, [r = r1 ++ a ++ r2]
    (the atoms must be syntactically equal), and [perm_cancel] removes it from both sides *)
Ltac perm_step :=
  lazymatch goal with
  | |- @Permutation ?T (?a ++ ?l) ?r =>
      let p := perm_split T a r in
      lazymatch p with
      | (?r1, ?r2) =>
          apply (@Permutation_trans T _ (r1 ++ a ++ r2) _);
          [ apply perm_cancel; rewrite <- ?app_assoc; rewrite ?app_nil_l
          | let E := fresh "E" in
            assert (E : r1 ++ a ++ r2 = r) by (rewrite <- ?app_assoc; rewrite ?app_nil_l; reflexivity);
            rewrite E; apply Permutation_refl ]
      end
  end.

(** both sides get a trailing [[]] so that every atom is followed by [++] *)
Ltac perm_solve :=
  perm_norm;
  lazymatch goal with
  | |- @Permutation ?T ?l ?r =>
      apply (@Permutation_trans T _ (l ++ []) _); [rewrite app_nil_r; apply Permutation_refl|];
      apply (@Permutation_trans T _ (r ++ []) _); [|rewrite app_nil_r; apply Permutation_refl]
  end;
  rewrite <- ?app_assoc;
  repeat perm_step;
  apply Permutation_refl.

(** ---- unsnoc, filter ---- *)

Lemma unsnoc_Some {T} (l r : list T) y : unsnoc l = Some (r, y) -> l = r ++ [y].
Proof.
  unfold unsnoc. destruct (rev l) as [|z r0] eqn:E; intros H; [discriminate|].
  inversion H; subst. rewrite <- (rev_involutive l), E. reflexivity.
Qed.

Lemma unsnoc_None {T} (l : list T) : unsnoc l = None -> l = [].
Proof.
  unfold unsnoc. destruct (rev l) as [|z r0] eqn:E; intros H; [|discriminate].
  rewrite <- (rev_involutive l), E. reflexivity.
Qed.

Lemma unsnoc_map {T U} (f : T -> U) (l : list T) :
  unsnoc (map f l) = match unsnoc l with None => None | Some (r, y) => Some (map f r, f y) end.
Proof.
  unfold unsnoc. rewrite <- map_rev. destruct (rev l) as [|z r0]; cbn [map]; [reflexivity|].
  rewrite map_rev. reflexivity.
Qed.

Lemma filter3_perm {T} (p q r : T -> bool) l :
  (forall x, (p x = true /\ q x = false /\ r x = false) \/
             (p x = false /\ q x = true /\ r x = false) \/
             (p x = false /\ q x = false /\ r x = true)) ->
  Permutation (filter p l ++ filter q l ++ filter r l) l.
Proof.
  intros H. induction l as [|x t IH]; cbn [filter]; [apply Permutation_refl|].
  destruct (H x) as [(E1 & E2 & E3)|[(E1 & E2 & E3)|(E1 & E2 & E3)]]; rewrite E1, E2, E3;
    cbv iota; cbn [app].
  - apply perm_skip. exact IH.
  - rewrite <- Permutation_middle. apply perm_skip. exact IH.
  - rewrite app_assoc, <- Permutation_middle, <- app_assoc. apply perm_skip. exact IH.
Qed.

(** ---- unfolding lemmas for the loops, for any [valueof] and [keep] ---- *)
Section Unfold.
  Context {A : Type} (valueof : A -> Z) (keep : bool).

  Definition close_full (C : Z) (st : cstate (A:=A)) (cur : bin A) : cstate (A:=A) :=
    if fst cur >=? C then (fst st ++ [cur], empty_bin) else (fst st, cur).

  Lemma cover_add_close C st x :
    cover_add valueof keep C st x = close_full C st (add_to_bin valueof keep x (snd st)).
  Proof. reflexivity. Qed.

  Lemma if_close_full {T} (F : cstate (A:=A) -> T) C st cur :
    (if fst cur >=? C then F (fst st ++ [cur], empty_bin) else F (fst st, cur)) = F (close_full C st cur).
  Proof. unfold close_full. destruct (fst cur >=? C); reflexivity. Qed.

  (** one step of twothirds is [cover_add] of the chosen item *)
  Lemma tt_loop_S f C st fresh x t :
    tt_loop valueof keep (S f) C st fresh (x :: t) =
    if fresh then
      tt_loop valueof keep f C (cover_add valueof keep C st x)
        (fst (add_to_bin valueof keep x (snd st)) >=? C) t
    else
      match unsnoc (x :: t) with
      | None => st
      | Some (r, y) =>
          tt_loop valueof keep f C (cover_add valueof keep C st y)
            (fst (add_to_bin valueof keep y (snd st)) >=? C) r
      end.
  Proof.
    cbn [tt_loop]. unfold cover_add. cbv zeta. destruct fresh.
    - destruct (fst (add_to_bin valueof keep x (snd st)) >=? C); reflexivity.
    - destruct (unsnoc (x :: t)) as [[r y]|]; [|reflexivity].
      destruct (fst (add_to_bin valueof keep y (snd st)) >=? C); reflexivity.
  Qed.

  (** the choice made at the start of an iteration of the main loop of threequarters *)
  Definition tq_pick (st : cstate (A:=A)) (big medium : list A) : bin A * list A * list A :=
    if zsum (map valueof (firstn 1 big)) >=? zsum (map valueof (firstn 2 medium))
    then (fold_left (fun c x => add_to_bin valueof keep x c) (firstn 1 big) (snd st), skipn 1 big, medium)
    else (fold_left (fun c x => add_to_bin valueof keep x c) (firstn 2 medium) (snd st), big, skipn 2 medium).

  Definition is_nil {T} (l : list T) : bool := match l with [] => true | _ => false end.

  Lemma tq_loop_S f C st big medium small :
    tq_loop valueof keep (S f) C st big medium small =
    match small with
    | [] => dec_sub valueof keep C (dec_sub valueof keep C st big) medium
    | _ :: _ =>
        if is_nil big && is_nil medium then dec_sub valueof keep C st small
        else
          let '(cur0, big', medium') := tq_pick st big medium in
          let '(cur1, small') := fill_small valueof keep (length small) C cur0 small in
          if fst cur1 >=? C then tq_loop valueof keep f C (fst st ++ [cur1], empty_bin) big' medium' small'
          else tq_loop valueof keep f C (fst st, cur1) big' medium' small'
    end.
  Proof. destruct small, big, medium; reflexivity. Qed.

  Lemma tq_loop_close f C st big medium small :
    tq_loop valueof keep (S f) C st big medium small =
    match small with
    | [] => dec_sub valueof keep C (dec_sub valueof keep C st big) medium
    | _ :: _ =>
        if is_nil big && is_nil medium then dec_sub valueof keep C st small
        else
          let '(cur0, big', medium') := tq_pick st big medium in
          let '(cur1, small') := fill_small valueof keep (length small) C cur0 small in
          tq_loop valueof keep f C (close_full C st cur1) big' medium' small'
    end.
  Proof.
    rewrite tq_loop_S. destruct small as [|s0 smt]; [reflexivity|].
    destruct (is_nil big && is_nil medium); [reflexivity|].
    destruct (tq_pick st big medium) as [[cur0 big'] medium'].
    destruct (fill_small valueof keep _ C cur0 _) as [cur1 small'].
    apply (if_close_full (fun s => tq_loop valueof keep f C s _ _ _)).
  Qed.
End Unfold.

(** ---- lock-step simulation between two runs of the covering loops ----
    Run 1 works on items of type A with (v1, k1) and capacity C; run 2 on their images under [g]
    with (v2, k2) and capacity C'.  [beta] maps the bins of run 1 to those of run 2 and must
    preserve the three comparisons the loops make.  Instances: forgetting the contents (C06),
    forgetting the names (C07), both with C' = C, and scaling by a positive constant (C18, MetaProofs). *)
Section Sim.
  Context {A B : Type} (v1 : A -> Z) (k1 : bool) (v2 : B -> Z) (k2 : bool)
          (g : A -> B) (beta : bin A -> bin B) (C C' : Z).
  Hypothesis Hge : forall c, (fst (beta c) >=? C') = (fst c >=? C).
  Hypothesis Hlt : forall c, (fst (beta c) <? C') = (fst c <? C).
  Hypothesis Hpick : forall l1 l2, (zsum (map (fun x => v2 (g x)) l1) >=? zsum (map (fun x => v2 (g x)) l2)) =
                                   (zsum (map v1 l1) >=? zsum (map v1 l2)).
  Hypothesis Hadd : forall x c, add_to_bin v2 k2 (g x) (beta c) = beta (add_to_bin v1 k1 x c).
  Hypothesis Hempty : beta empty_bin = empty_bin.

  Definition phi (st : cstate (A:=A)) : cstate (A:=B) := (map beta (fst st), beta (snd st)).

  Lemma sim_close_full st cur : close_full C' (phi st) (beta cur) = phi (close_full C st cur).
  Proof.
    unfold close_full, phi. rewrite Hge. destruct (fst cur >=? C); cbn [fst snd]; [|reflexivity].
    rewrite map_app, Hempty. reflexivity.
  Qed.

  Lemma sim_cover_add st x :
    cover_add v2 k2 C' (phi st) (g x) = phi (cover_add v1 k1 C st x).
  Proof.
    rewrite !cover_add_close. change (snd (phi st)) with (beta (snd st)). rewrite Hadd.
    apply sim_close_full.
  Qed.

  Lemma sim_dec_sub l : forall st,
    dec_sub v2 k2 C' (phi st) (map g l) = phi (dec_sub v1 k1 C st l).
  Proof.
    unfold dec_sub. induction l as [|x t IH]; intros st; cbn [map fold_left]; [reflexivity|].
    rewrite sim_cover_add. apply IH.
  Qed.

  Lemma sim_tt_loop : forall fuel st fresh rem,
    tt_loop v2 k2 fuel C' (phi st) fresh (map g rem) = phi (tt_loop v1 k1 fuel C st fresh rem).
  Proof.
    induction fuel as [|f IH]; intros st fresh rem; [reflexivity|].
    destruct rem as [|x t]; [reflexivity|].
    change (map g (x :: t)) with (g x :: map g t) at 1. rewrite !tt_loop_S.
    destruct fresh.
    - rewrite sim_cover_add. unfold phi at 2. cbn [snd]. rewrite Hadd, Hge. apply IH.
    - change (g x :: map g t) with (map g (x :: t)). rewrite unsnoc_map.
      destruct (unsnoc (x :: t)) as [[r y]|]; [|reflexivity].
      rewrite sim_cover_add. unfold phi at 2. cbn [snd]. rewrite Hadd, Hge. apply IH.
  Qed.

  Lemma sim_fold_add l : forall c,
    fold_left (fun c x => add_to_bin v2 k2 x c) (map g l) (beta c) =
    beta (fold_left (fun c x => add_to_bin v1 k1 x c) l c).
  Proof.
    induction l as [|x t IH]; intros c; cbn [map fold_left]; [reflexivity|].
    rewrite Hadd. apply IH.
  Qed.

  Lemma sim_fill_small : forall fuel cur small,
    fill_small v2 k2 fuel C' (beta cur) (map g small) =
    (beta (fst (fill_small v1 k1 fuel C cur small)), map g (snd (fill_small v1 k1 fuel C cur small))).
  Proof.
    induction fuel as [|f IH]; intros cur small; cbn [fill_small]; [reflexivity|].
    rewrite Hlt. destruct (fst cur <? C); [|reflexivity].
    rewrite unsnoc_map. destruct (unsnoc small) as [[r y]|]; [|reflexivity].
    rewrite Hadd. apply IH.
  Qed.

  Lemma sim_tq_pick st big medium :
    tq_pick v2 k2 (phi st) (map g big) (map g medium) =
    (beta (fst (fst (tq_pick v1 k1 st big medium))),
     map g (snd (fst (tq_pick v1 k1 st big medium))),
     map g (snd (tq_pick v1 k1 st big medium))).
  Proof.
    unfold tq_pick. rewrite !firstn_map, !map_map, Hpick.
    destruct (zsum (map v1 (firstn 1 big)) >=? zsum (map v1 (firstn 2 medium))); cbn [fst snd];
      unfold phi; cbn [snd]; rewrite sim_fold_add, skipn_map; reflexivity.
  Qed.

  Lemma is_nil_map (l : list A) : is_nil (map g l) = is_nil l.
  Proof. destruct l; reflexivity. Qed.

  Lemma sim_tq_loop : forall fuel st big medium small,
    tq_loop v2 k2 fuel C' (phi st) (map g big) (map g medium) (map g small) =
    phi (tq_loop v1 k1 fuel C st big medium small).
  Proof.
    induction fuel as [|f IH]; intros st big medium small; [reflexivity|].
    rewrite !tq_loop_close. destruct small as [|s0 smt]; cbn [map].
    - rewrite !sim_dec_sub. reflexivity.
    - rewrite !is_nil_map. change (g s0 :: map g smt) with (map g (s0 :: smt)).
      destruct (is_nil big && is_nil medium); [apply sim_dec_sub|].
      rewrite sim_tq_pick.
      destruct (tq_pick v1 k1 st big medium) as [[cur0 big'] medium']. cbn [fst snd].
      rewrite map_length, sim_fill_small.
      destruct (fill_small v1 k1 (length (s0 :: smt)) C cur0 (s0 :: smt)) as [cur1 small'].
      cbn [fst snd]. rewrite sim_close_full. apply IH.
  Qed.
End Sim.

(** ---- value level: [Attainable] through lists of (value, bin index) pairs ---- *)

Definition lstep (s : list Z) (p : Z * nat) : list Z := update (snd p) (fun x => x + fst p) s.
Definition lrun (ps : list (Z * nat)) (s : list Z) : list Z := fold_left lstep ps s.

Lemma loads_lrun k vs asg : loads k vs asg = lrun (combine vs asg) (repeat 0 k).
Proof. reflexivity. Qed.

Lemma Attainable_pairs k vs s :
  Attainable k vs s <->
  exists ps, map fst ps = vs /\ Forall (fun p => (snd p < k)%nat) ps /\ lrun ps (repeat 0 k) = s.
Proof.
  split.
  - intros (asg & Hl & Hv & Hs). exists (combine vs asg). repeat split.
    + apply map_fst_combine. symmetry. exact Hl.
    + unfold valid_asg in Hv. rewrite <- (map_snd_combine vs asg) in Hv by (symmetry; exact Hl).
      rewrite Forall_map in Hv. exact Hv.
    + exact Hs.
  - intros (ps & Hm & Hf & Hs). exists (map snd ps). repeat split.
    + rewrite <- Hm, !map_length. reflexivity.
    + unfold valid_asg. rewrite Forall_map. exact Hf.
    + rewrite loads_lrun, <- Hm, combine_fst_snd. exact Hs.
Qed.

Lemma lstep_comm s p q : lstep (lstep s p) q = lstep (lstep s q) p.
Proof. unfold lstep. apply update_comm. intros x. lia. Qed.

Lemma lrun_perm ps ps' : Permutation ps ps' -> forall s, lrun ps s = lrun ps' s.
Proof.
  unfold lrun. induction 1 as [|p l l' HP IH|p q l|l l' l'' HP1 IH1 HP2 IH2]; intros s; cbn [fold_left].
  - reflexivity.
  - apply IH.
  - rewrite lstep_comm. reflexivity.
  - rewrite IH1. apply IH2.
Qed.

Lemma Attainable_perm k vs vs' s : Permutation vs vs' -> Attainable k vs s -> Attainable k vs' s.
Proof.
  rewrite !Attainable_pairs. intros HP (ps & Hm & Hf & Hs). subst vs.
  apply Permutation_sym, Permutation_map_inv in HP. destruct HP as (ps' & E & HP').
  exists ps'. repeat split.
  - symmetry. exact E.
  - eapply Permutation_Forall; [exact HP'|exact Hf].
  - rewrite <- Hs. symmetry. apply lrun_perm. exact HP'.
Qed.

Lemma lstep_length s p : length (lstep s p) = length s.
Proof. apply update_length. Qed.

Lemma lrun_length ps : forall s, length (lrun ps s) = length s.
Proof.
  unfold lrun. induction ps as [|p t IH]; intros s; cbn [fold_left]; [reflexivity|].
  rewrite IH. apply lstep_length.
Qed.

Lemma lrun_app_r t ps : forall s, Forall (fun p => (snd p < length s)%nat) ps ->
  lrun ps (s ++ t) = lrun ps s ++ t.
Proof.
  unfold lrun. induction ps as [|p ps IH]; intros s H; cbn [fold_left]; [reflexivity|].
  inversion H as [|p' ps' Hp Hps]; subst. unfold lstep at 2 4. rewrite update_app_l by exact Hp.
  apply IH. rewrite update_length. exact Hps.
Qed.

(** putting the values [vs] into bin number [length s] *)
Lemma lrun_at s t vs : forall z,
  lrun (map (fun v => (v, length s)) vs) (s ++ z :: t) = s ++ (z + zsum vs) :: t.
Proof.
  unfold lrun. induction vs as [|v vs IH]; intros z; cbn [map fold_left].
  - change (zsum []) with 0. rewrite Z.add_0_r. reflexivity.
  - unfold lstep at 2. cbn [fst snd]. rewrite update_app_r. rewrite IH.
    change (zsum (v :: vs)) with (v + zsum vs). rewrite Z.add_assoc. reflexivity.
Qed.

Lemma map_fst_tag (i : nat) (vs : list Z) : map fst (map (fun v => (v, i)) vs) = vs.
Proof. rewrite map_map. cbn [fst]. apply map_id. Qed.

Lemma Forall_tag (k i : nat) (vs : list Z) : (i < k)%nat ->
  Forall (fun p : Z * nat => (snd p < k)%nat) (map (fun v => (v, i)) vs).
Proof. intros H. rewrite Forall_map. cbn [snd]. apply Forall_forall. intros v _. exact H. Qed.

(** ---- value level: any cover with n bins needs capped total value >= n * C ----
    (capping a value at C: a value above C is worth no more than C to a cover) *)

Definition capR (C : Z) (s s' : list Z) : Prop :=
  Forall2 (fun a a' => 0 <= a' /\ Z.min a C <= a') s s'.

Lemma capR_step C s s' v i : 0 < C -> 0 <= v -> capR C s s' ->
  capR C (lstep s (v, i)) (lstep s' (Z.min v C, i)).
Proof.
  intros HC Hv H. unfold lstep. cbn [fst snd]. apply Forall2_update; [|exact H].
  intros a a' [H1 H2]. split; lia.
Qed.

Definition cap_pairs (C : Z) (ps : list (Z * nat)) : list (Z * nat) :=
  map (fun p => (Z.min (fst p) C, snd p)) ps.

Lemma capR_run C ps : 0 < C -> Forall (fun p => 0 <= fst p) ps ->
  forall s s', capR C s s' -> capR C (lrun ps s) (lrun (cap_pairs C ps) s').
Proof.
  intros HC. unfold lrun, cap_pairs. induction ps as [|[v i] ps IH]; intros Hnn s s' H; cbn [map fold_left].
  - exact H.
  - inversion Hnn as [|p' ps' Hv Hps]; subst. cbn [fst snd] in *.
    apply IH; [exact Hps|]. apply capR_step; assumption.
Qed.

Lemma capR_zeros C k : 0 < C -> capR C (repeat 0 k) (repeat 0 k).
Proof. intros HC. unfold capR. induction k as [|k IH]; cbn [repeat]; constructor; [lia|exact IH]. Qed.

Lemma capR_sum C s s' : capR C s s' -> Forall (fun x => C <= x) s ->
  Z.of_nat (length s) * C <= zsum s'.
Proof.
  unfold capR. induction 1 as [|a a' l l' [Ha1 Ha2] Hl IH]; intros HF.
  - cbn. lia.
  - inversion HF as [|a0 l0 Hc Hrest]; subst. specialize (IH Hrest).
    cbn [length]. change (zsum (a' :: l')) with (a' + zsum l'). rewrite Nat2Z.inj_succ. lia.
Qed.

Lemma cover_volume_bound C n vs s :
  Attainable n vs s -> Forall (fun x => C <= x) s -> Z.of_nat n * C <= zsum vs.
Proof.
  intros (asg & Hl & Hv & Hs) Hfull.
  pose proof (loads_sum n vs asg Hl Hv) as E. pose proof (loads_length n vs asg) as L.
  rewrite Hs in E, L. rewrite <- E, <- L. apply zsum_ge_bound. exact Hfull.
Qed.

Lemma cover_cap_bound C n vs s : 0 < C -> Forall (fun v => 0 <= v) vs ->
  Attainable n vs s -> Forall (fun x => C <= x) s ->
  Z.of_nat n * C <= zsum (map (fun v => Z.min v C) vs).
Proof.
  intros HC Hnn Hat Hfull. apply Attainable_pairs in Hat. destruct Hat as (ps & Hm & Hf & Hs).
  assert (HR : capR C s (lrun (cap_pairs C ps) (repeat 0 n))).
  { rewrite <- Hs. apply capR_run; [exact HC| |apply capR_zeros; exact HC].
    rewrite <- Hm, Forall_map in Hnn. exact Hnn. }
  pose proof (capR_sum C _ _ HR Hfull) as Hsum.
  assert (Hlen : length s = n). { rewrite <- Hs, lrun_length, repeat_length. reflexivity. }
  rewrite Hlen in Hsum. unfold lrun in Hsum. rewrite (zsum_fold_update (cap_pairs C ps)), zsum_repeat0 in Hsum.
  - unfold cap_pairs in Hsum. rewrite map_map in Hsum. cbn [fst] in Hsum.
    rewrite <- Hm, map_map. lia.
  - rewrite repeat_length. unfold cap_pairs. rewrite Forall_map. cbn [snd]. exact Hf.
Qed.

Section CoveringProofs.
  Context {A : Type} (valueof : A -> Z).

  Notation add1 := (add_to_bin valueof true).

  (** ---- the loop invariant ---- *)
  Definition cinv (C : Z) (items : list A) (st : cstate (A:=A)) (pending : list A) : Prop :=
    Forall (fun bn => C <= fst bn) (fst st) /\
    wf valueof (fst st) /\
    wf_bin valueof (snd st) /\
    fst (snd st) < C /\
    Permutation (contents (fst st) ++ snd (snd st) ++ pending) items.

  Lemma cinv_init C items pend : 0 < C -> Permutation pend items -> cinv C items ([], empty_bin) pend.
  Proof.
    intros HC HP. unfold cinv. cbn [fst snd empty_bin]. repeat split.
    - constructor.
    - constructor.
    - exact HC.
    - exact HP.
  Qed.

  Lemma contents_snoc (b : bins A) (c : bin A) : contents (b ++ [c]) = contents b ++ snd c.
  Proof. rewrite contents_app. unfold contents at 2, lists. cbn [map concat]. rewrite app_nil_r. reflexivity. Qed.

  Lemma add1_fst x (c : bin A) : fst (add1 x c) = fst c + valueof x.
  Proof. reflexivity. Qed.
  Lemma add1_snd x (c : bin A) : snd (add1 x c) = snd c ++ [x].
  Proof. reflexivity. Qed.

  (** the one step all loops share *)
  Lemma cinv_close_full C items st pend cur pend' :
    0 < C -> cinv C items st pend -> wf_bin valueof cur ->
    Permutation (snd (snd st) ++ pend) (snd cur ++ pend') ->
    cinv C items (close_full C st cur) pend'.
  Proof.
    intros HC (H1 & H2 & H3 & H4 & H5) Hw HP. rewrite HP in H5. unfold close_full, cinv.
    destruct (fst cur >=? C) eqn:E; cbn [fst snd empty_bin].
    - repeat split; [| |exact HC|].
      + apply Forall_app. split; [exact H1|]. constructor; [lia|constructor].
      + apply Forall_app. split; [exact H2|]. constructor; [exact Hw|constructor].
      + rewrite contents_snoc, <- app_assoc. exact H5.
    - repeat split; try assumption. lia.
  Qed.

  Lemma cinv_final C items st :
    cinv C items st [] ->
    is_cover valueof C items (fst st) (snd (snd st)) /\ zsum (map valueof (snd (snd st))) < C.
  Proof.
    intros (H1 & H2 & H3 & H4 & H5). unfold is_cover. repeat split; try assumption.
    - rewrite app_nil_r in H5. exact H5.
    - unfold wf_bin in H3. rewrite <- H3. exact H4.
  Qed.

  (** ---- decreasing ---- *)
  Lemma cover_add_inv C items st x pend pend' :
    0 < C -> cinv C items st pend -> Permutation pend (x :: pend') ->
    cinv C items (cover_add valueof true C st x) pend'.
  Proof.
    intros HC H HP. rewrite cover_add_close. apply (cinv_close_full C items st pend); try assumption.
    - apply add_to_bin_wf; [reflexivity|]. destruct H as (_ & _ & H3 & _). exact H3.
    - rewrite add1_snd, HP. perm_solve.
  Qed.

  Lemma dec_sub_inv C items l : forall st pend,
    0 < C -> cinv C items st (l ++ pend) -> cinv C items (dec_sub valueof true C st l) pend.
  Proof.
    unfold dec_sub. induction l as [|x t IH]; intros st pend HC H; cbn [fold_left].
    - exact H.
    - apply IH; [exact HC|]. apply (cover_add_inv C items st x ((x :: t) ++ pend)); try assumption.
      apply Permutation_refl.
  Qed.

  (** positivity of the items is not needed for decreasing and twothirds *)
  Lemma dec_final C items : 0 < C ->
    cinv C items (dec_sub valueof true C ([], empty_bin) (sort_desc valueof items)) [].
  Proof.
    intros HC. apply dec_sub_inv; [exact HC|]. rewrite app_nil_r.
    apply cinv_init; [exact HC|apply sort_desc_perm].
  Qed.

  Theorem dec_cover : forall C items, 0 < C -> Forall (fun x => 0 < valueof x) items ->
    exists rest, is_cover valueof C items (cover_decreasing valueof true C items) rest /\
                 zsum (map valueof rest) < C.
  Proof. intros C items HC _. eexists. apply cinv_final, dec_final, HC. Qed.

  (** ---- twothirds ---- *)
  Lemma tt_loop_inv C items : 0 < C -> forall fuel st fresh rem,
    cinv C items st rem -> (length rem <= fuel)%nat ->
    cinv C items (tt_loop valueof true fuel C st fresh rem) [].
  Proof.
    intros HC. induction fuel as [|f IH]; intros st fresh rem H Hl.
    - destruct rem as [|x t]; [exact H|cbn [length] in Hl; lia].
    - destruct rem as [|x t]; [exact H|]. rewrite tt_loop_S. cbn [length] in Hl. destruct fresh.
      + apply IH; [|lia]. apply (cover_add_inv C items st x (x :: t)); try assumption.
        apply Permutation_refl.
      + destruct (unsnoc (x :: t)) as [[r y]|] eqn:U; [|apply unsnoc_None in U; discriminate].
        apply unsnoc_Some in U.
        assert (HP : Permutation (x :: t) (y :: r)).
        { rewrite U. symmetry. apply Permutation_cons_append. }
        apply IH; [apply (cover_add_inv C items st y (x :: t)); assumption|].
        apply Permutation_length in HP. cbn [length] in HP. lia.
  Qed.

  Lemma tt_final C items : 0 < C ->
    cinv C items (tt_loop valueof true (length items) C ([], empty_bin) true (sort_desc valueof items)) [].
  Proof.
    intros HC. apply tt_loop_inv; [exact HC| |rewrite sort_desc_length; lia].
    apply cinv_init; [exact HC|apply sort_desc_perm].
  Qed.

  Theorem tt_cover : forall C items, 0 < C -> Forall (fun x => 0 < valueof x) items ->
    exists rest, is_cover valueof C items (cover_twothirds valueof true C items) rest /\
                 zsum (map valueof rest) < C.
  Proof. intros C items HC _. eexists. apply cinv_final, tt_final, HC. Qed.

  (** ---- threequarters ---- *)
  Notation pos := (fun x : A => 0 < valueof x).

  Lemma fold_add_spec l : forall c : bin A, wf_bin valueof c ->
    wf_bin valueof (fold_left (fun c x => add1 x c) l c) /\
    snd (fold_left (fun c x => add1 x c) l c) = snd c ++ l.
  Proof.
    induction l as [|x t IH]; intros c Hc; cbn [fold_left].
    - split; [exact Hc|rewrite app_nil_r; reflexivity].
    - destruct (IH (add1 x c)) as [H1 H2]; [apply add_to_bin_wf; [reflexivity|exact Hc]|].
      split; [exact H1|]. rewrite H2, add1_snd, <- app_assoc. reflexivity.
  Qed.

  Lemma fill_small_spec C : forall fuel (cur : bin A) small cur1 small',
    fill_small valueof true fuel C cur small = (cur1, small') -> wf_bin valueof cur ->
    wf_bin valueof cur1 /\
    exists used, snd cur1 = snd cur ++ used /\ Permutation small (small' ++ used).
  Proof.
    assert (Base : forall (cur : bin A) small cur1 small',
      (cur, small) = (cur1, small') -> wf_bin valueof cur ->
      wf_bin valueof cur1 /\
      exists used, snd cur1 = snd cur ++ used /\ Permutation small (small' ++ used)).
    { intros cur small cur1 small' E Hw. inversion E; subst. split; [exact Hw|].
      exists []. rewrite !app_nil_r. split; [reflexivity|apply Permutation_refl]. }
    induction fuel as [|f IH]; intros cur small cur1 small' E Hw; cbn [fill_small] in E.
    - apply Base; assumption.
    - destruct (fst cur <? C) eqn:EC; [|apply Base; assumption].
      destruct (unsnoc small) as [[r y]|] eqn:U; [|apply Base; assumption].
      apply unsnoc_Some in U.
      apply IH in E; [|apply add_to_bin_wf; [reflexivity|exact Hw]].
      destruct E as (H1 & used & H2 & H3). split; [exact H1|].
      exists (y :: used). split.
      + rewrite H2, add1_snd, <- app_assoc. reflexivity.
      + rewrite U, H3. perm_solve.
  Qed.

  Lemma Forall_firstn {T} (P : T -> Prop) n (l : list T) : Forall P l -> Forall P (firstn n l).
  Proof.
    intros H. rewrite <- (firstn_skipn n l) in H. apply Forall_app in H. destruct H as [H _]. exact H.
  Qed.

  Lemma firstn_pos_sum n (l : list A) :
    Forall pos l -> l <> [] -> (0 < n)%nat -> 0 < zsum (map valueof (firstn n l)).
  Proof.
    intros HF Hne Hn. destruct l as [|x t]; [congruence|]. destruct n as [|m]; [lia|].
    cbn [firstn map zsum fold_right]. inversion HF as [|x' t' Hx Ht]; subst.
    assert (H0 : 0 <= zsum (map valueof (firstn m t))).
    { apply zsum_nonneg. rewrite Forall_map. apply Forall_firstn.
      eapply Forall_impl; [|exact Ht]. cbv beta. intros y Hy. lia. }
    unfold zsum in H0. lia.
  Qed.

  Lemma firstn_nonneg_sum n (l : list A) : Forall pos l -> 0 <= zsum (map valueof (firstn n l)).
  Proof.
    intros HF. apply zsum_nonneg. rewrite Forall_map. apply Forall_firstn.
    eapply Forall_impl; [|exact HF]. cbv beta. intros y Hy. lia.
  Qed.

  Lemma tq_pick_spec st big medium cur0 big' medium' :
    tq_pick valueof true st big medium = (cur0, big', medium') ->
    wf_bin valueof (snd st) -> Forall pos big -> Forall pos medium ->
    is_nil big && is_nil medium = false ->
    wf_bin valueof cur0 /\
    (length big' + length medium' < length big + length medium)%nat /\
    exists taken, snd cur0 = snd (snd st) ++ taken /\
                  Permutation (big ++ medium) (taken ++ big' ++ medium').
  Proof.
    unfold tq_pick. intros E Hw Hb Hm Hne.
    destruct (zsum (map valueof (firstn 1 big)) >=? zsum (map valueof (firstn 2 medium))) eqn:Ecmp;
      injection E as Ec Eb Em; subst cur0 big' medium'.
    - destruct (fold_add_spec (firstn 1 big) (snd st) Hw) as [H1 H2].
      split; [exact H1|]. split.
      + assert (Hbig : big <> []).
        { intros ->. destruct medium as [|m0 mt]; [discriminate Hne|].
          pose proof (firstn_pos_sum 2 (m0 :: mt) Hm) as Hp.
          change (zsum (map valueof (firstn 1 []))) with 0 in Ecmp.
          assert (0 < zsum (map valueof (firstn 2 (m0 :: mt)))) by (apply Hp; [discriminate|lia]).
          lia. }
        clear - Hbig. destruct big as [|b0 bt]; [congruence|]. cbn [skipn length]. lia.
      + exists (firstn 1 big). split; [exact H2|].
        rewrite app_assoc, firstn_skipn. apply Permutation_refl.
    - destruct (fold_add_spec (firstn 2 medium) (snd st) Hw) as [H1 H2].
      split; [exact H1|]. split.
      + assert (Hmed : medium <> []).
        { intros ->. pose proof (firstn_nonneg_sum 1 big Hb) as Hp.
          change (zsum (map valueof (firstn 2 []))) with 0 in Ecmp. lia. }
        clear - Hmed. destruct medium as [|m0 [|m1 mt]]; [congruence| |]; cbn [skipn length]; lia.
      + exists (firstn 2 medium). split; [exact H2|].
        rewrite <- (firstn_skipn 2 medium) at 1. perm_solve.
  Qed.

  Lemma Forall_perm_app3 (P : A -> Prop) (t l1 l2 l1' l2' : list A) :
    Permutation (l1 ++ l2) (t ++ l1' ++ l2') -> Forall P l1 -> Forall P l2 ->
    Forall P l1' /\ Forall P l2'.
  Proof.
    intros HP H1 H2.
    assert (H : Forall P (t ++ l1' ++ l2')).
    { eapply Permutation_Forall; [exact HP|]. apply Forall_app. split; assumption. }
    apply Forall_app in H. destruct H as [_ H]. apply Forall_app in H. exact H.
  Qed.

  Lemma tq_loop_inv C items : 0 < C -> forall fuel st big medium small,
    cinv C items st (big ++ medium ++ small) ->
    Forall pos big -> Forall pos medium ->
    (length big + length medium < fuel)%nat ->
    cinv C items (tq_loop valueof true fuel C st big medium small) [].
  Proof.
    intros HC. induction fuel as [|f IH]; intros st big medium small H Hb Hm Hl; [lia|].
    rewrite tq_loop_close. destruct small as [|s0 smt].
    - apply dec_sub_inv; [exact HC|]. apply dec_sub_inv; [exact HC|]. exact H.
    - set (small := s0 :: smt) in *.
      destruct (is_nil big && is_nil medium) eqn:EN.
      + apply dec_sub_inv; [exact HC|]. rewrite app_nil_r.
        destruct big; [|discriminate EN]. destruct medium; [|discriminate EN]. exact H.
      + destruct (tq_pick valueof true st big medium) as [[cur0 big'] medium'] eqn:E1.
        destruct (fill_small valueof true (length small) C cur0 small) as [cur1 small'] eqn:E2.
        pose proof H as (_ & _ & Hw & _).
        destruct (tq_pick_spec st big medium cur0 big' medium' E1 Hw Hb Hm EN)
          as (Hw0 & Hlen & taken & Ht & HPt).
        destruct (fill_small_spec C _ _ _ _ _ E2 Hw0) as (Hw1 & used & Hu & HPu).
        destruct (Forall_perm_app3 pos taken big medium big' medium' HPt Hb Hm) as [Hb' Hm'].
        assert (HP : Permutation (snd (snd st) ++ big ++ medium ++ small)
                                 (snd cur1 ++ big' ++ medium' ++ small')).
        { rewrite Hu, Ht. rewrite (app_assoc big medium small). rewrite HPt, HPu. perm_solve. }
        apply IH; try assumption; [|lia].
        apply (cinv_close_full C items st (big ++ medium ++ small)); assumption.
  Qed.

  Lemma class_exclusive C x : 0 < C ->
    (is_big valueof C x = true /\ is_medium valueof C x = false /\ is_small valueof C x = false) \/
    (is_big valueof C x = false /\ is_medium valueof C x = true /\ is_small valueof C x = false) \/
    (is_big valueof C x = false /\ is_medium valueof C x = false /\ is_small valueof C x = true).
  Proof.
    intros HC. unfold is_big, is_medium, is_small.
    destruct (Z_le_gt_dec C (2 * valueof x)) as [H1|H1];
      [left|destruct (Z_le_gt_dec C (3 * valueof x)) as [H2|H2]; [right; left|right; right]];
      repeat split; lia.
  Qed.

  Lemma classes_perm C l : 0 < C ->
    Permutation (filter (is_big valueof C) l ++ filter (is_medium valueof C) l ++ filter (is_small valueof C) l) l.
  Proof. intros HC. apply filter3_perm. intros x. apply class_exclusive. exact HC. Qed.

  Lemma Forall_filter {T} (P : T -> Prop) (p : T -> bool) l : Forall P l -> Forall P (filter p l).
  Proof.
    intros H. apply Forall_forall. intros x Hx. apply filter_In in Hx. destruct Hx as [Hx _].
    rewrite Forall_forall in H. apply H. exact Hx.
  Qed.

  Lemma tq_final C items : 0 < C -> Forall pos items ->
    let s := sort_desc valueof items in
    cinv C items (tq_loop valueof true (S (length items)) C ([], empty_bin)
      (filter (is_big valueof C) s) (filter (is_medium valueof C) s) (filter (is_small valueof C) s)) [].
  Proof.
    intros HC Hpos s.
    assert (Hs : Forall pos s).
    { eapply Permutation_Forall; [symmetry; apply sort_desc_perm|exact Hpos]. }
    pose proof (classes_perm C s HC) as HP.
    apply tq_loop_inv; try assumption.
    - apply cinv_init; [exact HC|]. rewrite HP. apply sort_desc_perm.
    - apply Forall_filter. exact Hs.
    - apply Forall_filter. exact Hs.
    - apply Permutation_length in HP. rewrite !app_length in HP.
      unfold s in HP at 4. rewrite sort_desc_length in HP. lia.
  Qed.

  Theorem tq_cover : forall C items, 0 < C -> Forall (fun x => 0 < valueof x) items ->
    exists rest, is_cover valueof C items (cover_threequarters valueof true C items) rest /\
                 zsum (map valueof rest) < C.
  Proof. intros C items HC Hpos. eexists. apply cinv_final, tq_final; assumption. Qed.

  (** ---- C06: the sums-only run is the erasure of the contents-keeping run ---- *)
  Definition ebin (c : bin A) : bin A := (fst c, []).
  Notation ephi := (phi ebin).

  Lemma ebin_add x c : add_to_bin valueof false ((fun a : A => a) x) (ebin c) = ebin (add1 x c).
  Proof. reflexivity. Qed.

  Lemma erase_phi st : erase (fst st) = fst (ephi st).
  Proof. reflexivity. Qed.

  Lemma init_ephi : ([], empty_bin) = ephi ([], empty_bin).
  Proof. reflexivity. Qed.

  Theorem dec_erase : forall C items,
    erase (cover_decreasing valueof true C items) = cover_decreasing valueof false C items.
  Proof.
    intros C items. unfold cover_decreasing. rewrite erase_phi.
    rewrite <- (sim_dec_sub valueof true valueof false (fun a => a) ebin C C); try reflexivity.
    rewrite map_id. reflexivity.
  Qed.

  Theorem tt_erase : forall C items,
    erase (cover_twothirds valueof true C items) = cover_twothirds valueof false C items.
  Proof.
    intros C items. unfold cover_twothirds. rewrite erase_phi.
    rewrite <- (sim_tt_loop valueof true valueof false (fun a => a) ebin C C); try reflexivity.
    rewrite map_id. reflexivity.
  Qed.

  Theorem tq_erase : forall C items,
    erase (cover_threequarters valueof true C items) = cover_threequarters valueof false C items.
  Proof.
    intros C items. unfold cover_threequarters. cbv zeta. rewrite erase_phi.
    rewrite <- (sim_tq_loop valueof true valueof false (fun a => a) ebin C C); try reflexivity.
    rewrite !map_id. reflexivity.
  Qed.

  (** ---- C07: names are irrelevant ---- *)
  Definition vbin (c : bin A) : bin Z := (fst c, map valueof (snd c)).
  Notation vphi := (phi vbin).
  Notation idv := (fun v : Z => v).

  Lemma vbin_add x c : add_to_bin idv true (valueof x) (vbin c) = vbin (add1 x c).
  Proof. unfold add_to_bin, vbin. cbn [fst snd]. rewrite map_app. reflexivity. Qed.

  Lemma map_bins_phi st : map_bins valueof (fst st) = fst (vphi st).
  Proof. reflexivity. Qed.

  Lemma sort_desc_values items :
    sort_desc idv (map valueof items) = map valueof (sort_desc valueof items).
  Proof. symmetry. apply sort_desc_map. reflexivity. Qed.

  Theorem dec_names : forall C items,
    map_bins valueof (cover_decreasing valueof true C items) =
    cover_decreasing (fun v : Z => v) true C (map valueof items).
  Proof.
    intros C items. unfold cover_decreasing. rewrite map_bins_phi, sort_desc_values.
    rewrite <- (sim_dec_sub valueof true idv true valueof vbin C C); try reflexivity.
    exact vbin_add.
  Qed.

  Theorem tt_names : forall C items,
    map_bins valueof (cover_twothirds valueof true C items) =
    cover_twothirds (fun v : Z => v) true C (map valueof items).
  Proof.
    intros C items. unfold cover_twothirds. rewrite map_bins_phi, sort_desc_values, map_length.
    rewrite <- (sim_tt_loop valueof true idv true valueof vbin C C); try reflexivity.
    exact vbin_add.
  Qed.

  Theorem tq_names : forall C items,
    map_bins valueof (cover_threequarters valueof true C items) =
    cover_threequarters (fun v : Z => v) true C (map valueof items).
  Proof.
    intros C items. unfold cover_threequarters. cbv zeta.
    rewrite map_bins_phi, sort_desc_values, map_length.
    rewrite (filter_map_comm valueof (is_big valueof C) (is_big idv C)) by reflexivity.
    rewrite (filter_map_comm valueof (is_medium valueof C) (is_medium idv C)) by reflexivity.
    rewrite (filter_map_comm valueof (is_small valueof C) (is_small idv C)) by reflexivity.
    rewrite <- (sim_tq_loop valueof true idv true valueof vbin C C); try reflexivity.
    exact vbin_add.
  Qed.

  (** ---- C10: never more bins than the optimum ---- *)

  (** the sums of a well-formed bins-array are attained by its contents *)
  Lemma bins_attainable (b : bins A) : wf valueof b ->
    exists ps, map fst ps = map valueof (contents b) /\
               Forall (fun p => (snd p < length b)%nat) ps /\
               lrun ps (repeat 0 (length b)) = sums b.
  Proof.
    induction b as [|c b IH] using rev_ind; intros Hw.
    - exists []. repeat split. constructor.
    - apply Forall_app in Hw. destruct Hw as [Hwb Hwc].
      inversion Hwc as [|c' l' Hc _]; subst. destruct (IH Hwb) as (ps & Hm & Hf & Hs).
      exists (ps ++ map (fun v => (v, length (sums b))) (map valueof (snd c))).
      assert (Hlen : length (sums b) = length b) by apply map_length.
      rewrite app_length. cbn [length]. rewrite Nat.add_1_r. repeat split.
      + rewrite map_app, map_fst_tag, Hm, contents_snoc, map_app. reflexivity.
      + apply Forall_app. split.
        * eapply Forall_impl; [|exact Hf]. cbv beta. intros p Hp. lia.
        * apply Forall_tag. lia.
      + cbn [repeat]. rewrite repeat_cons. unfold lrun. rewrite fold_left_app. fold (lrun ps (repeat 0 (length b) ++ [0])).
        rewrite lrun_app_r by (rewrite repeat_length; exact Hf). rewrite Hs.
        fold (lrun (map (fun v => (v, length (sums b))) (map valueof (snd c))) (sums b ++ [0])).
        rewrite lrun_at. unfold sums. rewrite map_app. cbn [map]. unfold wf_bin in Hc. rewrite Hc.
        rewrite Z.add_0_l. reflexivity.
  Qed.

  Lemma partition_attainable k items (b : bins A) :
    is_partition valueof k items b -> Attainable k (map valueof items) (sums b).
  Proof.
    intros (HP & HL & HW). destruct (bins_attainable b HW) as (ps & Hm & Hf & Hs).
    apply (Attainable_perm k (map valueof (contents b))); [apply Permutation_map; exact HP|].
    apply Attainable_pairs. exists ps. rewrite HL in *. repeat split; assumption.
  Qed.

  Lemma cover_coverable C items (b : bins A) rest :
    is_cover valueof C items b rest -> Forall (fun x => 0 <= valueof x) rest ->
    Coverable C (map valueof items) (length b).
  Proof.
    intros (Hfull & Hw & HP) Hrest. destruct b as [|c t] eqn:Eb; [left; reflexivity|]. right.
    rewrite <- Eb in *. destruct (bins_attainable b Hw) as (ps & Hm & Hf & Hs).
    exists ((fst c + zsum (map valueof rest)) :: sums t). split.
    - apply (Attainable_perm _ (map valueof (contents b ++ rest))); [apply Permutation_map; exact HP|].
      apply Attainable_pairs.
      exists (ps ++ map (fun v => (v, length (@nil Z))) (map valueof rest)). repeat split.
      + rewrite map_app, map_fst_tag, Hm, map_app. reflexivity.
      + apply Forall_app. split; [exact Hf|]. apply Forall_tag. rewrite Eb. cbn [length]. lia.
      + unfold lrun. rewrite fold_left_app. fold (lrun ps (repeat 0 (length b))). rewrite Hs.
        rewrite Eb. change (sums (c :: t)) with ([] ++ fst c :: sums t).
        fold (lrun (map (fun v => (v, length (@nil Z))) (map valueof rest)) ([] ++ fst c :: sums t)).
        rewrite lrun_at. reflexivity.
    - rewrite Eb in Hfull. inversion Hfull as [|c' t' Hc Ht]; subst c' t'. constructor.
      + pose proof (zsum_nonneg (map valueof rest)) as Hnn. rewrite Forall_map in Hnn.
        specialize (Hnn Hrest). lia.
      + unfold sums. rewrite Forall_map. exact Ht.
  Qed.

  Lemma cover_le_opt C items (b : bins A) rest n :
    is_cover valueof C items b rest -> Forall (fun x => 0 < valueof x) items ->
    MaxCover C (map valueof items) n -> (length b <= n)%nat.
  Proof.
    intros Hc Hpos [_ Hmax]. apply Hmax. apply (cover_coverable C items b rest Hc).
    destruct Hc as (_ & _ & HP).
    assert (H : Forall (fun x => 0 < valueof x) (contents b ++ rest)).
    { eapply Permutation_Forall; [symmetry; exact HP|exact Hpos]. }
    apply Forall_app in H. destruct H as [_ H].
    eapply Forall_impl; [|exact H]. cbv beta. intros x Hx. lia.
  Qed.

  Theorem dec_le_opt : forall C items n, 0 < C -> Forall (fun x => 0 < valueof x) items ->
    MaxCover C (map valueof items) n -> (length (cover_decreasing valueof true C items) <= n)%nat.
  Proof.
    intros C items n HC Hpos Hmax. destruct (dec_cover C items HC Hpos) as (rest & Hc & _).
    exact (cover_le_opt C items _ rest n Hc Hpos Hmax).
  Qed.

  Theorem tt_le_opt : forall C items n, 0 < C -> Forall (fun x => 0 < valueof x) items ->
    MaxCover C (map valueof items) n -> (length (cover_twothirds valueof true C items) <= n)%nat.
  Proof.
    intros C items n HC Hpos Hmax. destruct (tt_cover C items HC Hpos) as (rest & Hc & _).
    exact (cover_le_opt C items _ rest n Hc Hpos Hmax).
  Qed.

  Theorem tq_le_opt : forall C items n, 0 < C -> Forall (fun x => 0 < valueof x) items ->
    MaxCover C (map valueof items) n -> (length (cover_threequarters valueof true C items) <= n)%nat.
  Proof.
    intros C items n HC Hpos Hmax. destruct (tq_cover C items HC Hpos) as (rest & Hc & _).
    exact (cover_le_opt C items _ rest n Hc Hpos Hmax).
  Qed.

  (** ---- C10: next-fit (in any order, so in particular decreasing) covers at least half
      of the optimum ---- *)
  Definition capsum (C : Z) (l : list A) : Z := zsum (map (fun x => Z.min (valueof x) C) l).

  Lemma capsum_app C l1 l2 : capsum C (l1 ++ l2) = capsum C l1 + capsum C l2.
  Proof. unfold capsum. rewrite map_app, zsum_app. reflexivity. Qed.

  Lemma capsum_le C l : capsum C l <= zsum (map valueof l).
  Proof.
    unfold capsum. induction l as [|x t IH]; cbn [map]; [lia|].
    change (zsum (Z.min (valueof x) C :: map (fun x => Z.min (valueof x) C) t))
      with (Z.min (valueof x) C + zsum (map (fun x => Z.min (valueof x) C) t)).
    change (zsum (valueof x :: map valueof t)) with (valueof x + zsum (map valueof t)). lia.
  Qed.

  Lemma capsum_single C x : capsum C [x] <= C.
  Proof. unfold capsum. cbn. lia. Qed.

  Lemma capsum_perm C l1 l2 : Permutation l1 l2 -> capsum C l1 = capsum C l2.
  Proof. intros H. unfold capsum. apply zsum_perm, Permutation_map. exact H. Qed.

  Definition half_inv (C : Z) (st : cstate (A:=A)) : Prop :=
    Forall (fun bn => capsum C (snd bn) < 2 * C) (fst st) /\
    wf_bin valueof (snd st) /\ fst (snd st) < C.

  Lemma cover_add_half C st x : half_inv C st -> 0 < C -> half_inv C (cover_add valueof true C st x).
  Proof.
    intros (H1 & H2 & H3) HC. unfold cover_add. cbv zeta.
    destruct (fst (add1 x (snd st)) >=? C) eqn:E; unfold half_inv; cbn [fst snd empty_bin].
    - repeat split; [|exact HC]. apply Forall_app. split; [exact H1|]. constructor; [|constructor].
      rewrite add1_snd, capsum_app. pose proof (capsum_le C (snd (snd st))) as Hle.
      pose proof (capsum_single C x) as Hx. unfold wf_bin in H2. lia.
    - repeat split; [exact H1| |lia]. apply add_to_bin_wf; [reflexivity|exact H2].
  Qed.

  Lemma dec_sub_half C l : forall st, half_inv C st -> 0 < C -> half_inv C (dec_sub valueof true C st l).
  Proof.
    unfold dec_sub. induction l as [|x t IH]; intros st H HC; cbn [fold_left]; [exact H|].
    apply IH; [|exact HC]. apply cover_add_half; assumption.
  Qed.

  Lemma capsum_contents C (b : bins A) :
    Forall (fun bn => capsum C (snd bn) < 2 * C) b ->
    capsum C (contents b) <= 2 * C * Z.of_nat (length b).
  Proof.
    induction 1 as [|c t Hc Ht IH].
    - cbn. lia.
    - change (contents (c :: t)) with (snd c ++ contents t). rewrite capsum_app. cbn [length]. rewrite Nat2Z.inj_succ. lia.
  Qed.

  Theorem dec_half_strong : forall C items n, 0 < C -> Forall (fun x => 0 < valueof x) items ->
    MaxCover C (map valueof items) n -> (n <= 2 * length (cover_decreasing valueof true C items))%nat.
  Proof.
    intros C items n HC Hpos [[Hn|(s & Hat & Hfull)] _]; [lia|].
    unfold cover_decreasing.
    set (st := dec_sub valueof true C ([], empty_bin) (sort_desc valueof items)).
    pose proof (dec_final C items HC) as Hinv. fold st in Hinv.
    assert (Hhalf : half_inv C st).
    { subst st. apply dec_sub_half; [|exact HC]. unfold half_inv. cbn [fst snd empty_bin].
      repeat split; [constructor|exact HC]. }
    destruct Hinv as (_ & _ & Hw & Hlt & HP). destruct Hhalf as (Hb & _ & _).
    rewrite app_nil_r in HP.
    assert (Hopt : Z.of_nat n * C <= capsum C items).
    { unfold capsum. rewrite <- (map_map valueof (fun v => Z.min v C)).
      apply (cover_cap_bound C n _ s); try assumption.
      rewrite Forall_map. eapply Forall_impl; [|exact Hpos]. cbv beta. intros x Hx. lia. }
    rewrite <- (capsum_perm C _ _ HP), capsum_app in Hopt.
    pose proof (capsum_contents C (fst st) Hb) as H1.
    pose proof (capsum_le C (snd (snd st))) as H2. unfold wf_bin in Hw.
    assert (Hlt' : Z.of_nat n * C < (2 * Z.of_nat (length (fst st)) + 1) * C) by lia.
    apply Z.mul_lt_mono_pos_r in Hlt'; [lia|exact HC].
  Qed.

  Theorem dec_half : forall C items n, 0 < C -> Forall (fun x => 0 < valueof x) items ->
    MaxCover C (map valueof items) n -> (n <= 2 * length (cover_decreasing valueof true C items) + 1)%nat.
  Proof.
    intros C items n HC Hpos Hmax. pose proof (dec_half_strong C items n HC Hpos Hmax). lia.
  Qed.

End CoveringProofs.

Print Assumptions dec_cover.
Print Assumptions tt_cover.
Print Assumptions tq_cover.
Print Assumptions dec_erase.
Print Assumptions tt_erase.
Print Assumptions tq_erase.
Print Assumptions dec_names.
Print Assumptions tt_names.
Print Assumptions tq_names.
Print Assumptions cover_coverable.
Print Assumptions dec_le_opt.
Print Assumptions tt_le_opt.
Print Assumptions tq_le_opt.
Print Assumptions dec_half_strong.
Print Assumptions dec_half.
