(** The 3/2 bound for best-fit-decreasing (Model/Packing.v, prtpy/packing/best_fit.py called on
    items sorted by descending value):

      bfd_ratio_32 :  2 * length b <= 3 * n      (BFD <= 3/2 OPT)

    The proof follows FFDRatioProofs.v, but the invariant [sfit] used there (no item fits into an
    earlier bin at its final sum) is FALSE for best-fit (example [bfd_not_sfit] below).  It is
    replaced by the any-fit invariant ([anyfit] of Spec/Partition.v, kept by PackingProofs.v: the FIRST item of a bin fits into no
    earlier bin) plus an invariant [bf2] of best-fit: the SECOND item y of a bin whose first
    item x is at most C/2 fits into no earlier bin.  (When y was placed its bin held only x; an
    earlier bin with sum s into which y fits has s <= x because best-fit prefers the fullest
    bin, and C < s + x by any-fit, so C < 2 x.)  In the volume argument the items paired with the
    bins of the first part are the first two items of each bin of the second part. *)
From Prtpy Require Import Base.Prelude Model.Binner Model.Packing Spec.Partition
  Proofs.BaseLemmas Proofs.BinnerLemmas Proofs.PackingProofs Oracle.Reach Proofs.OracleSpec
  Proofs.FFDRatioProofs.
From Coq Require Import ZifyBool Sorting.Sorted.

(** ---- 1. the best-fit scan returns the first fullest bin among those that fit ---- *)
Section ScanOpt.
  Context {A : Type}.

  Lemma bf_scan_opt C v (b : bins A) : forall i best k,
    fst (bf_scan C v b i best) = Some k ->
    (fst best = Some k /\ Forall (fun c => fst c + v <= C -> fst c + v <= snd best) b) \/
    exists l1 bn l2, b = l1 ++ bn :: l2 /\ k = (i + length l1)%nat /\ fst bn + v <= C /\
      snd best < fst bn + v /\
      Forall (fun c => fst c + v <= C -> fst c < fst bn) l1 /\
      Forall (fun c => fst c + v <= C -> fst c <= fst bn) l2.
  Proof.
    induction b as [|bn t IH]; intros i best k; cbn [bf_scan].
    - intros H. left. split; [exact H|constructor].
    - intros H. apply IH in H.
      destruct ((fst bn + v <=? C) && (snd best <? fst bn + v)) eqn:E.
      + destruct H as [[H1 H2]|(l1 & bn' & l2 & E1 & E2 & E3 & E4 & E5 & E6)].
        * right. exists [], bn, t. cbn [fst] in H1. injection H1 as H1. cbn [snd] in H2.
          cbn [app length]. repeat split; try lia; [constructor|].
          eapply Forall_impl; [|exact H2]. intros c Hc Hfit. specialize (Hc Hfit). lia.
        * right. exists (bn :: l1), bn', l2. subst t. cbn [app length snd] in *.
          repeat split; try lia; [|exact E6]. constructor; [lia|exact E5].
      + destruct H as [[H1 H2]|(l1 & bn' & l2 & E1 & E2 & E3 & E4 & E5 & E6)].
        * left. split; [exact H1|]. constructor; [lia|exact H2].
        * right. exists (bn :: l1), bn', l2. subst t. cbn [app length].
          repeat split; try lia; [|exact E6]. constructor; [lia|exact E5].
  Qed.
End ScanOpt.

(** ---- 2. one best-fit step, and the invariant [bf2] ---- *)
Section BFDStructure.
  Context {A : Type} (valueof : A -> Z).
  Notation add := (add_to_bin valueof true).

  Lemma bf_place_cases C x b : Forall (fun bn => -1 < fst bn + valueof x) b ->
    (exists l1 bn l2, b = l1 ++ bn :: l2 /\ bf_place valueof true C x b = l1 ++ add x bn :: l2 /\
       fst bn + valueof x <= C /\
       Forall (fun c => fst c + valueof x <= C -> fst c < fst bn) l1 /\
       Forall (fun c => fst c + valueof x <= C -> fst c <= fst bn) l2) \/
    (Forall (fun bn => C < fst bn + valueof x) b /\ bf_place valueof true C x b = b ++ [add x empty_bin]).
  Proof.
    intros Hpos. unfold bf_place.
    destruct (fst (bf_scan C (valueof x) b 0 (None, -1))) as [k|] eqn:E.
    - left. apply bf_scan_opt in E.
      destruct E as [[E _]|(l1 & bn & l2 & E1 & E2 & E3 & _ & E5 & E6)].
      + discriminate E.
      + exists l1, bn, l2. subst b. cbn [Nat.add] in E2. subst k. unfold add_item.
        rewrite update_app_r. repeat split; assumption.
    - right. split; [|reflexivity]. apply bf_scan_none in E. cbn [snd] in E.
      rewrite Forall_forall in *. intros bn Hin. specialize (E bn Hin). specialize (Hpos bn Hin). lia.
  Qed.

  (** the second item of [c] does not fit a bin of sum [s], unless the first item exceeds C/2 *)
  Definition later2_ok (C s : Z) (c : bin A) : Prop :=
    match snd c with x :: y :: _ => C < s + valueof y \/ C < 2 * valueof x | _ => True end.

  Fixpoint bf2 (C : Z) (b : bins A) : Prop :=
    match b with
    | [] => True
    | bn :: t => Forall (later2_ok C (fst bn)) t /\ bf2 C t
    end.

  Lemma later2_ok_grow C s s' t : s <= s' -> Forall (later2_ok C s) t -> Forall (later2_ok C s') t.
  Proof.
    intros Hs H. eapply Forall_impl; [|exact H]. intros c. unfold later2_ok.
    destruct (snd c) as [|x [|y l]]; [auto|auto|lia].
  Qed.

  (** any-fit, read at a position: the first item of [bn] fits no bin of [l1] *)
  Lemma anyfit_at C (l1 : bins A) bn l2 : anyfit valueof C (l1 ++ bn :: l2) ->
    Forall (fun c => later_ok valueof C (fst c) bn) l1.
  Proof.
    induction l1 as [|a l1 IH]; cbn [app]; [intros _; constructor|].
    rewrite anyfit_cons. intros [H1 H2]. constructor; [|apply IH; exact H2].
    apply Forall_app in H1. destruct H1 as [_ H1]. apply Forall_cons_iff in H1. destruct H1 as [H1 _]. exact H1.
  Qed.

  Lemma bf2_into C x bn l2 : 0 <= valueof x -> wf_bin valueof bn -> forall l1 : bins A,
    Forall (fun c => fst c + valueof x <= C -> fst c <= fst bn) l1 ->
    Forall (fun c => later_ok valueof C (fst c) bn) l1 ->
    bf2 C (l1 ++ bn :: l2) -> bf2 C (l1 ++ add x bn :: l2).
  Proof.
    intros Hx Hw. induction l1 as [|a l1 IH]; intros Hbest Hany; cbn [app bf2].
    - intros [H1 H2]. split; [|exact H2].
      apply (later2_ok_grow C (fst bn)); [unfold add_to_bin; cbn [fst]; lia|exact H1].
    - apply Forall_cons_iff in Hbest. destruct Hbest as [Ha Hbest].
      apply Forall_cons_iff in Hany. destruct Hany as [Hb Hany].
      intros [H1 H2]. split; [|apply IH; assumption].
      apply Forall_app in H1. destruct H1 as [H1a H1b].
      apply Forall_cons_iff in H1b. destruct H1b as [Hbn Hl2].
      apply Forall_app. split; [exact H1a|]. constructor; [|exact Hl2].
      unfold later2_ok, later_ok, wf_bin in *. unfold add_to_bin. cbn [snd].
      destruct (snd bn) as [|z [|y r]]; cbn [app].
      + exact I.
      + cbn [map] in Hw. rewrite zsum_cons, zsum_nil in Hw.
        destruct (Z_lt_le_dec C (fst a + valueof x)) as [Hlt|Hle]; [left; exact Hlt|right].
        specialize (Ha Hle). lia.
      + exact Hbn.
  Qed.

  Lemma bf2_new C x : forall b : bins A, bf2 C b -> bf2 C (b ++ [add x empty_bin]).
  Proof.
    induction b as [|a t IH]; cbn [app bf2].
    - intros _. split; constructor.
    - intros [H1 H2]. split; [|apply IH; exact H2].
      apply Forall_app. split; [exact H1|]. constructor; [|constructor].
      unfold later2_ok, add_to_bin, empty_bin. cbn. exact I.
  Qed.

  Lemma bf_place_bf2 C x b : 0 <= valueof x -> wf valueof b -> nonneg_sums b -> anyfit valueof C b ->
    bf2 C b -> bf2 C (bf_place valueof true C x b).
  Proof.
    intros Hx Hw Hnn Ha H2.
    destruct (bf_place_cases C x b (nonneg_sums_pos b (valueof x) Hx Hnn))
      as [(l1 & bn & l2 & E1 & E2 & E3 & E4 & _)|[E1 E2]]; rewrite E2.
    - subst b. apply bf2_into; auto.
      + unfold wf in Hw. apply Forall_app in Hw. destruct Hw as [_ Hw].
        apply Forall_cons_iff in Hw. destruct Hw as [Hw _]. exact Hw.
      + eapply Forall_impl; [|exact E4]. intros c Hc Hfit. specialize (Hc Hfit). lia.
      + apply (anyfit_at C l1 bn l2). exact Ha.
    - apply bf2_new. exact H2.
  Qed.

  (** ---- 3. the loop: best-fit is an any-fit rule whose steps keep [bf2] ---- *)
  Notation desc_sorted := (StronglySorted (fun a c : A => valueof c <= valueof a)).

  Lemma bf_struct C items b : items <> [] -> desc_sorted items ->
    Forall (fun x => 0 <= valueof x) items -> best_fit valueof true C items = Ok b ->
    Inv valueof C b items /\ bf2 C b /\ hdesc valueof b.
  Proof.
    intros Hne Hs Hnn H. unfold best_fit in H. rewrite bf_loop_gloop in H.
    apply (gloop_afd_first valueof (bf_place valueof true) (bf2 C) C); try assumption.
    - intros x b0. apply bf_is_step.
    - intros x b0 acc Hx (Hw & _ & _ & _ & Hsn & Ha) _. apply bf_place_bf2; assumption.
    - intros x. cbn [bf2]. split; constructor.
  Qed.

  (** ---- 4. counting: the first two items of each bin ---- *)
  Definition sel2 (b : bins A) : list A := flat_map (fun c : bin A => firstn 2 (snd c)) b.

  Lemma sel2_cons (c : bin A) b : sel2 (c :: b) = firstn 2 (snd c) ++ sel2 b.
  Proof. reflexivity. Qed.

  Definition small (C : Z) (y : A) : Prop := 0 <= valueof y /\ 2 * valueof y <= C.

  (** bins of small items: all but the last hold at least two items *)
  Lemma sel2_count C : forall b2 : bins A, wf valueof b2 -> anyfit valueof C b2 -> all_nonempty b2 ->
    Forall (small C) (contents b2) -> (2 * length b2 <= length (sel2 b2) + 1)%nat.
  Proof.
    induction b2 as [|bn t IH]; intros Hw Ha Hne Hsm; [cbn [length]; lia|].
    apply Forall_cons_iff in Hw. destruct Hw as [Hwb Hw].
    apply Forall_cons_iff in Hne. destruct Hne as [Hneb Hne].
    rewrite anyfit_cons in Ha. destruct Ha as [Ha1 Ha2].
    rewrite contents_cons in Hsm. apply Forall_app in Hsm. destruct Hsm as [Hsm1 Hsm2].
    specialize (IH Hw Ha2 Hne Hsm2). rewrite sel2_cons, app_length. cbn [length].
    destruct t as [|c t'].
    - destruct (snd bn) as [|z1 [|z2 r]]; [congruence| |]; cbn [firstn length]; lia.
    - apply Forall_cons_iff in Ha1. destruct Ha1 as [Hc _]. unfold later_ok in Hc.
      rewrite contents_cons in Hsm2. apply Forall_app in Hsm2. destruct Hsm2 as [Hsmc _].
      destruct (snd c) as [|y l]; [destruct Hc|].
      apply Forall_cons_iff in Hsmc. destruct Hsmc as [[Hy0 Hy1] _].
      unfold wf_bin in Hwb. destruct (snd bn) as [|z1 [|z2 r]].
      + congruence.
      + cbn [map] in Hwb. rewrite zsum_cons, zsum_nil in Hwb.
        apply Forall_cons_iff in Hsm1. destruct Hsm1 as [[_ Hz1] _]. lia.
      + cbn [firstn length] in *. lia.
  Qed.

  Lemma sel2_bin C s (c : bin A) : later_ok valueof C s c -> later2_ok C s c ->
    Forall (small C) (snd c) -> Forall (fun y => C < s + valueof y) (firstn 2 (snd c)).
  Proof.
    unfold later_ok, later2_ok. destruct (snd c) as [|x [|y l]]; intros H1 H2 Hsm; cbn [firstn].
    - constructor.
    - constructor; [exact H1|constructor].
    - apply Forall_cons_iff in Hsm. destruct Hsm as [[_ Hx] _].
      constructor; [exact H1|]. constructor; [lia|constructor].
  Qed.

  Lemma sel2_bins C s : forall b2 : bins A, Forall (later_ok valueof C s) b2 -> Forall (later2_ok C s) b2 ->
    Forall (small C) (contents b2) -> Forall (fun y => C < s + valueof y) (sel2 b2).
  Proof.
    induction b2 as [|c t IH]; intros H1 H2 Hsm; [constructor|].
    apply Forall_cons_iff in H1. destruct H1 as [H1c H1]. apply Forall_cons_iff in H2. destruct H2 as [H2c H2].
    rewrite contents_cons in Hsm. apply Forall_app in Hsm. destruct Hsm as [Hsmc Hsm].
    rewrite sel2_cons. apply Forall_app. split; [apply sel2_bin; assumption|apply IH; assumption].
  Qed.

  Lemma sel2_nofit C (b2 : bins A) : Forall (small C) (contents b2) -> forall b1 : bins A,
    anyfit valueof C (b1 ++ b2) -> bf2 C (b1 ++ b2) ->
    Forall (fun c => Forall (fun y => C < fst c + valueof y) (sel2 b2)) b1.
  Proof.
    intros Hsm. induction b1 as [|a b1 IH]; cbn [app]; [intros _ _; constructor|].
    rewrite anyfit_cons. cbn [bf2]. intros [Ha1 Ha2] [Hb1 Hb2].
    constructor; [|apply IH; assumption].
    apply Forall_app in Ha1. destruct Ha1 as [_ Ha1]. apply Forall_app in Hb1. destruct Hb1 as [_ Hb1].
    apply sel2_bins; assumption.
  Qed.

  Lemma firstn_volume n : forall l : list A, Forall (fun y => 0 <= valueof y) l ->
    zsum (map valueof (firstn n l)) <= zsum (map valueof l).
  Proof.
    intros l Hnn. rewrite <- (firstn_skipn n l) at 2. rewrite map_app, zsum_app.
    assert (0 <= zsum (map valueof (skipn n l))).
    { apply zsum_nonneg. rewrite Forall_map. rewrite <- (firstn_skipn n l) in Hnn.
      apply Forall_app in Hnn. destruct Hnn as [_ Hnn]. exact Hnn. }
    lia.
  Qed.

  Lemma sel2_volume : forall b : bins A, Forall (fun y => 0 <= valueof y) (contents b) ->
    zsum (map valueof (sel2 b)) <= zsum (map valueof (contents b)).
  Proof.
    induction b as [|c t IH]; intros Hnn; [cbn; lia|].
    rewrite contents_cons in *. apply Forall_app in Hnn. destruct Hnn as [Hc Hnn].
    rewrite sel2_cons, !map_app, !zsum_app.
    pose proof (firstn_volume 2 (snd c) Hc). specialize (IH Hnn). lia.
  Qed.

  Lemma sel2_nonneg (b : bins A) : Forall (fun y => 0 <= valueof y) (contents b) ->
    Forall (fun y => 0 <= valueof y) (sel2 b).
  Proof.
    induction b as [|c t IH]; intros Hnn; [constructor|].
    rewrite contents_cons in Hnn. apply Forall_app in Hnn. destruct Hnn as [Hc Hnn].
    rewrite sel2_cons. apply Forall_app. split; [|apply IH; exact Hnn].
    rewrite <- (firstn_skipn 2 (snd c)) in Hc. apply Forall_app in Hc. destruct Hc as [Hc _]. exact Hc.
  Qed.

  Lemma anyfit_app_r C (b1 b2 : bins A) : anyfit valueof C (b1 ++ b2) -> anyfit valueof C b2.
  Proof.
    induction b1 as [|a b1 IH]; cbn [app]; [auto|]. rewrite anyfit_cons. intros [_ H]. apply IH. exact H.
  Qed.

  (** ---- 5. the bound at a split position ---- *)
  Lemma bf_split_bound C (b1 b2 : bins A) items n :
    0 <= C -> b2 <> [] -> (length b1 <= 2 * length b2 - 1)%nat ->
    wf valueof (b1 ++ b2) -> Forall (fun y => 0 <= valueof y) (contents (b1 ++ b2)) ->
    anyfit valueof C (b1 ++ b2) -> bf2 C (b1 ++ b2) -> hdesc valueof (b1 ++ b2) ->
    Permutation (contents (b1 ++ b2)) items ->
    Packable C (map valueof items) n -> (length b1 + 1 <= n)%nat.
  Proof.
    intros HC Hb2 Hlen Hw Hnn Ha H2 Hh Hp Hpack.
    apply (split_bound_gen valueof C b1 b2 items n); try assumption. intros Hsm.
    destruct (hdesc_app valueof b1 b2 Hh) as [_ Hh2].
    unfold wf in Hw. apply Forall_app in Hw. destruct Hw as [_ Hw2].
    rewrite contents_app in Hnn. apply Forall_app in Hnn. destruct Hnn as [_ Hnn2].
    pose proof (sel2_count C b2 Hw2 (anyfit_app_r C b1 _ Ha) (hdesc_nonempty valueof _ Hh2) Hsm) as Hcount.
    exists (sel2 b2). split; [lia|]. split; [exact (sel2_nofit C _ Hsm b1 Ha H2)|].
    split; [exact (sel2_nonneg _ Hnn2)|exact (sel2_volume _ Hnn2)].
  Qed.

  (** ---- 6. any bins-array with the four invariants ---- *)
  Theorem bf_struct_ratio_32 C (b : bins A) items n :
    0 <= C -> b <> [] -> wf valueof b -> Forall (fun y => 0 <= valueof y) (contents b) ->
    anyfit valueof C b -> bf2 C b -> hdesc valueof b -> Permutation (contents b) items ->
    Packable C (map valueof items) n -> (2 * length b <= 3 * n)%nat.
  Proof.
    intros HC Hne Hw Hnn Ha H2 Hh Hp Hpack. apply ratio_32_of_split; [exact Hne|].
    intros b1 b2 E Hb2 Hlen. subst b. apply (bf_split_bound C b1 b2 items n); assumption.
  Qed.

  (** ---- 7. best-fit-decreasing ---- *)
  Lemma bfd_structure C items b : items <> [] -> Forall (fun x => 0 <= valueof x) items ->
    best_fit_decreasing valueof true C items = Ok b ->
    b <> [] /\ wf valueof b /\ Forall (fun y => 0 <= valueof y) (contents b) /\
    anyfit valueof C b /\ bf2 C b /\ hdesc valueof b /\ Permutation (contents b) items.
  Proof.
    intros Hne Hnn H. unfold best_fit_decreasing in H.
    destruct (bf_struct C (sort_desc valueof items) b (sort_desc_nonnil valueof items Hne)
                (sort_desc_sorted valueof items) (sort_desc_nonneg valueof items Hnn) H)
      as ((Hw & _ & Hp & _ & _ & Ha) & H2 & Hh).
    assert (Hp' : Permutation (contents b) items) by (rewrite Hp; apply sort_desc_perm).
    split; [|split; [exact Hw|split; [|split; [exact Ha|split; [exact H2|split; [exact Hh|exact Hp']]]]]].
    - intros E. subst b. apply Permutation_nil in Hp'. congruence.
    - eapply Permutation_Forall; [symmetry; exact Hp'|exact Hnn].
  Qed.

  Lemma bfd_cap_nonneg C items b : items <> [] -> Forall (fun x => 0 <= valueof x) items ->
    best_fit_decreasing valueof true C items = Ok b -> 0 <= C.
  Proof.
    intros Hne Hnn H. pose proof (ok_values_le valueof C items _ b (bfd_error_iff valueof C items) H) as Hle.
    destruct items as [|x t]; [congruence|].
    apply Forall_cons_iff in Hnn. apply Forall_cons_iff in Hle. lia.
  Qed.

  (** BFD <= 3/2 OPT *)
  Theorem bfd_ratio_32 C items b n :
    items <> [] -> Forall (fun x => 0 <= valueof x) items ->
    best_fit_decreasing valueof true C items = Ok b ->
    Packable C (map valueof items) n -> (2 * length b <= 3 * n)%nat.
  Proof.
    intros Hne Hnn H Hpack.
    destruct (bfd_structure C items b Hne Hnn H) as (Hb & Hw & Hnn' & Ha & H2 & Hh & Hp).
    apply (bf_struct_ratio_32 C b items n); auto. apply (bfd_cap_nonneg C items b); assumption.
  Qed.

  Corollary bfd_ratio_32_opt C items b n :
    items <> [] -> Forall (fun x => 0 <= valueof x) items ->
    best_fit_decreasing valueof true C items = Ok b ->
    MinBins C (map valueof items) n -> (2 * length b <= 3 * n)%nat.
  Proof. intros Hne Hnn H [Hpack _]. apply (bfd_ratio_32 C items b n); assumption. Qed.

  (** the sums-only binner makes the same decisions *)
  Corollary bfd_ratio_32_sums C items b n :
    items <> [] -> Forall (fun x => 0 <= valueof x) items ->
    best_fit_decreasing valueof false C items = Ok b ->
    Packable C (map valueof items) n -> (2 * length b <= 3 * n)%nat.
  Proof.
    intros Hne Hnn H Hpack. rewrite <- bfd_erase in H.
    destruct (best_fit_decreasing valueof true C items) as [b1|e] eqn:E; [|discriminate H].
    cbn [rmap] in H. injection H as H. subst b. rewrite erase_length.
    apply (bfd_ratio_32 C items b1 n); assumption.
  Qed.
End BFDStructure.

(** ---- 8. examples ---- *)

(** [sfit] (the invariant of the first-fit proof) fails for best-fit-decreasing: 15 fits bin 0 *)
Example bfd_not_sfit :
  best_fit_decreasing idZ true 100 [80; 30; 30; 25; 15] = Ok [(80, [80]); (100, [30; 30; 25; 15])].
Proof. vm_compute. reflexivity. Qed.

Example bfd_not_sfit' b : best_fit_decreasing idZ true 100 [80; 30; 30; 25; 15] = Ok b -> ~ sfit idZ 100 b.
Proof.
  rewrite bfd_not_sfit. intros H. injection H as H. subst b. cbn [sfit]. intros [H _].
  cbn in H. repeat (apply Forall_cons_iff in H; destruct H as [? H]). lia.
Qed.

(** the bound 3/2 is attained: BFD uses 3 bins, 2 suffice *)
Example bfd_32_tight :
  rmap (@length (bin Z)) (best_fit_decreasing idZ true 10 [4; 4; 3; 3; 3; 3]) = Ok 3%nat /\
  min_bins 10 [4; 4; 3; 3; 3; 3] = 2%nat.
Proof. vm_compute. split; reflexivity. Qed.

Example bfd_32_tight_thm b :
  best_fit_decreasing idZ true 10 [4; 4; 3; 3; 3; 3] = Ok b -> (2 * length b <= 3 * 2)%nat.
Proof.
  intros H. apply (bfd_ratio_32_opt idZ 10 [4; 4; 3; 3; 3; 3] b 2); [discriminate| |exact H|].
  - repeat constructor; lia.
  - apply (min_bins_MinBins 10 [4; 4; 3; 3; 3; 3]). repeat constructor; lia.
Qed.

(** the pseudo-random family below satisfies the check
    because the theorems hold for every admissible input ([bfd_32_check_true]): nothing is evaluated *)
Definition l2ok (C s : Z) (c : bin Z) : bool :=
  match snd c with x :: y :: _ => (C <? s + y) || (C <? 2 * x) | _ => true end.
Fixpoint bf2b (C : Z) (b : bins Z) : bool :=
  match b with [] => true | bn :: t => forallb (l2ok C (fst bn)) t && bf2b C t end.
Definition bfd_32_check (C : Z) (vs : list Z) : bool :=
  match best_fit_decreasing idZ true C vs with
  | Ok b => bf2b C b && (1 <=? length b)%nat && (2 * length b <=? 3 * min_bins C vs)%nat
  | Err _ => false
  end.

Lemma bf2b_true C (b : bins Z) : bf2 idZ C b -> bf2b C b = true.
Proof.
  induction b as [|bn t IH]; cbn [bf2 bf2b]; [reflexivity|]. intros [H1 H2].
  rewrite (IH H2), andb_true_r. apply forallb_forall. intros c Hc.
  rewrite Forall_forall in H1. specialize (H1 c Hc). unfold later2_ok in H1. unfold l2ok.
  destruct (snd c) as [|x [|y l]]; [reflexivity|reflexivity|lia].
Qed.

Lemma bfd_32_check_true C vs : vs <> [] -> Forall (fun v => 0 < v <= C) vs -> bfd_32_check C vs = true.
Proof.
  intros Hne H. unfold bfd_32_check.
  assert (Hnn : Forall (fun v => 0 <= idZ v) vs) by (eapply Forall_impl; [|exact H]; cbv beta; lia).
  destruct (best_fit_decreasing idZ true C vs) as [b|e] eqn:E.
  - pose proof (bfd_ratio_32_opt idZ C vs b _ Hne Hnn E (min_bins_MinBins C vs H)) as Hr.
    destruct (bfd_structure idZ C vs b Hne Hnn E) as (Hb & _ & _ & _ & H2 & _).
    rewrite (bf2b_true C b H2). destruct b as [|bn t]; [congruence|]. cbn [length andb] in *.
    apply Nat.leb_le. lia.
  - exfalso. apply (no_value_above C vs H), bfd_error_iff. exists e. exact E.
Qed.

Example bfd_32_random :
  forallb (fun s => bfd_32_check (fst (ffd_32_instance s)) (snd (ffd_32_instance s))) (map Z.of_nat (seq 1 80)) = true.
Proof. apply forallb_forall. intros s _. apply bfd_32_check_true; apply ffd_32_instance_values. Qed.

Example bfd_32_johnson :
  bfd_32_check 100 (repeat 51 2 ++ repeat 27 2 ++ repeat 26 2 ++ repeat 23 4) = true.
Proof. apply bfd_32_check_true; [discriminate|repeat constructor; lia]. Qed.

Check bf_scan_opt.
Check bf_place_cases.
Check bf_place_bf2.
Check step_hdesc.
Check bf_struct.
Check bf_struct_ratio_32.
Check bfd_ratio_32.
Check bfd_ratio_32_opt.
Check bfd_ratio_32_sums.

Print Assumptions bfd_ratio_32.
Print Assumptions bfd_ratio_32_opt.
Print Assumptions bfd_ratio_32_sums.
Print Assumptions bfd_32_tight_thm.
Print Assumptions bfd_not_sfit'.
