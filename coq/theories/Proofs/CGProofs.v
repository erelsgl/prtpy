(** Properties of the model of complete_greedy.py (Model/CG.v):
    safety under every interruption point (C01, C11), incumbent bookkeeping and the progress
    order of a run, only-improves and large limits by a simulation of two runs with different
    limits (C11), totality without a limit (C01) and first solution = LPT (C11) by following the
    run down to its first leaf, and the run under a map of the bins-arrays ([cg_run_map]), of
    which the sums-only run (C06) is the instance [erase]. *)
From Prtpy Require Import Base.Prelude Model.Binner Model.Objectives Model.CG Model.Greedy
  Spec.Partition Proofs.BaseLemmas Proofs.BinnerLemmas Proofs.EraseLemmas.
From Coq Require Import Sorting.Sorted Arith ZifyBool.

Lemma cg_rev_range_S n : rev (range (S n)) = n :: rev (range n).
Proof. unfold range. rewrite range_from_S, rev_app_distr. reflexivity. Qed.

Lemma cg_In_rev_range j n : In j (rev (range n)) <-> (j < n)%nat.
Proof. rewrite <- in_rev. unfold range. rewrite range_from_In. lia. Qed.

Lemma cg_rev_range_pos k : (1 <= k)%nat -> exists bi idxs, rev (range k) = bi :: idxs.
Proof. destruct k as [|n]; intros H; [lia|]. rewrite cg_rev_range_S. eauto. Qed.

(** the order on incumbent values, None = +inf.  [better_or_equal r2 r1]: r2 is at least as good as r1 *)
Definition better_or_equal (r2 r1 : option Z) : Prop :=
  match r1, r2 with
  | None, _ => True
  | Some _, None => False
  | Some v1, Some v2 => v2 <= v1
  end.

Lemma boe_refl r : better_or_equal r r.
Proof. destruct r; simpl; lia. Qed.

Lemma boe_trans r3 r2 r1 : better_or_equal r3 r2 -> better_or_equal r2 r1 -> better_or_equal r3 r1.
Proof. destruct r1, r2, r3; simpl; try lia; tauto. Qed.

Lemma boe_lt_bestv v r : lt_bestv v r = true -> better_or_equal (Some v) r.
Proof. destruct r; simpl; [lia|auto]. Qed.

Lemma cg_update_perm_split (f : Z -> Z) i l : (i < length l)%nat ->
  exists r, Permutation l (nth i l 0 :: r) /\ Permutation (update i f l) (f (nth i l 0) :: r).
Proof.
  intros H. destruct (update_split i f l H) as (l1 & y & l2 & E1 & E2 & E3).
  assert (Hn : nth i l 0 = y).
  { rewrite E1, app_nth2 by lia. rewrite E2, Nat.sub_diag. reflexivity. }
  exists (l1 ++ l2). rewrite Hn, E3. split.
  - rewrite E1. symmetry. apply Permutation_middle.
  - symmetry. apply Permutation_middle.
Qed.

(** adding to entries of equal value gives the same multiset *)
Lemma cg_update_perm (f : Z -> Z) i j l1 l2 : Permutation l1 l2 ->
  (i < length l1)%nat -> (j < length l2)%nat -> nth i l1 0 = nth j l2 0 ->
  Permutation (update i f l1) (update j f l2).
Proof.
  intros P Hi Hj E.
  destruct (cg_update_perm_split f i l1 Hi) as (r1 & A1 & B1).
  destruct (cg_update_perm_split f j l2 Hj) as (r2 & A2 & B2).
  rewrite B1, B2, E. apply perm_skip. apply Permutation_cons_inv with (a := nth j l2 0).
  rewrite <- A2, <- E, <- A1. exact P.
Qed.

Definition cg_sumsq (l : list Z) : Z := zsum (map (fun z => z * z) l).

Lemma cg_sumsq_perm l1 l2 : Permutation l1 l2 -> cg_sumsq l1 = cg_sumsq l2.
Proof. intros P. apply zsum_perm, Permutation_map, P. Qed.

Lemma cg_sumsq_update v i l : (i < length l)%nat ->
  cg_sumsq (update i (fun z => z + v) l) = cg_sumsq l + 2 * v * nth i l 0 + v * v.
Proof.
  intros Hi. destruct (cg_update_perm_split (fun z => z + v) i l Hi) as (r & A1 & B1).
  rewrite (cg_sumsq_perm _ _ B1). rewrite (cg_sumsq_perm _ _ A1) at 1.
  unfold cg_sumsq. cbn [map zsum fold_right]. lia.
Qed.

(** conversely (for a non-zero amount) equal multisets mean equal bin sums *)
Lemma cg_update_perm_inv v i j l : (i < length l)%nat -> (j < length l)%nat ->
  Permutation (update i (fun z => z + v) l) (update j (fun z => z + v) l) ->
  v = 0 \/ nth i l 0 = nth j l 0.
Proof.
  intros Hi Hj P. apply cg_sumsq_perm in P. rewrite !cg_sumsq_update in P by assumption.
  assert (E : v * (nth i l 0 - nth j l 0) = 0) by lia.
  apply Z.mul_eq_0 in E. lia.
Qed.

Definition lpt_step (s : list Z) (v : Z) : list Z := update (argmin s) (fun z => z + v) s.

Lemma cg_lpt_step_perm s1 s2 v : Permutation s1 s2 -> Permutation (lpt_step s1 v) (lpt_step s2 v).
Proof.
  intros P. unfold lpt_step. destruct s1 as [|a1 t1].
  - apply Permutation_nil in P. subst s2. reflexivity.
  - assert (N1 : a1 :: t1 <> []) by discriminate.
    assert (N2 : s2 <> []).
    { intros ->. apply Permutation_sym, Permutation_nil in P. discriminate. }
    destruct (argmin_spec _ N1) as (L1 & M1 & _). destruct (argmin_spec _ N2) as (L2 & M2 & _).
    apply cg_update_perm; [exact P|exact L1|exact L2|].
    (* both are the minimum of the same multiset *)
    rewrite Forall_forall in M1, M2.
    pose proof (M2 _ (Permutation_in _ P (nth_In _ 0 L1))).
    pose proof (M1 _ (Permutation_in _ (Permutation_sym P) (nth_In _ 0 L2))). lia.
Qed.

(** on an ascending list the LPT step is (up to order) adding to position 0 *)
Lemma cg_lpt_step_sorted s v : StronglySorted Z.le s ->
  Permutation (lpt_step s v) (update O (fun z => z + v) s).
Proof.
  intros Hs. unfold lpt_step. destruct s as [|a t]; [reflexivity|].
  assert (N : a :: t <> []) by discriminate.
  destruct (argmin_spec _ N) as (L & M & _).
  apply cg_update_perm; [reflexivity|exact L|cbn [length]; lia|].
  inversion Hs as [|a' t' Ht Ha]; subst.
  assert (H1 : nth (argmin (a :: t)) (a :: t) 0 <= a).
  { rewrite Forall_forall in M. apply M. left. reflexivity. }
  assert (H2 : a <= nth (argmin (a :: t)) (a :: t) 0).
  { destruct (argmin (a :: t)) as [|j] eqn:Ej; cbn [nth]; [lia|].
    rewrite Forall_forall in Ha. apply Ha. apply nth_In. cbn [length] in L. lia. }
  change (nth O (a :: t) 0) with a. lia.
Qed.

Lemma cg_rev_last {T} (l : list T) d : l <> [] -> exists l', rev l = last l d :: l'.
Proof.
  intros H. exists (rev (removelast l)).
  rewrite (app_removelast_last d H) at 1. rewrite rev_app_distr. reflexivity.
Qed.

Lemma cg_last_In {T} (l : list T) d : l <> [] -> In (last l d) l.
Proof.
  intros H. rewrite (app_removelast_last d H) at 2. apply in_or_app. right. left. reflexivity.
Qed.

Lemma cg_zlist_eqb_eq l1 : forall l2, zlist_eqb l1 l2 = true -> l1 = l2.
Proof.
  induction l1 as [|x t IH]; intros [|y u] H; cbn [zlist_eqb] in H; try discriminate; auto.
  apply andb_true_iff in H as [H1 H2]. apply Z.eqb_eq in H1. subst y. f_equal. apply IH. exact H2.
Qed.

Section CGProofs.
  Context {A : Type} (valueof : A -> Z).

  Section Generic.
    Variables (keep : bool) (o : objective) (flags : cg_flags) (limit : option nat) (k : nat)
              (glb : option Z).

    Definition cg_child (b : bins A) (x : A) (bi : nat) : bins A :=
      sort_bins (add_item valueof keep b x bi).
    Definition cg_h3bins (rest : list A) (b : bins A) : bins A :=
      sort_bins (fold_left (fun bb y => add_item valueof keep bb y O) rest b).

    Lemma cg_child_sums (b : bins A) x bi :
      Permutation (sums (cg_child b x bi)) (update bi (fun z => z + valueof x) (sums b)).
    Proof. unfold cg_child. rewrite sort_bins_sums_perm, add_item_sums. reflexivity. Qed.

    Lemma cg_child_sorted (b : bins A) x bi : StronglySorted Z.le (sums (cg_child b x bi)).
    Proof. apply sort_bins_sorted. Qed.

    Lemma cg_child_length (b : bins A) x bi : length (cg_child b x bi) = length b.
    Proof. unfold cg_child. rewrite sort_bins_length. apply add_item_length. Qed.

    Lemma cg_enter_some (st st1 : @cg_state A) : cg_enter limit st = Some st1 ->
      cg_stop st = false /\
      st1 = mk_cg (cg_best st) (cg_bestv st) (cg_seen st) false (S (cg_ticks st)) (cg_first st).
    Proof.
      unfold cg_enter. destruct (cg_stop st); [discriminate|].
      cbv zeta. destruct limit as [n|].
      - destruct (Nat.ltb n _); [discriminate|]. intros H; inversion H; auto.
      - intros H; inversion H; auto.
    Qed.

    Lemma cg_enter_stopped (st : @cg_state A) : cg_stop st = true -> cg_enter limit st = None.
    Proof. unfold cg_enter. intros ->. reflexivity. Qed.

    Lemma cg_halt_stopped (st : @cg_state A) : cg_stop st = true -> cg_halt st = st.
    Proof. unfold cg_halt. intros ->. reflexivity. Qed.

    Definition cg_prev_skip (prev : option Z) (cs : Z) : bool :=
      match prev with Some p => cs =? p | None => false end.

    Definition cg_fast_lb (bi : nat) (cur : list Z) (x : A) (R : Z) : option Z :=
      if use_fast_lower_bound flags then
        match o with
        | MinLargest => Some (Z.max (nth bi cur 0 + valueof x) (last0 cur))
        | MaxSmallest =>
            let ns := match bi with
                      | O => let a := head0 cur + valueof x in
                             if Nat.ltb 1 k then Z.min a (nth 1 cur 0) else a
                      | _ => head0 cur
                      end in
            Some (- (ns + R))
        | _ => None
        end
      else None.

    Definition cg_pruned (bi : nat) (b : bins A) (cur : list Z) (x : A) (R : Z) (bestv : option Z) : bool :=
      lb_ge_bestv (cg_fast_lb bi cur x R) bestv
      || (use_lower_bound flags && lb_ge_bestv (lower_bound o (sums (cg_child b x bi)) R true) bestv).

    Definition cg_seen_skip (depth : nat) (ns : list Z) (seen : list (nat * list Z)) : bool :=
      use_set_of_seen_states flags && existsb (state_eqb (S depth, ns)) seen.

    Lemma cg_seen_skip_In depth ns seen : cg_seen_skip depth ns seen = true -> In (S depth, ns) seen.
    Proof.
      unfold cg_seen_skip. intros H. apply andb_true_iff in H. destruct H as [_ H].
      apply existsb_exists in H. destruct H as ([d' ns'] & Hin & He).
      unfold state_eqb in He. cbn [fst snd] in He. apply andb_true_iff in He.
      destruct He as [H1 H2]. apply Nat.eqb_eq in H1. apply cg_zlist_eqb_eq in H2.
      subst d' ns'. exact Hin.
    Qed.

    Definition cg_seen_add (depth : nat) (ns : list Z) (seen : list (nat * list Z)) :=
      if use_set_of_seen_states flags then (S depth, ns) :: seen else seen.

    Notation children := (cg_children valueof keep o flags k).

    Lemma cg_children_cons bi idxs b cur x R depth prev bestv seen :
      children (bi :: idxs) b cur x R depth prev bestv seen =
      let cs := nth bi cur 0 in
      if cg_prev_skip prev cs then children idxs b cur x R depth prev bestv seen
      else if cg_pruned bi b cur x R bestv then children idxs b cur x R depth (Some cs) bestv seen
      else let nb := cg_child b x bi in
           if cg_seen_skip depth (sums nb) seen then children idxs b cur x R depth (Some cs) bestv seen
           else let r := children idxs b cur x R depth (Some cs) bestv (cg_seen_add depth (sums nb) seen) in
                (nb :: fst r, snd r).
    Proof.
      cbn [cg_children]. cbv zeta.
      unfold cg_prev_skip, cg_pruned, cg_fast_lb, cg_seen_skip, cg_seen_add, cg_child.
      destruct (match prev with Some p => nth bi cur 0 =? p | None => false end); [reflexivity|].
      destruct (lb_ge_bestv _ bestv); [reflexivity|]. cbn [orb].
      destruct (use_lower_bound flags && _); [reflexivity|].
      destruct (use_set_of_seen_states flags); cbn [andb].
      - destruct (existsb _ seen); [reflexivity|].
        destruct (cg_children _ _ _ _ _ _ _ _ _ _ _ _ _ _) as [cs' seen']. reflexivity.
      - destruct (cg_children _ _ _ _ _ _ _ _ _ _ _ _ _ _) as [cs' seen']. reflexivity.
    Qed.

    Lemma cg_pruned_none bi b cur x R : cg_pruned bi b cur x R None = false.
    Proof.
      unfold cg_pruned, lb_ge_bestv, ge_bestv.
      destruct (cg_fast_lb bi cur x R); destruct (lower_bound o _ R true);
        destruct (use_lower_bound flags); reflexivity.
    Qed.

    (** every generated child is the parent plus the next item in some bin of the index list *)
    Lemma cg_children_spec idxs b cur x R depth : forall prev bestv seen,
      Forall (fun c => exists bi, In bi idxs /\ c = cg_child b x bi)
             (fst (children idxs b cur x R depth prev bestv seen)).
    Proof.
      induction idxs as [|bi idxs IH]; intros prev bestv seen.
      - cbn. constructor.
      - rewrite cg_children_cons. cbv zeta.
        assert (Hw : forall l, Forall (fun c => exists bi0, In bi0 idxs /\ c = cg_child b x bi0) l ->
                               Forall (fun c => exists bi0, In bi0 (bi :: idxs) /\ c = cg_child b x bi0) l).
        { intros l Hl. eapply Forall_impl; [|exact Hl]. cbv beta.
          intros c (bi0 & Hin & Hc). exists bi0. split; [right; auto|auto]. }
        destruct (cg_prev_skip _ _); [apply Hw, IH|].
        destruct (cg_pruned _ _ _ _ _ _); [apply Hw, IH|].
        destruct (cg_seen_skip _ _ _); [apply Hw, IH|].
        cbn [fst]. constructor; [|apply Hw, IH].
        exists bi. split; [left; auto|auto].
    Qed.

    (** the states recorded by a generation are those of the generated children *)
    Lemma cg_children_seen idxs b cur x R depth : forall prev bestv seen,
      snd (children idxs b cur x R depth prev bestv seen) =
      (if use_set_of_seen_states flags
       then rev (map (fun c => (S depth, sums c)) (fst (children idxs b cur x R depth prev bestv seen)))
       else []) ++ seen.
    Proof.
      induction idxs as [|bi idxs IH]; intros prev bestv seen.
      - cbn. destruct (use_set_of_seen_states flags); reflexivity.
      - rewrite cg_children_cons. cbv zeta.
        destruct (cg_prev_skip _ _); [apply IH|].
        destruct (cg_pruned _ _ _ _ _ _); [apply IH|].
        destruct (cg_seen_skip _ _ _); [apply IH|].
        cbn [fst snd]. rewrite IH. unfold cg_seen_add.
        destruct (use_set_of_seen_states flags); [|reflexivity].
        cbn [map rev]. rewrite <- app_assoc. reflexivity.
    Qed.

    Notation explore := (cg_explore valueof keep o flags limit k glb).
    Notation leaf := (cg_leaf o limit glb).

    Lemma cg_leaf_eq b (st : @cg_state A) :
      leaf b st =
      match cg_enter limit st with
      | None => cg_halt st
      | Some st1 =>
          if lt_bestv (value o (sums b) false) (cg_bestv st1) then
            mk_cg (Some b) (Some (value o (sums b) false)) (cg_seen st1)
                  (match glb with Some g => value o (sums b) false <=? g | None => false end)
                  (cg_ticks st1)
                  (match cg_first st1 with None => Some b | f => f end)
          else st1
      end.
    Proof. reflexivity. Qed.

    Lemma cg_explore_nil depth b st : explore [] depth b st = leaf b st.
    Proof. reflexivity. Qed.

    Definition cg_h3_cond (rest : list A) (cur : list Z) : bool :=
      use_heuristic_3 flags && objective_eqb o MinLargest
      && (zsum (map valueof rest) + head0 cur <=? last0 cur).

    Lemma cg_explore_cons x t depth b st :
      explore (x :: t) depth b st =
      match cg_enter limit st with
      | None => cg_halt st
      | Some st1 =>
          if cg_h3_cond (x :: t) (sums b) then leaf (cg_h3bins (x :: t) b) st1
          else
            let r := children (rev (range k)) b (sums b) x (zsum (map valueof t)) depth None
                              (cg_bestv st1) (cg_seen st1) in
            fold_left (fun s c => explore t (S depth) c s) (rev (fst r))
                      (mk_cg (cg_best st1) (cg_bestv st1) (snd r) false (cg_ticks st1) (cg_first st1))
      end.
    Proof.
      cbn [cg_explore]. destruct (cg_enter limit st) as [st1|]; [|reflexivity].
      unfold cg_h3_cond, cg_h3bins. cbv zeta.
      destruct (use_heuristic_3 flags && objective_eqb o MinLargest && _); [reflexivity|].
      destruct (cg_children _ _ _ _ _ _ _ _ _ _ _ _ _ _) as [cs' seen']. reflexivity.
    Qed.

    Lemma cg_explore_none rest depth b st : cg_enter limit st = None -> explore rest depth b st = cg_halt st.
    Proof.
      intros E. destruct rest as [|x t].
      - rewrite cg_explore_nil, cg_leaf_eq, E. reflexivity.
      - rewrite cg_explore_cons, E. reflexivity.
    Qed.

    Lemma cg_explore_stopped rest depth b st : cg_stop st = true -> explore rest depth b st = st.
    Proof.
      intros Hs. rewrite cg_explore_none by (apply cg_enter_stopped; auto).
      apply cg_halt_stopped; auto.
    Qed.

    (** [I] is a property of states that survives clock readings / seen-set updates and
        the acceptance of a leaf satisfying [V []]; [V rest b] is a property of vertices
        inherited by children. *)
    Section Inv.
      Variable I : @cg_state A -> Prop.
      Variable V : list A -> bins A -> Prop.
      Hypothesis Hframe : forall st seen' stop' n, (cg_ticks st <= n)%nat -> I st ->
        I (mk_cg (cg_best st) (cg_bestv st) seen' stop' n (cg_first st)).
      Hypothesis Haccept : forall b st stop', V [] b -> I st ->
        lt_bestv (value o (sums b) false) (cg_bestv st) = true ->
        I (mk_cg (Some b) (Some (value o (sums b) false)) (cg_seen st) stop' (cg_ticks st)
                 (match cg_first st with None => Some b | f => f end)).
      Hypothesis Hchild : forall x t b bi, V (x :: t) b -> (bi < k)%nat -> V t (cg_child b x bi).
      Hypothesis Hh3 : forall rest b, V rest b -> V [] (cg_h3bins rest b).

      Lemma cg_enter_inv st st1 : cg_enter limit st = Some st1 -> I st -> I st1.
      Proof.
        intros E HI. apply cg_enter_some in E as [_ ->]. apply Hframe; auto.
      Qed.

      Lemma cg_halt_inv st : I st -> I (cg_halt st).
      Proof.
        intros HI. unfold cg_halt. destruct (cg_stop st); auto.
      Qed.

      Lemma cg_leaf_inv b st : V [] b -> I st -> I (leaf b st).
      Proof.
        intros HV HI. rewrite cg_leaf_eq. destruct (cg_enter limit st) as [st1|] eqn:E.
        - pose proof (cg_enter_inv _ _ E HI) as HI1.
          destruct (lt_bestv _ _) eqn:El; auto.
        - apply cg_halt_inv; auto.
      Qed.

      Lemma cg_fold_inv t depth
        (IH : forall depth b st, V t b -> I st -> I (explore t depth b st)) :
        forall cs st, Forall (V t) cs -> I st ->
        I (fold_left (fun s c => explore t depth c s) cs st).
      Proof.
        induction cs as [|c cs IHcs]; intros st Hcs HI; cbn [fold_left]; auto.
        inversion Hcs as [|c' cs' Hc Hcs']; subst. apply IHcs; auto.
      Qed.

      Lemma cg_children_V x t b cur R depth prev bestv seen : V (x :: t) b ->
        Forall (V t) (fst (children (rev (range k)) b cur x R depth prev bestv seen)).
      Proof.
        intros HV. eapply Forall_impl; [|apply cg_children_spec]. cbv beta.
        intros c (bi & Hin & ->). apply Hchild; auto. apply cg_In_rev_range; auto.
      Qed.

      Lemma cg_explore_inv : forall rest depth b st, V rest b -> I st -> I (explore rest depth b st).
      Proof.
        induction rest as [|x t IH]; intros depth b st HV HI.
        - rewrite cg_explore_nil. apply cg_leaf_inv; auto.
        - rewrite cg_explore_cons. destruct (cg_enter limit st) as [st1|] eqn:E.
          + pose proof (cg_enter_inv _ _ E HI) as HI1.
            destruct (cg_h3_cond _ _).
            * apply cg_leaf_inv; auto.
            * cbv zeta. apply cg_fold_inv; [exact (fun d => IH d)| |].
              -- apply Forall_rev. apply cg_children_V; auto.
              -- apply Hframe; auto.
          + apply cg_halt_inv; auto.
      Qed.
    End Inv.
  End Generic.

  Section Safety.
    Variables (o : objective) (flags : cg_flags) (limit : option nat) (k : nat) (glb : option Z).
    Variable target : list A.
    Hypothesis Hk : (1 <= k)%nat.

    (** a vertex: k well-formed bins holding exactly the items already placed *)
    Definition cg_vertex_ok (rest : list A) (b : bins A) : Prop :=
      length b = k /\ wf valueof b /\ Permutation (contents b ++ rest) target.

    Definition cg_state_ok (st : @cg_state A) : Prop :=
      (forall b, cg_best st = Some b -> cg_vertex_ok [] b) /\
      (forall f, cg_first st = Some f -> cg_vertex_ok [] f).

    Lemma cg_child_ok x t b bi : cg_vertex_ok (x :: t) b -> (bi < k)%nat ->
      cg_vertex_ok t (cg_child true b x bi).
    Proof.
      intros (Hl & Hw & Hp) Hbi. split; [rewrite cg_child_length; exact Hl|].
      unfold cg_child. split.
      - apply sort_bins_wf, add_item_wf. exact Hw.
      - rewrite sort_bins_contents. rewrite add_item_contents by lia.
        rewrite <- Hp. cbn [app]. apply Permutation_middle.
    Qed.

    Lemma cg_fold_add0_ok rest : forall b, (1 <= length b)%nat -> wf valueof b ->
      let b' := fold_left (fun bb y => add_item valueof true bb y O) rest b in
      length b' = length b /\ wf valueof b' /\ Permutation (contents b') (contents b ++ rest).
    Proof.
      induction rest as [|x t IH]; intros b Hl Hw; cbn [fold_left]; cbv zeta.
      - rewrite app_nil_r. auto.
      - destruct (IH (add_item valueof true b x O)) as (H1 & H2 & H3).
        + rewrite add_item_length. exact Hl.
        + apply add_item_wf. exact Hw.
        + rewrite add_item_length in H1. repeat split; auto.
          rewrite H3. rewrite add_item_contents by lia. cbn [app]. apply Permutation_middle.
    Qed.

    Lemma cg_h3_ok rest b : cg_vertex_ok rest b -> cg_vertex_ok [] (cg_h3bins true rest b).
    Proof.
      intros (Hl & Hw & Hp). unfold cg_h3bins.
      destruct (cg_fold_add0_ok rest b) as (H1 & H2 & H3); [lia|auto|].
      repeat split.
      - rewrite sort_bins_length. lia.
      - apply sort_bins_wf. exact H2.
      - rewrite app_nil_r, sort_bins_contents, H3. exact Hp.
    Qed.

    Lemma cg_explore_ok rest depth b st : cg_vertex_ok rest b -> cg_state_ok st ->
      cg_state_ok (cg_explore valueof true o flags limit k glb rest depth b st).
    Proof.
      apply (cg_explore_inv true o flags limit k glb cg_state_ok cg_vertex_ok).
      - intros st0 seen' stop' n _ HI. exact HI.
      - intros b0 st0 stop' HV (HI1 & HI2) _. split; cbn [cg_best cg_first].
        + intros b1 E. inversion E; subst. exact HV.
        + destruct (cg_first st0) as [f0|] eqn:Ef; intros f E; inversion E; subst; auto.
      - exact cg_child_ok.
      - exact cg_h3_ok.
    Qed.
  End Safety.

  Lemma cg_run_ok o flags limit k items : (1 <= k)%nat ->
    cg_state_ok k (sort_desc valueof items) (cg_run valueof true o flags limit k items).
  Proof.
    intros Hk. unfold cg_run. apply cg_explore_ok; auto.
    - repeat split.
      + apply new_bins_length.
      + apply new_bins_wf.
      + rewrite new_bins_contents. reflexivity.
    - split; cbn; intros b E; discriminate.
  Qed.

  Lemma cg_vertex_ok_partition k items b :
    cg_vertex_ok k (sort_desc valueof items) [] b -> is_partition valueof k items b.
  Proof.
    intros (Hl & Hw & Hp). rewrite app_nil_r in Hp. repeat split; auto.
    rewrite Hp. apply sort_desc_perm.
  Qed.

  Theorem cg_safe : forall o flags limit k items b, (1 <= k)%nat ->
    cg valueof true o flags limit k items = Some b -> is_partition valueof k items b.
  Proof.
    intros o flags limit k items b Hk E. apply cg_vertex_ok_partition.
    apply (proj1 (cg_run_ok o flags limit k items Hk)). exact E.
  Qed.

  Theorem cg_first_safe : forall o flags limit k items f, (1 <= k)%nat ->
    cg_first (cg_run valueof true o flags limit k items) = Some f -> is_partition valueof k items f.
  Proof.
    intros o flags limit k items f Hk E. apply cg_vertex_ok_partition.
    apply (proj2 (cg_run_ok o flags limit k items Hk)). exact E.
  Qed.

  Section Bookkeeping.
    Variables (keep : bool) (o : objective) (flags : cg_flags) (limit : option nat) (k : nat)
              (glb : option Z).
    Notation explore := (cg_explore valueof keep o flags limit k glb).

    (** best / bestv / first are in step *)
    Definition cg_bv_ok (st : @cg_state A) : Prop :=
      match cg_best st with
      | None => cg_bestv st = None /\ cg_first st = None
      | Some b => cg_bestv st = Some (value o (sums b) false) /\ cg_first st <> None
      end.

    Lemma cg_bv_ok_explore rest depth b st : cg_bv_ok st -> cg_bv_ok (explore rest depth b st).
    Proof.
      apply (cg_explore_inv keep o flags limit k glb cg_bv_ok (fun _ _ => True)); auto.
      intros b0 st0 stop' _ HI _. unfold cg_bv_ok. cbn [cg_best cg_bestv cg_first].
      split; [reflexivity|]. destruct (cg_first st0); discriminate.
    Qed.

    Lemma cg_bv_ok_none st : cg_bv_ok st -> (cg_best st = None <-> cg_bestv st = None).
    Proof.
      unfold cg_bv_ok. destruct (cg_best st) as [b|]; intros [H1 H2]; rewrite H1; split; auto; discriminate.
    Qed.

    Lemma cg_bv_ok_some st b : cg_bv_ok st -> cg_best st = Some b ->
      cg_bestv st = Some (value o (sums b) false).
    Proof. unfold cg_bv_ok. intros H E. rewrite E in H. tauto. Qed.

    Lemma cg_bv_ok_first_none st : cg_bv_ok st -> cg_first st = None ->
      cg_best st = None /\ cg_bestv st = None.
    Proof.
      unfold cg_bv_ok. destruct (cg_best st) as [b|]; intros [H1 H2] E; [congruence|auto].
    Qed.

    (** a run only advances the state: the clock moves on, the incumbent value only
        decreases, the first solution and the existence of an incumbent are kept *)
    Definition cg_le (st st' : @cg_state A) : Prop :=
      (cg_ticks st <= cg_ticks st')%nat /\ better_or_equal (cg_bestv st') (cg_bestv st) /\
      (forall f, cg_first st = Some f -> cg_first st' = Some f) /\
      (cg_best st <> None -> cg_best st' <> None).

    Lemma cg_le_refl st : cg_le st st.
    Proof. repeat split; auto using boe_refl. Qed.

    Lemma cg_le_trans st1 st2 st3 : cg_le st1 st2 -> cg_le st2 st3 -> cg_le st1 st3.
    Proof.
      intros (T1 & B1 & F1 & K1) (T2 & B2 & F2 & K2).
      repeat split; [lia|eapply boe_trans; eassumption|auto|auto].
    Qed.

    Lemma cg_explore_le rest depth b st : cg_le st (explore rest depth b st).
    Proof.
      apply (cg_explore_inv keep o flags limit k glb (cg_le st) (fun _ _ => True));
        auto using cg_le_refl.
      - intros st0 seen' stop' n Hn (T & B & F & K). repeat split; cbn; [lia|auto..].
      - intros b0 st0 stop' _ (T & B & F & K) Hlt. repeat split; cbn.
        + exact T.
        + eapply boe_trans; [apply boe_lt_bestv; exact Hlt|exact B].
        + intros f E. rewrite (F f E). reflexivity.
        + discriminate.
    Qed.

    Lemma cg_fold_le t depth cs : forall st, cg_le st (fold_left (fun s c => explore t depth c s) cs st).
    Proof.
      induction cs as [|c cs IH]; intros st; cbn [fold_left]; [apply cg_le_refl|].
      eapply cg_le_trans; [apply cg_explore_le|apply IH].
    Qed.

    (** every call that gets past the stop flag reads the clock *)
    Lemma cg_explore_tick rest d b (st : @cg_state A) : cg_stop st = false ->
      (cg_ticks st < cg_ticks (explore rest d b st))%nat.
    Proof.
      intros Hs. destruct (cg_enter limit st) as [st1|] eqn:E.
      - destruct (cg_enter_some limit st st1 E) as [_ E1].
        assert (Ht : (cg_ticks st1 <= cg_ticks (explore rest d b st))%nat); [|subst st1; exact Ht].
        destruct rest as [|x t].
        + rewrite cg_explore_nil, cg_leaf_eq, E. destruct (lt_bestv _ _); cbn [cg_ticks]; lia.
        + rewrite cg_explore_cons, E. destruct (cg_h3_cond _ _ _ _).
          * apply (cg_explore_le [] O).
          * apply (cg_fold_le t (S d) _ (mk_cg _ _ _ _ _ _)).
      - rewrite cg_explore_none by exact E. unfold cg_halt. rewrite Hs. cbn [cg_ticks]. lia.
    Qed.

    Lemma cg_bestv_mono rest depth b st :
      better_or_equal (cg_bestv (explore rest depth b st)) (cg_bestv st).
    Proof. apply cg_explore_le. Qed.

    Lemma cg_best_keep rest depth b st : cg_best st <> None -> cg_best (explore rest depth b st) <> None.
    Proof. apply cg_explore_le. Qed.
  End Bookkeeping.

  Definition cg_init_state (flags : cg_flags) (k : nat) : @cg_state A :=
    mk_cg None None (if use_set_of_seen_states flags then [(O, repeat 0 k)] else []) false O None.

  Lemma cg_run_eq keep o flags limit k items :
    cg_run valueof keep o flags limit k items =
    cg_explore valueof keep o flags limit k
      (lower_bound o (repeat 0 k) (zsum (map valueof (sort_desc valueof items))) true)
      (sort_desc valueof items) O (new_bins k) (cg_init_state flags k).
  Proof. reflexivity. Qed.

  Lemma cg_run_bv_ok keep o flags limit k items :
    cg_bv_ok o (cg_run valueof keep o flags limit k items).
  Proof.
    rewrite cg_run_eq. apply cg_bv_ok_explore. unfold cg_bv_ok. cbn. auto.
  Qed.

  Theorem cg_bestv_spec : forall keep o flags limit k items,
    let st := cg_run valueof keep o flags limit k items in
    (cg_best st = None <-> cg_bestv st = None) /\
    (forall b, cg_best st = Some b -> cg_bestv st = Some (value o (sums b) false)).
  Proof.
    intros keep o flags limit k items st. split.
    - apply (cg_bv_ok_none o). apply cg_run_bv_ok.
    - intros b. apply cg_bv_ok_some. apply cg_run_bv_ok.
  Qed.

  Definition objv (o : objective) (r : option (bins A)) : option Z :=
    option_map (fun b => value o (sums b) false) r.

  Definition cg_past (l : option nat) (st : @cg_state A) : Prop :=
    match l with Some n => (n < cg_ticks st)%nat | None => False end.

  Section Simulation.
    Variables (keep : bool) (o : objective) (flags : cg_flags) (l1 l2 : option nat) (k : nat)
              (glb : option Z).
    Hypothesis Hl : lim_le l1 l2.
    Notation explore l := (cg_explore valueof keep o flags l k glb).

    Lemma cg_enter_sim (st st1 : @cg_state A) : cg_enter l1 st = Some st1 -> cg_enter l2 st = Some st1.
    Proof.
      unfold cg_enter. destruct (cg_stop st); [discriminate|]. cbv zeta. cbn [cg_ticks].
      unfold lim_le in Hl.
      destruct l1 as [n|], l2 as [m|]; try contradiction; auto.
      - destruct (Nat.ltb n _) eqn:E1; [discriminate|]. destruct (Nat.ltb m _) eqn:E2; auto.
        apply Nat.ltb_lt in E2. apply Nat.ltb_ge in E1. lia.
      - destruct (Nat.ltb n _); [discriminate|auto].
    Qed.

    (** run 1 (smaller limit) and run 2 are in the same state, or run 1 was halted by its
        limit and run 2 has advanced from there *)
    Definition cg_sim (st1 st2 : @cg_state A) : Prop :=
      st1 = st2 \/ (cg_stop st1 = true /\ cg_past l1 st1 /\ cg_le st1 st2).

    Lemma cg_sim_none rest d b st : cg_enter l1 st = None ->
      cg_sim (cg_halt st) (explore l2 rest d b st).
    Proof.
      intros E. destruct (cg_stop st) eqn:Hs.
      - left. rewrite cg_halt_stopped, cg_explore_stopped by exact Hs. reflexivity.
      - right. pose proof (cg_explore_tick keep o flags l2 k glb rest d b st Hs) as Ht.
        destruct (cg_explore_le keep o flags l2 k glb rest d b st) as (_ & B & F & K).
        unfold cg_enter in E. unfold cg_halt. rewrite Hs in *.
        split; [reflexivity|]. split; [|repeat split; cbn; auto].
        destruct l1 as [n|]; [|discriminate]. cbn [cg_past cg_ticks].
        destruct (Nat.ltb n _) eqn:En; [apply Nat.ltb_lt in En; exact En|discriminate].
    Qed.

    Lemma cg_sim_halted rest d b st1 st2 : cg_stop st1 = true -> cg_past l1 st1 -> cg_le st1 st2 ->
      cg_sim (explore l1 rest d b st1) (explore l2 rest d b st2).
    Proof.
      intros Hs Hp Hle. rewrite (cg_explore_stopped keep o flags l1) by exact Hs.
      right. split; [exact Hs|]. split; [exact Hp|].
      eapply cg_le_trans; [exact Hle|apply cg_explore_le].
    Qed.

    Lemma cg_sim_leaf b st : cg_sim (cg_leaf o l1 glb b st) (cg_leaf o l2 glb b st).
    Proof.
      destruct (cg_enter l1 st) as [s|] eqn:E1.
      - rewrite !cg_leaf_eq, E1, (cg_enter_sim _ _ E1). left. reflexivity.
      - rewrite (cg_leaf_eq o l1), E1.
        change (cg_leaf o l2 glb b st) with (explore l2 [] O b st). apply cg_sim_none. exact E1.
    Qed.

    Lemma cg_sim_fold t depth
      (IH : forall d b st1 st2, cg_sim st1 st2 -> cg_sim (explore l1 t d b st1) (explore l2 t d b st2)) :
      forall cs st1 st2, cg_sim st1 st2 ->
      cg_sim (fold_left (fun s c => explore l1 t depth c s) cs st1)
             (fold_left (fun s c => explore l2 t depth c s) cs st2).
    Proof.
      induction cs as [|c cs IHcs]; intros st1 st2 H; cbn [fold_left]; auto.
    Qed.

    Lemma cg_sim_explore : forall rest d b st1 st2, cg_sim st1 st2 ->
      cg_sim (explore l1 rest d b st1) (explore l2 rest d b st2).
    Proof.
      induction rest as [|x t IH]; intros d b st1 st2 [E|(Hs & Hp & Hle)];
        try (apply cg_sim_halted; assumption); subst st2.
      - rewrite !cg_explore_nil. apply cg_sim_leaf.
      - destruct (cg_enter l1 st1) as [s|] eqn:E1.
        + rewrite !cg_explore_cons, E1, (cg_enter_sim _ _ E1).
          destruct (cg_h3_cond _ _ _ _); [apply cg_sim_leaf|].
          cbv zeta. apply cg_sim_fold; [exact IH|]. left. reflexivity.
        + rewrite (cg_explore_none keep o flags l1) by exact E1. apply cg_sim_none. exact E1.
    Qed.
  End Simulation.

  Lemma cg_run_sim keep o flags l1 l2 k items : lim_le l1 l2 ->
    cg_sim l1 (cg_run valueof keep o flags l1 k items) (cg_run valueof keep o flags l2 k items).
  Proof.
    intros Hl. rewrite !cg_run_eq. apply cg_sim_explore; [exact Hl|]. left. reflexivity.
  Qed.

  Lemma cg_objv_best o (st : @cg_state A) : cg_bv_ok o st -> objv o (cg_best st) = cg_bestv st.
  Proof.
    unfold cg_bv_ok, objv. destruct (cg_best st) as [b|]; intros [H _]; rewrite H; reflexivity.
  Qed.

  Theorem cg_monotone_gen : forall keep o flags k items l1 l2, lim_le l1 l2 ->
    better_or_equal (objv o (cg valueof keep o flags l2 k items))
                    (objv o (cg valueof keep o flags l1 k items)).
  Proof.
    intros keep o flags k items l1 l2 Hl. unfold cg.
    rewrite !cg_objv_best by apply cg_run_bv_ok.
    destruct (cg_run_sim keep o flags l1 l2 k items Hl) as [E|(_ & _ & _ & Hb & _)].
    - rewrite E. apply boe_refl.
    - exact Hb.
  Qed.

  (** a larger limit never gives a worse result (C11) *)
  Theorem cg_monotone : forall keep o flags k items n m, (n <= m)%nat ->
    better_or_equal (objv o (cg valueof keep o flags (Some m) k items))
                    (objv o (cg valueof keep o flags (Some n) k items)).
  Proof. intros keep o flags k items n m H. apply cg_monotone_gen. exact H. Qed.

  Theorem cg_monotone_none : forall keep o flags k items n,
    better_or_equal (objv o (cg valueof keep o flags None k items))
                    (objv o (cg valueof keep o flags (Some n) k items)).
  Proof. intros keep o flags k items n. apply cg_monotone_gen. exact Logic.I. Qed.

  (** a limited run that was not halted (by the limit or otherwise) is the unlimited run *)
  Theorem cg_limit_prefix : forall keep o flags k items n,
    cg_stop (cg_run valueof keep o flags (Some n) k items) = false ->
    cg_run valueof keep o flags (Some n) k items = cg_run valueof keep o flags None k items.
  Proof.
    intros keep o flags k items n Hs.
    destruct (cg_run_sim keep o flags (Some n) None k items Logic.I) as [E|(Hs' & _)]; [exact E|].
    congruence.
  Qed.

  (** the first solution of a limited run is the first solution of the unlimited run *)
  Lemma cg_first_limit keep o flags k items l f :
    cg_first (cg_run valueof keep o flags l k items) = Some f ->
    cg_first (cg_run valueof keep o flags None k items) = Some f.
  Proof.
    intros E. destruct (cg_run_sim keep o flags l None k items Logic.I) as [E'|(_ & _ & _ & _ & Hf & _)].
    - rewrite <- E'. exact E.
    - apply Hf. exact E.
  Qed.

  (** with a large enough limit the run is the unlimited run (whole final state) *)
  Theorem cg_limit_none : forall keep o flags k items,
    exists N, forall n, (N <= n)%nat ->
    cg_run valueof keep o flags (Some n) k items = cg_run valueof keep o flags None k items.
  Proof.
    intros keep o flags k items.
    exists (cg_ticks (cg_run valueof keep o flags None k items)). intros n Hn.
    destruct (cg_run_sim keep o flags (Some n) None k items Logic.I) as [E|(_ & Hp & Ht & _)];
      [exact E|].
    cbn [cg_past] in Hp. lia.
  Qed.

  Definition lpt_sums (s : list Z) (rest : list A) : list Z :=
    fold_left (fun s0 x => lpt_step s0 (valueof x)) rest s.

  Lemma cg_lpt_sums_perm rest : forall s1 s2, Permutation s1 s2 ->
    Permutation (lpt_sums s1 rest) (lpt_sums s2 rest).
  Proof.
    unfold lpt_sums. induction rest as [|x t IH]; intros s1 s2 P; cbn [fold_left]; [exact P|].
    apply IH. apply cg_lpt_step_perm. exact P.
  Qed.

  Lemma cg_greedy_sums keep rest : forall b : bins A,
    sums (fold_left (greedy_step valueof keep) rest b) = lpt_sums (sums b) rest.
  Proof.
    unfold lpt_sums. induction rest as [|x t IH]; intros b; cbn [fold_left]; [reflexivity|].
    rewrite IH. f_equal. unfold greedy_step, lpt_step. apply add_item_sums.
  Qed.

  Section NoIncumbent.
    Variables (keep : bool) (o : objective) (flags : cg_flags) (k : nat) (glb : option Z).
    Notation explore := (cg_explore valueof keep o flags None k glb).
    Notation children := (cg_children valueof keep o flags k).

    Definition cg_seen_le (d : nat) (seen : list (nat * list Z)) : Prop :=
      Forall (fun e => (fst e <= d)%nat) seen.

    Lemma cg_seen_skip_fresh depth ns seen :
      cg_seen_le depth seen -> cg_seen_skip flags depth ns seen = false.
    Proof.
      intros H. unfold cg_seen_skip. destruct (use_set_of_seen_states flags); [|reflexivity].
      cbn [andb]. induction H as [|e seen He Hs IH]; cbn [existsb]; [reflexivity|].
      rewrite IH, orb_false_r. unfold state_eqb. cbn [fst].
      destruct (Nat.eqb (S depth) (fst e)) eqn:E; [apply Nat.eqb_eq in E; lia|reflexivity].
    Qed.

    Lemma cg_children_seen_le idxs b cur x R depth : forall prev bestv seen,
      cg_seen_le (S depth) seen ->
      cg_seen_le (S depth) (snd (children idxs b cur x R depth prev bestv seen)).
    Proof.
      intros prev bestv seen H. rewrite cg_children_seen. apply Forall_app. split; [|exact H].
      destruct (use_set_of_seen_states flags); [|constructor].
      apply Forall_rev. rewrite Forall_map. apply Forall_forall. intros c _. cbn [fst]. lia.
    Qed.

    Lemma cg_seen_le_S d seen : cg_seen_le d seen -> cg_seen_le (S d) seen.
    Proof. intros H. eapply Forall_impl; [|exact H]. cbv beta. intros e He. lia. Qed.

    (** while there is no incumbent and no state of the next depth was recorded, the first
        bin index tried is not pruned *)
    Lemma cg_children_nonempty bi idxs b cur x R depth seen : cg_seen_le depth seen ->
      fst (children (bi :: idxs) b cur x R depth None None seen) <> [].
    Proof.
      intros H. rewrite cg_children_cons. cbv zeta. cbn [cg_prev_skip].
      rewrite cg_pruned_none, cg_seen_skip_fresh by exact H. cbn [fst]. discriminate.
    Qed.

    Lemma cg_enter_nolimit (st : @cg_state A) : cg_stop st = false ->
      cg_enter None st =
      Some (mk_cg (cg_best st) (cg_bestv st) (cg_seen st) false (S (cg_ticks st)) (cg_first st)).
    Proof. unfold cg_enter. intros ->. reflexivity. Qed.

    (** without incumbent a leaf is accepted *)
    Lemma cg_leaf_none (b : bins A) st : cg_stop st = false -> cg_bestv st = None ->
      cg_leaf o None glb b st =
      mk_cg (Some b) (Some (value o (sums b) false)) (cg_seen st)
            (match glb with Some g => value o (sums b) false <=? g | None => false end)
            (S (cg_ticks st)) (match cg_first st with None => Some b | f => f end).
    Proof.
      intros Hs Hb. rewrite cg_leaf_eq, cg_enter_nolimit by exact Hs.
      cbn [cg_bestv cg_first cg_seen cg_ticks]. rewrite Hb. reflexivity.
    Qed.

    Hypothesis Hk : (1 <= k)%nat.

    Section Last.
      Variables (b : bins A) (x : A) (R : Z) (depth : nat).
      Hypothesis Hlen : length b = k.
      Hypothesis Hsorted : StronglySorted Z.le (sums b).

      Lemma cg_sums_length : length (sums b) = k.
      Proof. unfold sums. rewrite map_length. exact Hlen. Qed.

      (** c has the sums of "parent plus x in a least-loaded bin" *)
      Definition cg_minq (c : bins A) : Prop :=
        Permutation (sums c) (update O (fun z => z + valueof x) (sums b)).

      (** loop invariant of the sibling generation when valueof x <> 0: the siblings recorded
          so far were made from bins whose sum is at least [prev], and the indices still to
          come have sums at most [prev] *)
      Definition cg_sib_inv (n : nat) (prev : option Z) (seen : list (nat * list Z)) : Prop :=
        (forall ns, In (S depth, ns) seen ->
           exists j p, prev = Some p /\ (j < k)%nat /\ p <= nth j (sums b) 0 /\
                       Permutation ns (update j (fun z => z + valueof x) (sums b))) /\
        (forall p, prev = Some p -> forall i, (i < n)%nat -> nth i (sums b) 0 <= p).

      Lemma cg_children_last_nz : valueof x <> 0 -> forall n prev seen,
        (n <= k)%nat -> (1 <= n)%nat -> cg_sib_inv n prev seen ->
        (fst (children (rev (range n)) b (sums b) x R depth prev None seen) <> [] /\
         cg_minq (last (fst (children (rev (range n)) b (sums b) x R depth prev None seen)) []))
        \/ (fst (children (rev (range n)) b (sums b) x R depth prev None seen) = [] /\
            prev = Some (nth O (sums b) 0)).
      Proof.
        intros Hv. pose proof cg_sums_length as Hsl.
        induction n as [|n IH]; intros prev seen Hnk Hn1 (Hi1 & Hi2); [lia|].
        rewrite cg_rev_range_S, cg_children_cons. cbv zeta.
        destruct (cg_prev_skip prev (nth n (sums b) 0)) eqn:Ep.
        - (* same sum as the previous bin: skipped *)
          destruct prev as [p|]; cbn [cg_prev_skip] in Ep; [|discriminate].
          apply Z.eqb_eq in Ep. destruct n as [|n'].
          + right. change (rev (range 0)) with (@nil nat). cbn [cg_children fst].
            split; [reflexivity|]. f_equal. lia.
          + apply IH; [lia|lia|]. split; [exact Hi1|].
            intros p' Hp' i Hi. apply (Hi2 p' Hp'). lia.
        - rewrite cg_pruned_none.
          destruct (cg_seen_skip flags depth (sums (cg_child keep b x n)) seen) eqn:Esk.
          + (* impossible: an earlier sibling came from a strictly larger bin *)
            exfalso. apply cg_seen_skip_In in Esk.
            destruct (Hi1 _ Esk) as (j & p & Hp & Hj & Hpj & Hperm). subst prev.
            cbn [cg_prev_skip] in Ep. apply Z.eqb_neq in Ep.
            pose proof (Hi2 p eq_refl n ltac:(lia)) as Hn.
            rewrite cg_child_sums in Hperm.
            apply cg_update_perm_inv in Hperm; [|lia|lia]. lia.
          + (* generated *)
            assert (Hinv' : cg_sib_inv n (Some (nth n (sums b) 0))
                              (cg_seen_add flags depth (sums (cg_child keep b x n)) seen)).
            { split.
              - intros ns Hin.
                assert (Hold : In (S depth, ns) seen ->
                  exists j p, Some (nth n (sums b) 0) = Some p /\ (j < k)%nat /\
                              p <= nth j (sums b) 0 /\
                              Permutation ns (update j (fun z => z + valueof x) (sums b))).
                { intros Hin'. destruct (Hi1 _ Hin') as (j & p & Hp & Hj & Hpj & Hperm).
                  exists j, (nth n (sums b) 0). split; [reflexivity|]. split; [exact Hj|].
                  split; [|exact Hperm].
                  pose proof (Hi2 p Hp n ltac:(lia)) as Hn. lia. }
                unfold cg_seen_add in Hin. destruct (use_set_of_seen_states flags); [|auto].
                destruct Hin as [Hin|Hin]; [|auto].
                inversion Hin; subst ns. exists n, (nth n (sums b) 0).
                split; [reflexivity|]. split; [lia|]. split; [lia|]. apply cg_child_sums.
              - intros p' Hp' i Hi. inversion Hp'; subst p'.
                apply (proj1 (StronglySorted_nth _) Hsorted). lia. }
            cbn [fst snd]. destruct n as [|n'].
            * left. change (rev (range 0)) with (@nil nat). cbn [cg_children fst last].
              split; [discriminate|]. apply cg_child_sums.
            * destruct (IH _ _ ltac:(lia) ltac:(lia) Hinv') as [[Hne Hq]|[He Hp]].
              -- left. split; [discriminate|].
                 destruct (fst (children (rev (range (S n'))) b (sums b) x R depth _ None _))
                   as [|c0 l0]; [contradiction|]. exact Hq.
              -- left. rewrite He. split; [discriminate|]. cbn [last]. unfold cg_minq.
                 rewrite cg_child_sums. apply cg_update_perm; [reflexivity|lia|lia|].
                 inversion Hp. reflexivity.
      Qed.

      Lemma cg_children_all_z idxs cur prev bestv seen : valueof x = 0 ->
        Forall cg_minq (fst (children idxs b cur x R depth prev bestv seen)).
      Proof.
        intros Hv. eapply Forall_impl; [|apply cg_children_spec]. cbv beta.
        intros c (bi & _ & ->). unfold cg_minq. rewrite cg_child_sums, Hv, !update_add0.
        reflexivity.
      Qed.

      (** while there is no incumbent, the child explored first is sum-equivalent to the LPT step *)
      Lemma cg_children_last seen : cg_seen_le depth seen ->
        let c := last (fst (children (rev (range k)) b (sums b) x R depth None None seen)) [] in
        fst (children (rev (range k)) b (sums b) x R depth None None seen) <> [] /\
        length c = k /\ StronglySorted Z.le (sums c) /\
        Permutation (sums c) (lpt_step (sums b) (valueof x)).
      Proof.
        intros Hs c.
        assert (Hne : fst (children (rev (range k)) b (sums b) x R depth None None seen) <> []).
        { destruct (cg_rev_range_pos k Hk) as (bi & idxs & Er). rewrite Er.
          apply cg_children_nonempty; assumption. }
        split; [exact Hne|].
        assert (Hin : In c (fst (children (rev (range k)) b (sums b) x R depth None None seen)))
          by (apply cg_last_In; exact Hne).
        assert (Hq : cg_minq c).
        { destruct (Z.eq_dec (valueof x) 0) as [Hv|Hv].
          - pose proof (cg_children_all_z (rev (range k)) (sums b) None None seen Hv) as Hall.
            rewrite Forall_forall in Hall. apply Hall. exact Hin.
          - destruct (cg_children_last_nz Hv k None seen) as [[_ Hq]|[_ Hp]];
              [lia|exact Hk| |exact Hq|discriminate].
            split.
            + intros ns Hns. unfold cg_seen_le in Hs. rewrite Forall_forall in Hs.
              apply Hs in Hns. cbn [fst] in Hns. lia.
            + intros p Hp. discriminate. }
        pose proof (cg_children_spec keep o flags k (rev (range k)) b (sums b) x R depth None None seen)
          as Hspec.
        rewrite Forall_forall in Hspec. destruct (Hspec _ Hin) as (bi & _ & ->).
        split; [rewrite cg_child_length; exact Hlen|]. split; [apply cg_child_sorted|].
        unfold cg_minq in Hq. rewrite Hq. symmetry. apply cg_lpt_step_sorted. exact Hsorted.
      Qed.
    End Last.
    (** a vertex reached before any complete partition *)
    Definition cg_fresh (depth : nat) (b : bins A) (st : @cg_state A) : Prop :=
      cg_stop st = false /\ cg_bestv st = None /\ cg_first st = None /\
      cg_seen_le depth (cg_seen st) /\ length b = k /\ StronglySorted Z.le (sums b).

    (** such a vertex has a child: the run goes down into the one pushed last, which is
        sum-equivalent to the LPT step, still without incumbent, and visits its siblings
        afterwards *)
    Lemma cg_descend x t depth b st : cg_fresh depth b st ->
      cg_h3_cond o flags (x :: t) (sums b) = false ->
      exists c st' cs,
        explore (x :: t) depth b st =
          fold_left (fun s c0 => explore t (S depth) c0 s) cs (explore t (S depth) c st') /\
        cg_fresh (S depth) c st' /\ Permutation (sums c) (lpt_step (sums b) (valueof x)).
    Proof.
      intros (Hs & Hb & Hf & Hseen & Hlen & Hsorted) Eh3.
      destruct (cg_children_last b x (zsum (map valueof t)) depth Hlen Hsorted (cg_seen st) Hseen)
        as (Hne & Hcl & Hcs & Hq).
      set (r := children (rev (range k)) b (sums b) x (zsum (map valueof t)) depth None None (cg_seen st))
        in *.
      destruct (cg_rev_last (fst r) [] Hne) as (cs & Er).
      exists (last (fst r) []), (mk_cg (cg_best st) None (snd r) false (S (cg_ticks st)) (cg_first st)), cs.
      split; [|split; [|exact Hq]].
      - rewrite cg_explore_cons, cg_enter_nolimit, Eh3 by exact Hs. cbv zeta.
        cbn [cg_best cg_bestv cg_seen cg_ticks cg_first]. rewrite Hb. fold r. rewrite Er. reflexivity.
      - repeat split; try assumption. apply cg_children_seen_le, cg_seen_le_S, Hseen.
    Qed.

    Lemma cg_total_explore : forall rest depth b st, cg_fresh depth b st ->
      cg_best (explore rest depth b st) <> None.
    Proof.
      induction rest as [|x t IH]; intros depth b st Hfr.
      - destruct Hfr as (Hs & Hb & _). rewrite cg_explore_nil, cg_leaf_none by assumption. discriminate.
      - destruct (cg_h3_cond o flags (x :: t) (sums b)) eqn:Eh3.
        + destruct Hfr as (Hs & Hb & _). rewrite cg_explore_cons, cg_enter_nolimit, Eh3 by exact Hs.
          rewrite cg_leaf_none by (try reflexivity; exact Hb). discriminate.
        + destruct (cg_descend x t depth b st Hfr Eh3) as (c & st' & cs & -> & Hfr' & _).
          apply cg_fold_le. apply IH. exact Hfr'.
    Qed.

    Lemma cg_first_explore : use_heuristic_3 flags && objective_eqb o MinLargest = false ->
      forall rest depth b st, cg_fresh depth b st ->
      exists f, cg_first (explore rest depth b st) = Some f /\
                Permutation (sums f) (lpt_sums (sums b) rest).
    Proof.
      intros Hh3. induction rest as [|x t IH]; intros depth b st Hfr.
      - destruct Hfr as (Hs & Hb & Hf & _). exists b.
        rewrite cg_explore_nil, cg_leaf_none by assumption. cbn [cg_first].
        rewrite Hf. split; reflexivity.
      - destruct (cg_descend x t depth b st Hfr) as (c & st' & cs & -> & Hfr' & Hq);
          [unfold cg_h3_cond; rewrite Hh3; reflexivity|].
        destruct (IH (S depth) c st' Hfr') as (f & Ef & Pf).
        exists f. split; [apply cg_fold_le; exact Ef|].
        rewrite Pf. unfold lpt_sums at 2. cbn [fold_left]. apply cg_lpt_sums_perm. exact Hq.
    Qed.
  End NoIncumbent.

  Lemma cg_repeat0_sorted n : StronglySorted Z.le (repeat 0 n).
  Proof.
    induction n as [|n IH]; cbn [repeat]; constructor; [exact IH|].
    apply Forall_forall. intros z Hz. apply repeat_spec in Hz. lia.
  Qed.

  Lemma cg_fresh_root flags k : cg_fresh k O (new_bins k) (cg_init_state flags k).
  Proof.
    repeat split; [|apply new_bins_length|rewrite new_bins_sums; apply cg_repeat0_sorted].
    unfold cg_init_state, cg_seen_le. cbn [cg_seen].
    destruct (use_set_of_seen_states flags); repeat constructor.
  Qed.

  (** a run without limit always returns a result (C01) *)
  Theorem cg_total_keep : forall keep o flags k items, (1 <= k)%nat ->
    exists b, cg valueof keep o flags None k items = Some b.
  Proof.
    intros keep o flags k items Hk. unfold cg. rewrite cg_run_eq.
    destruct (cg_best _) as [b|] eqn:E; [exists b; reflexivity|]. exfalso. revert E.
    apply cg_total_explore; [exact Hk|apply cg_fresh_root].
  Qed.

  Theorem cg_total : forall o flags k items, (1 <= k)%nat ->
    exists b, cg valueof true o flags None k items = Some b.
  Proof. intros o flags k items. apply cg_total_keep. Qed.

  (** the first solution is the LPT one (C11), provided heuristic 3 does not fire (the flag is off
      or the objective is not MinLargest).  Heuristic 3 puts ALL remaining items into the smallest
      bin as soon as that cannot raise the largest sum, where LPT would spread them: with it the
      statement is false, see cg_first_h3_counterexample below. *)
  Theorem cg_first_is_lpt_keep : forall keep o flags limit k items f, (1 <= k)%nat ->
    use_heuristic_3 flags && objective_eqb o MinLargest = false ->
    cg_first (cg_run valueof keep o flags limit k items) = Some f ->
    Permutation (sums f) (sums (greedy valueof keep k items)).
  Proof.
    intros keep o flags limit k items f Hk Hh3 E.
    apply cg_first_limit in E. rewrite cg_run_eq in E.
    destruct (cg_first_explore keep o flags k
                (lower_bound o (repeat 0 k) (zsum (map valueof (sort_desc valueof items))) true)
                Hk Hh3 (sort_desc valueof items) O (new_bins k) (cg_init_state flags k)
                (cg_fresh_root flags k))
      as (f' & Ef & Pf).
    rewrite E in Ef. inversion Ef; subst f'. rewrite Pf, new_bins_sums.
    unfold greedy. rewrite cg_greedy_sums, new_bins_sums. reflexivity.
  Qed.

  Theorem cg_first_is_lpt : forall o flags limit k items f, (1 <= k)%nat ->
    use_heuristic_3 flags && objective_eqb o MinLargest = false ->
    cg_first (cg_run valueof true o flags limit k items) = Some f ->
    Permutation (sums f) (sums (greedy valueof true k items)).
  Proof. intros o flags limit k items f. apply cg_first_is_lpt_keep. Qed.

End CGProofs.

(** the witnesses of two defects of prtpy repaired in /repo (DESIGN.md 10.3): D1, a zero-valued item
    with the seen-set on gave None; D2, one bin with MaxSmallest and the fast bound gave IndexError *)
Example cg_total_ex1 :
  exists b, cg (fun v => v) true MinDiff (mk_flags true true false true) None 5 [0; 3] = Some b.
Proof. eexists. vm_compute. reflexivity. Qed.

Example cg_total_ex2 :
  exists b, cg (fun v => v) true MaxSmallest (mk_flags true true false true) None 1 [1; 2] = Some b.
Proof. eexists. vm_compute. reflexivity. Qed.

(** With heuristic 3 active (objective MinLargest) the first solution is NOT the LPT one:
    after 10 is placed, heuristic 3 puts both 3s into the same bin. *)
Example cg_first_h3_counterexample :
  option_map (@sums Z) (cg_first (cg_run (fun v => v) true MinLargest (mk_flags false false true false)
                                   None 3 [10; 3; 3])) = Some [0; 6; 10]
  /\ sums (greedy (fun v => v) true 3 [10; 3; 3]) = [10; 3; 3].
Proof. vm_compute. split; reflexivity. Qed.

(** Complete greedy under a map [G] of the bins-arrays that keeps the sums and commutes with
    sort_bins and add_item ([pi] sends an item to its counterpart): the whole search state is
    mapped, every step commutes.  Instances: [erase] below, [map_bins valueof] (Proofs/NamesProofs.v). *)
Section CGMap.
  Context {A B : Type} (vA : A -> Z) (vB : B -> Z) (kA kB : bool) (pi : A -> B) (G : bins A -> bins B).
  Hypothesis pi_value : forall x, vB (pi x) = vA x.
  Hypothesis G_sums : forall b, sums (G b) = sums b.
  Hypothesis G_sort : forall b, G (sort_bins b) = sort_bins (G b).
  Hypothesis G_add : forall b x i, G (add_item vA kA b x i) = add_item vB kB (G b) (pi x) i.

  Definition cg_map_state (st : cg_state (A:=A)) : cg_state (A:=B) :=
    mk_cg (option_map G (cg_best st)) (cg_bestv st) (cg_seen st) (cg_stop st) (cg_ticks st)
          (option_map G (cg_first st)).
  Local Notation gs := cg_map_state.

  Variables (o : objective) (flags : cg_flags) (limit : option nat) (k : nat) (glb : option Z).

  Lemma cg_map_enter (st : cg_state) : cg_enter limit (gs st) = option_map gs (cg_enter limit st).
  Proof.
    unfold cg_enter, cg_map_state. cbn [cg_stop cg_ticks cg_best cg_bestv cg_seen cg_first].
    destruct (cg_stop st); [reflexivity|]. destruct limit as [n|]; [|reflexivity].
    destruct (Nat.ltb n _); reflexivity.
  Qed.

  Lemma cg_map_halt (st : cg_state) : cg_halt (gs st) = gs (cg_halt st).
  Proof. unfold cg_halt. change (cg_stop (gs st)) with (cg_stop st). destruct (cg_stop st); reflexivity. Qed.

  Lemma cg_map_leaf (b : bins A) (st : cg_state) :
    cg_leaf o limit glb (G b) (gs st) = gs (cg_leaf o limit glb b st).
  Proof.
    rewrite !cg_leaf_eq, cg_map_enter.
    destruct (cg_enter limit st) as [st1|]; cbn [option_map]; [|apply cg_map_halt].
    rewrite G_sums. change (cg_bestv (gs st1)) with (cg_bestv st1).
    destruct (lt_bestv (value o (sums b) false) (cg_bestv st1)); [|reflexivity].
    unfold cg_map_state. cbn [cg_best cg_bestv cg_seen cg_stop cg_ticks cg_first option_map].
    destruct (cg_first st1); reflexivity.
  Qed.

  Lemma cg_map_child (b : bins A) (x : A) (bi : nat) :
    G (cg_child vA kA b x bi) = cg_child vB kB (G b) (pi x) bi.
  Proof. unfold cg_child. rewrite G_sort, G_add. reflexivity. Qed.

  Lemma cg_map_h3bins (rest : list A) (b : bins A) :
    G (cg_h3bins vA kA rest b) = cg_h3bins vB kB (map pi rest) (G b).
  Proof.
    unfold cg_h3bins. rewrite G_sort. f_equal.
    apply (fold_left_sim G pi (fun bb y => add_item vA kA bb y O) (fun bb y => add_item vB kB bb y O)).
    intros bb y. apply G_add.
  Qed.

  Lemma vB_pi (l : list A) : map vB (map pi l) = map vA l.
  Proof. rewrite map_map. apply map_ext. exact pi_value. Qed.

  (** the generation of the children reads the vertex only through [cur], the value of the item
      and the sums of the candidate child; the seen-set holds sums only *)
  Lemma cg_map_children (b : bins A) (cur : list Z) (x : A) (R : Z) (depth : nat) (idxs : list nat) :
    forall (prev bestv : option Z) (seen : list (nat * list Z)),
      cg_children vB kB o flags k idxs (G b) cur (pi x) R depth prev bestv seen =
      (map G (fst (cg_children vA kA o flags k idxs b cur x R depth prev bestv seen)),
       snd (cg_children vA kA o flags k idxs b cur x R depth prev bestv seen)).
  Proof.
    induction idxs as [|bi idxs IH]; intros prev bestv seen; [reflexivity|].
    rewrite !cg_children_cons. cbv zeta.
    destruct (cg_prev_skip prev (nth bi cur 0)); [apply IH|].
    unfold cg_pruned, cg_fast_lb. rewrite <- cg_map_child, G_sums, pi_value.
    destruct (_ || _); [apply IH|].
    destruct (cg_seen_skip flags depth (sums (cg_child vA kA b x bi)) seen); [apply IH|].
    rewrite IH. reflexivity.
  Qed.

  Lemma cg_map_explore (rest : list A) : forall (depth : nat) (b : bins A) (st : cg_state),
    cg_explore vB kB o flags limit k glb (map pi rest) depth (G b) (gs st) =
    gs (cg_explore vA kA o flags limit k glb rest depth b st).
  Proof.
    induction rest as [|x t IH]; intros depth b st.
    - apply cg_map_leaf.
    - change (map pi (x :: t)) with (pi x :: map pi t). rewrite !cg_explore_cons, cg_map_enter.
      destruct (cg_enter limit st) as [st1|]; cbn [option_map]; [|apply cg_map_halt].
      change (pi x :: map pi t) with (map pi (x :: t)).
      unfold cg_h3_cond. rewrite !vB_pi, G_sums.
      destruct (_ && _ && _); [rewrite <- cg_map_h3bins; apply cg_map_leaf|].
      cbv zeta. change (cg_bestv (gs st1)) with (cg_bestv st1). change (cg_seen (gs st1)) with (cg_seen st1).
      rewrite cg_map_children. cbn [fst snd]. rewrite <- map_rev. symmetry.
      apply (fold_left_sim gs G
               (fun s c => cg_explore vA kA o flags limit k glb t (S depth) c s)
               (fun s c => cg_explore vB kB o flags limit k glb (map pi t) (S depth) c s)).
      intros s c. symmetry. apply IH.
  Qed.
End CGMap.

(** the whole final search state (incumbent, its value, seen-set, stop flag, tick count, first
    solution) is the image of the other one *)
Theorem cg_run_map {A B : Type} (vA : A -> Z) (vB : B -> Z) (kA kB : bool) (pi : A -> B) (G : bins A -> bins B) :
  (forall x, vB (pi x) = vA x) -> (forall b, sums (G b) = sums b) ->
  (forall b, G (sort_bins b) = sort_bins (G b)) ->
  (forall b x i, G (add_item vA kA b x i) = add_item vB kB (G b) (pi x) i) ->
  (forall k, G (new_bins k) = new_bins k) ->
  forall o flags limit k items,
    cg_run vB kB o flags limit k (map pi items) = cg_map_state G (cg_run vA kA o flags limit k items).
Proof.
  intros Hv Hsums Hsort Hadd Hnew o flags limit k items. rewrite !cg_run_eq.
  rewrite <- (sort_desc_map pi vA vB items Hv), (vB_pi vA vB pi Hv), <- Hnew.
  exact (cg_map_explore vA vB kA kB pi G Hv Hsums Hsort Hadd o flags limit k _ (sort_desc vA items) O
           (new_bins k) (cg_init_state flags k)).
Qed.

Section CGErase.
  Context {A : Type} (valueof : A -> Z).

  Definition cg_erase_state : @cg_state A -> @cg_state A := cg_map_state erase.

  Theorem cg_erase_run : forall o flags limit k items,
    cg_run valueof false o flags limit k items =
    cg_erase_state (cg_run valueof true o flags limit k items).
  Proof.
    intros o flags limit k items. rewrite <- (map_id items) at 1.
    exact (cg_run_map valueof valueof true false (fun x => x) erase (fun _ => eq_refl) (@erase_sums A)
             (fun b => eq_sym (sort_bins_erase b)) (erase_add_item valueof true) (@erase_new_bins A)
             o flags limit k items).
  Qed.

  Theorem cg_erase : forall o flags limit k items,
    option_map erase (cg valueof true o flags limit k items) = cg valueof false o flags limit k items.
  Proof.
    intros o flags limit k items. unfold cg. rewrite cg_erase_run. reflexivity.
  Qed.
End CGErase.

Print Assumptions cg_safe.
Print Assumptions cg_first_safe.
Print Assumptions cg_bestv_spec.
Print Assumptions cg_bv_ok_explore.
Print Assumptions cg_bestv_mono.
Print Assumptions cg_monotone.
Print Assumptions cg_monotone_none.
Print Assumptions cg_limit_prefix.
Print Assumptions cg_limit_none.
Print Assumptions cg_total.
Print Assumptions cg_total_keep.
Print Assumptions cg_first_is_lpt.
Print Assumptions cg_erase.
Print Assumptions cg_erase_run.
