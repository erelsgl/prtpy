(** The boolean checkers of Oracle/Checkers.v (extracted to OCaml and used by the harness to
    judge implementation outputs) are equivalent to their Prop specifications in
    Spec/Partition.v (Section Items) and Model/Binner.v (wf).

    The checkers compare items BY NAME only; the multiset statements therefore assume
    [names_det]: among the items at hand a name determines the item. *)
From Prtpy Require Import Base.Prelude Model.Binner Spec.Partition Oracle.Checkers
  Proofs.BaseLemmas Proofs.BinnerLemmas.
From Coq Require Import ZifyBool Permutation Sorting.Sorted.

Definition names_det (l : list citem) : Prop :=
  forall x y, In x l -> In y l -> cname x = cname y -> x = y.

Lemma names_det_incl l l' : (forall x, In x l' -> In x l) -> names_det l -> names_det l'.
Proof.
  intros Hincl Hdet x y Hx Hy Hn.
  apply Hdet; [apply Hincl; exact Hx | apply Hincl; exact Hy | exact Hn].
Qed.

(** without [names_det] the name-only comparison accepts different items *)
Example same_items_b_needs_names_det :
  same_items_b [(1, 5); (2, 6)] [(2, 7); (1, 5)] = true.
Proof. vm_compute. reflexivity. Qed.

Lemma remove_name_some n l : forall r,
  remove_name n l = Some r -> exists x, In x l /\ cname x = n /\ Permutation l (x :: r).
Proof.
  induction l as [|y t IH]; intros r H; cbn [remove_name] in H.
  - discriminate H.
  - destruct (n =? cname y) eqn:E.
    + injection H as H. subst r. exists y. split; [left; reflexivity|].
      split; [lia | apply Permutation_refl].
    + destruct (remove_name n t) as [r0|] eqn:E2; [|discriminate H].
      injection H as H. subst r.
      destruct (IH r0 eq_refl) as [x [Hin [Hn Hp]]].
      exists x. split; [right; exact Hin|]. split; [exact Hn|].
      apply Permutation_trans with (y :: x :: r0).
      * apply perm_skip. exact Hp.
      * apply perm_swap.
Qed.

Lemma remove_name_none n l :
  remove_name n l = None <-> ~ exists x, In x l /\ cname x = n.
Proof.
  induction l as [|y t IH]; cbn [remove_name].
  - split; [intros _ (x & [] & _)|reflexivity].
  - destruct (n =? cname y) eqn:E.
    + split; [discriminate|]. intros H. exfalso. apply H. exists y. split; [left; reflexivity|lia].
    + destruct (remove_name n t) as [r0|].
      * split; [discriminate|]. intros H. exfalso.
        assert (H' : Some r0 = None); [|discriminate H'].
        apply IH. intros (x & Hx & Hn). apply H. exists x. split; [right; exact Hx|exact Hn].
      * split; [|reflexivity]. intros _ (x & [<-|Hx] & Hn); [lia|].
        apply (proj1 IH eq_refl). exists x. split; assumption.
Qed.

Theorem remove_name_spec n l :
  (forall r, remove_name n l = Some r ->
     exists x, In x l /\ cname x = n /\ Permutation l (x :: r)) /\
  (remove_name n l = None <-> ~ exists x, In x l /\ cname x = n).
Proof.
  split; [apply remove_name_some | apply remove_name_none].
Qed.

(** finding a known member: under names_det the removed element is that member *)
Lemma remove_name_in x l :
  In x l -> names_det (x :: l) ->
  exists r, remove_name (cname x) l = Some r /\ Permutation l (x :: r).
Proof.
  intros Hin Hdet.
  destruct (remove_name (cname x) l) as [r|] eqn:E.
  - exists r. split; [reflexivity|].
    destruct (remove_name_some _ _ _ E) as [y [Hy [Hn Hp]]].
    assert (y = x) as ->.
    { apply Hdet; [right; exact Hy | left; reflexivity | exact Hn]. }
    exact Hp.
  - exfalso. apply remove_name_none in E. apply E. exists x. split; [exact Hin | reflexivity].
Qed.

(** one step of [sub_items]: [x] has been found in (and removed from) [l2], leaving [r] *)
Lemma names_det_step x t l2 r :
  names_det ((x :: t) ++ l2) -> Permutation l2 (x :: r) -> names_det (t ++ r).
Proof.
  intros Hdet Hp. apply (names_det_incl _ _) with (2 := Hdet). intros z Hz.
  apply in_app_or in Hz. destruct Hz as [Hz|Hz].
  - right. apply in_or_app. left. exact Hz.
  - apply in_or_app. right. apply (Permutation_in _ (Permutation_sym Hp)). right. exact Hz.
Qed.

Theorem sub_items_sound l1 : forall l2 rest,
  names_det (l1 ++ l2) -> sub_items l1 l2 = Some rest -> Permutation (l1 ++ rest) l2.
Proof.
  induction l1 as [|x t IH]; intros l2 rest Hdet H; cbn [sub_items] in H.
  - injection H as H. subst rest. apply Permutation_refl.
  - destruct (remove_name (cname x) l2) as [r|] eqn:E; [|discriminate H].
    destruct (remove_name_some _ _ _ E) as [y [Hy [Hn Hp]]].
    assert (y = x) as ->.
    { apply Hdet; [ | left; reflexivity | exact Hn].
      apply in_or_app. right. exact Hy. }
    specialize (IH r rest (names_det_step _ _ _ _ Hdet Hp) H).
    rewrite Hp. cbn [app]. apply perm_skip. exact IH.
Qed.

Theorem sub_items_complete l1 : forall l2 rest,
  names_det (l1 ++ l2) -> Permutation (l1 ++ rest) l2 ->
  exists rest', sub_items l1 l2 = Some rest' /\ Permutation rest rest'.
Proof.
  induction l1 as [|x t IH]; intros l2 rest Hdet Hp; cbn [sub_items].
  - exists l2. split; [reflexivity | exact Hp].
  - assert (Hin : In x l2).
    { apply (Permutation_in _ Hp). left. reflexivity. }
    assert (Hdx : names_det (x :: l2)).
    { apply (names_det_incl _ _) with (2 := Hdet). intros z [Hz|Hz].
      - left. exact Hz.
      - apply in_or_app. right. exact Hz. }
    destruct (remove_name_in x l2 Hin Hdx) as [r [Er Hpr]].
    rewrite Er. apply (IH r rest (names_det_step _ _ _ _ Hdet Hpr)).
    apply Permutation_cons_inv with (a := x). rewrite <- Hpr. exact Hp.
Qed.

Theorem same_items_b_spec l1 l2 :
  names_det (l1 ++ l2) -> (same_items_b l1 l2 = true <-> Permutation l1 l2).
Proof.
  intros Hdet. unfold same_items_b. split.
  - intros H. destruct (sub_items l1 l2) as [rest|] eqn:E; [|discriminate H].
    destruct rest as [|z zs]; [|discriminate H].
    apply sub_items_sound in E; [|exact Hdet].
    rewrite app_nil_r in E. exact E.
  - intros Hp.
    destruct (sub_items_complete l1 l2 [] Hdet) as [rest' [E Hr]].
    { rewrite app_nil_r. exact Hp. }
    rewrite E. apply Permutation_nil in Hr. subst rest'. reflexivity.
Qed.

Lemma forallb_Forall {T} (f : T -> bool) (P : T -> Prop) l :
  (forall x, f x = true <-> P x) -> (forallb f l = true <-> Forall P l).
Proof.
  intros H. rewrite forallb_forall, Forall_forall. split; intros G x Hx; apply H, G, Hx.
Qed.

Theorem wf_b_spec (b : bins citem) : wf_b b = true <-> wf cval b.
Proof. apply forallb_Forall. intros bn. unfold wf_bin. lia. Qed.

Theorem is_partition_b_spec k items (b : bins citem) :
  names_det (contents b ++ items) ->
  (is_partition_b k items b = true <-> is_partition cval k items b).
Proof.
  intros Hdet. unfold is_partition_b, is_partition.
  rewrite !andb_true_iff, (same_items_b_spec _ _ Hdet), Nat.eqb_eq, wf_b_spec.
  tauto.
Qed.

Lemma feasible_b_spec C (b : bins citem) :
  forallb (fun bn => fst bn <=? C) b = true <-> feasible C b.
Proof. apply forallb_Forall. intros bn. lia. Qed.

Theorem is_packing_b_spec C items (b : bins citem) :
  names_det (contents b ++ items) ->
  (is_packing_b C items b = true <-> is_packing cval C items b).
Proof.
  intros Hdet. unfold is_packing_b, is_packing.
  rewrite !andb_true_iff, (same_items_b_spec _ _ Hdet), feasible_b_spec, wf_b_spec.
  tauto.
Qed.

Theorem nonempty_b_spec (b : bins citem) : nonempty_b b = true <-> all_nonempty b.
Proof. apply forallb_Forall. intros bn. destruct (snd bn); split; congruence. Qed.

Theorem anyfit_b_spec C (b : bins citem) : anyfit_b C b = true <-> anyfit cval C b.
Proof.
  induction b as [|bn t IH]; cbn [anyfit_b anyfit].
  - split; intros _; [exact I | reflexivity].
  - rewrite andb_true_iff, IH. apply and_iff_compat_r, forallb_Forall. intros later.
    destruct (snd later); [split; [discriminate|contradiction]|lia].
Qed.

Lemma ascending_b_Sorted l : ascending_b l = true <-> Sorted Z.le l.
Proof.
  induction l as [|x t IH].
  - split; intros _; [constructor | reflexivity].
  - cbn [ascending_b]. destruct t as [|y t'].
    + split; intros _; [constructor; constructor | reflexivity].
    + rewrite andb_true_iff, IH. split.
      * intros [Hxy Hs]. constructor; [exact Hs | constructor; lia].
      * intros Hs. inversion Hs as [|a l' Hs' Hhd]; subst.
        inversion Hhd as [|b l'' Hle]; subst. split; [lia | exact Hs'].
Qed.

Lemma ascending_b_StronglySorted l : ascending_b l = true <-> StronglySorted Z.le l.
Proof.
  rewrite ascending_b_Sorted. split.
  - apply Sorted_StronglySorted. intros a b c Hab Hbc. lia.
  - apply StronglySorted_Sorted.
Qed.

(** main form: elementary index statement (also available: [ascending_b_Sorted] with
    [Sorted Z.le], [ascending_b_StronglySorted] with [StronglySorted Z.le]) *)
Theorem ascending_b_spec l :
  ascending_b l = true <->
  (forall i j, (i <= j < length l)%nat -> nth i l 0 <= nth j l 0).
Proof.
  rewrite ascending_b_StronglySorted. apply StronglySorted_nth.
Qed.

Lemma full_b_spec C (b : bins citem) :
  forallb (fun bn => C <=? fst bn) b = true <-> Forall (fun bn => C <= fst bn) b.
Proof. apply forallb_Forall. intros bn. lia. Qed.

Theorem is_cover_b_sound C items (b : bins citem) r :
  names_det (contents b ++ items) -> is_cover_b C items b = Some r ->
  exists rest, is_cover cval C items b rest /\ zsum (map cval rest) = r.
Proof.
  intros Hdet H. unfold is_cover_b in H.
  destruct (forallb (fun bn => C <=? fst bn) b && wf_b b) eqn:E; [|discriminate H].
  apply andb_true_iff in E. destruct E as [Ef Ew].
  destruct (sub_items (contents b) items) as [rest|] eqn:Es; [|discriminate H].
  injection H as H. exists rest. split; [|exact H].
  unfold is_cover. split; [apply full_b_spec; exact Ef|].
  split; [apply wf_b_spec; exact Ew|].
  apply sub_items_sound; assumption.
Qed.

Theorem is_cover_b_complete C items (b : bins citem) rest :
  names_det (contents b ++ items) -> is_cover cval C items b rest ->
  is_cover_b C items b = Some (zsum (map cval rest)).
Proof.
  intros Hdet [Hf [Hw Hp]]. unfold is_cover_b.
  apply full_b_spec in Hf. apply wf_b_spec in Hw. rewrite Hf, Hw. cbn [andb].
  destruct (sub_items_complete _ _ _ Hdet Hp) as [rest' [E Hr]].
  rewrite E. f_equal. apply zsum_perm. apply Permutation_map. apply Permutation_sym. exact Hr.
Qed.

(** the checker's answer is determined by the specification: any two leftovers have the
    same total value *)
Corollary is_cover_b_iff C items (b : bins citem) r :
  names_det (contents b ++ items) ->
  (is_cover_b C items b = Some r <->
   exists rest, is_cover cval C items b rest /\ zsum (map cval rest) = r).
Proof.
  intros Hdet. split.
  - apply is_cover_b_sound. exact Hdet.
  - intros [rest [Hc Hr]]. rewrite <- Hr. apply is_cover_b_complete; assumption.
Qed.

Print Assumptions remove_name_spec.
Print Assumptions sub_items_sound.
Print Assumptions sub_items_complete.
Print Assumptions same_items_b_spec.
Print Assumptions wf_b_spec.
Print Assumptions is_partition_b_spec.
Print Assumptions is_packing_b_spec.
Print Assumptions nonempty_b_spec.
Print Assumptions anyfit_b_spec.
Print Assumptions ascending_b_Sorted.
Print Assumptions ascending_b_spec.
Print Assumptions is_cover_b_sound.
Print Assumptions is_cover_b_complete.
Print Assumptions is_cover_b_iff.
