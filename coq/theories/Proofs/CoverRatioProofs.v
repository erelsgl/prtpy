(** C10: the approximation guarantee of the two-thirds bin-covering heuristic
    (Model/Covering.v [cover_twothirds], prtpy/packing/cflz_covering.py [twothirds];
    Csirik, Frenk, Labbe, Zhang 1999):   2 * (OPT - 1) <= 3 * (number of bins filled).

    Method: a weighting argument whose weights depend on the run.  For a parameter D with
    0 < D <= C the weight [W C D v] of a value v is chosen so that every set of values
    reaching C weighs at least 2*D, hence OPT * 2D <= total weight ([opt_weight], stated for
    any weight function and shared with CoverRatio34Proofs).  The loop analysis then
    shows that for a suitable D every bin closed by the heuristic weighs at most 3*D and
    the left-over bin less than 2*D.  D = C is (twice) the capped volume and serves the
    runs in which every bin is closed by an item below C/2; a run in which some bin is
    closed by an item >= C/2 taken from the small end uses D = 2 * (C - x) where x is the
    first item of the first such bin. *)
From Prtpy Require Import Base.Prelude Model.Binner Model.Covering Spec.Partition
  Proofs.BaseLemmas Proofs.BinnerLemmas Proofs.CoveringProofs Proofs.EnumProofs Proofs.SNPProofs.
From Coq Require Import Sorting.Sorted ZifyBool.

(** ---- weighting arguments in general: a weight function [w] under which every set of
    values reaching C weighs at least K bounds the optimum by (total weight) / K ---- *)

Definition idz (v : Z) : Z := v.

Section WeightBound.
  Context (w : Z -> Z) (C K : Z).
  Hypothesis w_nonneg : forall v, 0 <= v -> 0 <= w v.
  Hypothesis w_valid : forall Q, Forall (fun v => 0 <= v) Q -> C <= zsum Q -> K <= zsum (map w Q).

  Lemma lists_weight : forall T : list (list Z),
    Forall (fun v => 0 <= v) (concat T) -> Forall (fun x => C <= x) (tsums idz T) ->
    Z.of_nat (length T) * K <= zsum (map w (concat T)).
  Proof.
    induction T as [|l T IH]; intros Hnn Hfull.
    - cbn. lia.
    - cbn [concat] in *. apply Forall_app in Hnn. destruct Hnn as [Hl HT].
      unfold tsums in Hfull. cbn [map] in Hfull. inversion Hfull as [|s0 ss Hs Hss]; subst s0 ss.
      specialize (IH HT Hss). rewrite map_app, zsum_app. cbn [length]. rewrite Nat2Z.inj_succ.
      unfold InExTree.vsum, idz in Hs. rewrite map_id in Hs.
      pose proof (w_valid l Hl Hs). lia.
  Qed.

  Lemma cover_weight_bound n vs : Forall (fun v => 0 <= v) vs ->
    Coverable C vs n -> Z.of_nat n * K <= zsum (map w vs).
  Proof.
    intros Hnn [Hn|(s & Hat & Hfull)].
    - subst n. cbn [Z.of_nat]. apply zsum_nonneg. rewrite Forall_map.
      eapply Forall_impl; [|exact Hnn]. exact w_nonneg.
    - rewrite <- (map_id vs) in Hat. change (fun x : Z => x) with idz in Hat.
      destruct (attainable_lists idz n vs s Hat) as (T & HL & HP & HS).
      rewrite <- HL. rewrite <- (zsum_perm _ _ (Permutation_map w HP)).
      apply lists_weight.
      + eapply Permutation_Forall; [symmetry; exact HP|exact Hnn].
      + rewrite HS. exact Hfull.
  Qed.
End WeightBound.

Section ItemWeights.
  Context {A : Type} (valueof : A -> Z) (w : Z -> Z).

  (** total weight of a list of items *)
  Definition wsum (l : list A) : Z := zsum (map (fun a => w (valueof a)) l).

  Lemma wsum_app l1 l2 : wsum (l1 ++ l2) = wsum l1 + wsum l2.
  Proof. unfold wsum. rewrite map_app, zsum_app. reflexivity. Qed.
  Lemma wsum_cons x l : wsum (x :: l) = w (valueof x) + wsum l.
  Proof. reflexivity. Qed.
  Lemma wsum_nil : wsum [] = 0.
  Proof. reflexivity. Qed.
  Lemma wsum_perm l1 l2 : Permutation l1 l2 -> wsum l1 = wsum l2.
  Proof. intros H. unfold wsum. apply zsum_perm, Permutation_map. exact H. Qed.

  Lemma wsum_contents K (b : bins A) :
    Forall (fun bn => wsum (snd bn) <= K) b -> wsum (contents b) <= K * Z.of_nat (length b).
  Proof.
    induction 1 as [|c t Hc Ht IH].
    - cbn. lia.
    - change (contents (c :: t)) with (snd c ++ contents t). rewrite wsum_app. cbn [length]. rewrite Nat2Z.inj_succ. lia.
  Qed.

  Lemma opt_weight C K items n (b : bins A) rest :
    (forall v, 0 <= v -> 0 <= w v) ->
    (forall Q, Forall (fun v => 0 <= v) Q -> C <= zsum Q -> K <= zsum (map w Q)) ->
    Forall (fun x => 0 < valueof x) items -> Coverable C (map valueof items) n ->
    Permutation (contents b ++ rest) items ->
    Z.of_nat n * K <= wsum (contents b) + wsum rest.
  Proof.
    intros Hnn Hvalid Hpos Hcov HP. rewrite <- wsum_app, (wsum_perm _ _ HP).
    unfold wsum. rewrite <- (map_map valueof w). apply (cover_weight_bound w C K); try assumption.
    rewrite Forall_map. eapply Forall_impl; [|exact Hpos]. cbv beta. intros x Hx. lia.
  Qed.
End ItemWeights.

(** ---- the weights ---- *)

Definition W (C D v : Z) : Z :=
  if 2 * v <? C then Z.min (2 * v) D else 2 * D - Z.min (Z.max (2 * (C - v)) 0) D.

Lemma W_nonneg C D v : 0 < D -> 0 <= v -> 0 <= W C D v.
Proof. intros HD Hv. unfold W. destruct (2 * v <? C) eqn:E; lia. Qed.

(** values below C/2 ("small") and the others ("big") are accounted separately *)
Definition vsm (C v : Z) : Z := if 2 * v <? C then v else 0.
Definition vbg (C v : Z) : Z := if 2 * v <? C then 0 else v.
Definition Wsm (C D v : Z) : Z := if 2 * v <? C then W C D v else 0.
Definition Wbg (C D v : Z) : Z := if 2 * v <? C then 0 else W C D v.

Lemma zsum_map_split (f g h : Z -> Z) (Q : list Z) : (forall v, f v = g v + h v) ->
  zsum (map f Q) = zsum (map g Q) + zsum (map h Q).
Proof.
  intros H. induction Q as [|v Q IH]; cbn [map]; [reflexivity|].
  rewrite !zsum_cons, IH, H. lia.
Qed.

(** small values: their weight is at least min (2 vol) D and at least min (2 vol - C + D) (2 D) *)
Lemma small_weight C D Q : 0 < D -> D <= C -> Forall (fun v => 0 <= v) Q ->
  0 <= zsum (map (vsm C) Q) /\
  Z.min (2 * zsum (map (vsm C) Q)) D <= zsum (map (Wsm C D) Q) /\
  Z.min (2 * zsum (map (vsm C) Q) - C + D) (2 * D) <= zsum (map (Wsm C D) Q).
Proof.
  intros HD HDC HQ. induction HQ as [|v Q Hv HQ IH]; cbn [map].
  - cbn. lia.
  - rewrite !zsum_cons. destruct IH as (I0 & I1 & I2). clear HQ.
    set (a := zsum (map (vsm C) Q)) in *. set (b := zsum (map (Wsm C D) Q)) in *.
    unfold vsm, Wsm, W. destruct (2 * v <? C) eqn:E; [|lia].
    split; [lia|]. split; [clear I2|]; lia.
Qed.

(** big values: one of them already weighs 2 D - min (2 (C - v)) D >= D *)
Lemma big_weight C D Q : 0 < D -> D <= C -> 0 < C -> Forall (fun v => 0 <= v) Q ->
  0 <= zsum (map (vbg C) Q) /\ 0 <= zsum (map (Wbg C D) Q) /\
  (0 < zsum (map (vbg C) Q) ->
   2 * D - Z.min (Z.max (2 * (C - zsum (map (vbg C) Q))) 0) D <= zsum (map (Wbg C D) Q)).
Proof.
  intros HD HDC HC HQ. induction HQ as [|v Q Hv HQ IH]; cbn [map].
  - cbn. lia.
  - rewrite !zsum_cons. destruct IH as (I0 & I1 & I2). clear HQ.
    set (a := zsum (map (vbg C) Q)) in *. set (b := zsum (map (Wbg C D) Q)) in *.
    unfold vbg, Wbg, W. destruct (2 * v <? C) eqn:E; [lia|].
    split; [lia|]. split; [lia|]. intros _.
    destruct (Z.eq_dec a 0) as [Z0|Z0]; [clear I2; lia|].
    assert (H : 0 < a) by lia. specialize (I2 H). lia.
Qed.

(** every set of values that reaches C weighs at least 2 D *)
Lemma W_valid C D Q : 0 < D -> D <= C -> Forall (fun v => 0 <= v) Q ->
  C <= zsum Q -> 2 * D <= zsum (map (W C D) Q).
Proof.
  intros HD HDC HQ Hsum. assert (HC : 0 < C) by lia.
  destruct (small_weight C D Q HD HDC HQ) as (S0 & S1 & S2).
  destruct (big_weight C D Q HD HDC HC HQ) as (B0 & B1 & B2).
  assert (Hv : zsum Q = zsum (map (vsm C) Q) + zsum (map (vbg C) Q)).
  { rewrite <- (map_id Q) at 1. apply zsum_map_split. intros v. unfold vsm, vbg.
    destruct (2 * v <? C); lia. }
  assert (Hw : zsum (map (W C D) Q) = zsum (map (Wsm C D) Q) + zsum (map (Wbg C D) Q)).
  { apply zsum_map_split. intros v. unfold Wsm, Wbg. destruct (2 * v <? C); lia. }
  rewrite Hw. rewrite Hv in Hsum.
  destruct (Z.eq_dec (zsum (map (vbg C) Q)) 0) as [Z0|Z0]; [lia|].
  assert (H : 0 < zsum (map (vbg C) Q)) by lia. specialize (B2 H). lia.
Qed.

Section CoverRatio.
  Context {A : Type} (valueof : A -> Z).

  Notation add1 := (add_to_bin valueof true).
  Notation vsum := (InExTree.vsum valueof).
  Notation wsum C D := (wsum valueof (W C D)).

  Definition smallp (C : Z) (a : A) : Prop := 0 <= valueof a /\ 2 * valueof a < C.

  (** small items weigh at most twice their value *)
  Lemma wsum_small C D l : Forall (smallp C) l -> 0 <= vsum l /\ wsum C D l <= 2 * vsum l.
  Proof.
    induction 1 as [|a l [Ha1 Ha2] Hl IH]; [cbn; lia|].
    rewrite wsum_cons, vsum_cons. unfold W at 1. destruct (2 * valueof a <? C) eqn:E; lia.
  Qed.

  (** with D = C the weight is twice the capped value *)
  Lemma wsum_C C l : 0 < C -> Forall (fun a => 0 <= valueof a) l -> wsum C C l <= 2 * vsum l.
  Proof.
    intros HC. induction 1 as [|a l Ha Hl IH]; [cbn; lia|].
    rewrite wsum_cons, vsum_cons. unfold W at 1. destruct (2 * valueof a <? C) eqn:E; lia.
  Qed.

  (** ---- second phase: only items in [C/2, X] remain, X < C, D = 2 (C - X) ---- *)
  Definition midp (C X : Z) (a : A) : Prop := C <= 2 * valueof a /\ valueof a <= X.

  Lemma W_mid C X v : X < C -> C <= 2 * v -> v <= X -> W C (2 * (C - X)) v = 2 * (C - X).
  Proof. intros HX H1 H2. unfold W. destruct (2 * v <? C) eqn:E; lia. Qed.

  Definition pair_shape (C X : Z) (fresh : bool) (cur : bin A) : Prop :=
    if fresh then cur = empty_bin
    else exists a, fst cur = valueof a /\ snd cur = [a] /\ midp C X a.

  Lemma tt_pairs C X : X < C -> forall fuel bs cur fresh rem,
    Forall (midp C X) rem -> pair_shape C X fresh cur ->
    exists new, fst (tt_loop valueof true fuel C (bs, cur) fresh rem) = bs ++ new /\
      Forall (fun b => wsum C (2 * (C - X)) (snd b) <= 3 * (2 * (C - X))) new /\
      wsum C (2 * (C - X)) (snd (snd (tt_loop valueof true fuel C (bs, cur) fresh rem)))
        < 2 * (2 * (C - X)).
  Proof.
    intros HX.
    assert (Hstop : forall bs cur fresh, pair_shape C X fresh cur ->
      exists new : bins A, fst (bs, cur) = bs ++ new /\
        Forall (fun b => wsum C (2 * (C - X)) (snd b) <= 3 * (2 * (C - X))) new /\
        wsum C (2 * (C - X)) (snd (snd (bs, cur))) < 2 * (2 * (C - X))).
    { intros bs cur fresh Hsh. exists []. cbn [fst snd]. rewrite app_nil_r.
      split; [reflexivity|split; [constructor|]].
      destruct fresh; cbn [pair_shape] in Hsh.
      - subst cur. unfold empty_bin. cbn [snd]. rewrite wsum_nil. lia.
      - destruct Hsh as (a & _ & Hs & Ha1 & Ha2). rewrite Hs, wsum_cons, wsum_nil.
        rewrite W_mid by assumption. lia. }
    induction fuel as [|f IH]; intros bs cur fresh rem Hrem Hsh; cbn [tt_loop].
    - apply (Hstop bs cur fresh Hsh).
    - destruct rem as [|x t]; [apply (Hstop bs cur fresh Hsh)|].
      destruct fresh; cbn [pair_shape] in Hsh.
      + subst cur. cbv zeta. cbn [fst snd]. inversion Hrem as [|x0 t0 Hx Ht]; subst x0 t0.
        destruct Hx as [Hx1 Hx2].
        destruct (fst (add1 x empty_bin) >=? C) eqn:E; [cbn in E; lia|].
        apply IH; [exact Ht|]. cbn [pair_shape]. exists x. cbn. repeat split; lia.
      + destruct Hsh as (a & Hf & Hs & Ha1 & Ha2).
        destruct (unsnoc (x :: t)) as [[r y]|] eqn:U; [|apply unsnoc_None in U; discriminate].
        apply unsnoc_Some in U. rewrite U in Hrem. apply Forall_app in Hrem.
        destruct Hrem as [Hr Hy]. inversion Hy as [|y0 t0 [Hy1 Hy2] _]; subst y0 t0.
        cbv zeta. cbn [fst snd].
        destruct (fst (add1 y cur) >=? C) eqn:E; [|cbn in E; lia].
        destruct (IH (bs ++ [add1 y cur]) empty_bin true r Hr) as (new & H1 & H2 & H3);
          [reflexivity|].
        exists (add1 y cur :: new).
        split; [transitivity ((bs ++ [add1 y cur]) ++ new);
                [exact H1|rewrite <- app_assoc; reflexivity]|].
        split; [|exact H3]. constructor; [|exact H2].
        cbn [add_to_bin snd]. rewrite Hs. cbn [app]. rewrite !wsum_cons, wsum_nil.
        rewrite !W_mid by assumption. lia.
  Qed.

  (** ---- weights of the bins closed in the first phase ---- *)

  (** an item >= C alone *)
  Lemma single_weight C D x : 0 < D -> C <= valueof x -> wsum C D [x] <= 3 * D.
  Proof.
    intros HD Hx. rewrite wsum_cons, wsum_nil. unfold W.
    destruct (2 * valueof x <? C) eqn:E; lia.
  Qed.

  (** first item x, then small items, closed by a small item y *)
  Lemma small_close_weight C D x pre y : 0 < D -> D <= C -> 0 <= valueof x ->
    Forall (smallp C) pre -> smallp C y -> valueof x + vsum pre < C ->
    (D = C \/ (C <= 2 * valueof x /\ 2 * (C - valueof x) <= D)) ->
    wsum C D (x :: pre ++ [y]) <= 3 * D.
  Proof.
    intros HD HDC Hx Hpre [Hy1 Hy2] Hlt HDx.
    rewrite wsum_cons, wsum_app, wsum_cons, wsum_nil.
    destruct (wsum_small C D pre Hpre) as [Hp0 Hp].
    assert (Hwy : W C D (valueof y) <= D).
    { unfold W. destruct (2 * valueof y <? C) eqn:E; lia. }
    assert (Hwx : W C D (valueof x) <= 2 * D - 2 * (C - valueof x)).
    { unfold W. destruct (2 * valueof x <? C) eqn:E; lia. }
    lia.
  Qed.

  (** first item x in [C/2, C), then small items, closed by an item y in [C/2, x] *)
  Lemma transition_weight C x pre y : C <= 2 * valueof y -> valueof y <= valueof x ->
    Forall (smallp C) pre -> valueof x + vsum pre < C ->
    wsum C (2 * (C - valueof x)) (x :: pre ++ [y]) <= 3 * (2 * (C - valueof x)).
  Proof.
    intros Hy1 Hy2 Hpre Hlt.
    rewrite wsum_cons, wsum_app, wsum_cons, wsum_nil.
    destruct (wsum_small C (2 * (C - valueof x)) pre Hpre) as [Hp0 Hp].
    rewrite !W_mid by lia. lia.
  Qed.

  Lemma sorted_snoc (r : list A) y :
    StronglySorted (fun a b => valueof b <= valueof a) (r ++ [y]) ->
    StronglySorted (fun a b => valueof b <= valueof a) r /\
    Forall (fun a => valueof y <= valueof a) r.
  Proof.
    intros H. apply StronglySorted_app_inv in H. destruct H as (H1 & _ & H2). split; [exact H1|].
    eapply Forall_impl; [|exact H2]. intros a Ha. exact (Forall_inv Ha).
  Qed.

  (** ---- the first phase ---- *)

  (** admissible parameters: C itself, or 2 (C - v) for a candidate item v in [C/2, C) *)
  Definition Dok (C : Z) (cands : list A) (D : Z) : Prop :=
    0 < D /\ D <= C /\
    (D = C \/ exists a, In a cands /\ C <= 2 * valueof a /\ valueof a < C /\ D = 2 * (C - valueof a)).

  (** the run from here adds bins [new] after [bs]; all of them weigh <= 3 D, the rest < 2 D *)
  Definition good_run (C : Z) (bs : bins A) (cands : list A) (st' : cstate (A:=A)) : Prop :=
    exists new D, fst st' = bs ++ new /\ Dok C cands D /\
      Forall (fun b => wsum C D (snd b) <= 3 * D) new /\
      wsum C D (snd (snd st')) < 2 * D.

  Lemma Dok_incl C c1 c2 D : incl c1 c2 -> Dok C c1 D -> Dok C c2 D.
  Proof.
    intros Hi (H1 & H2 & [H3|(a & Ha & H3)]); repeat split; try assumption; [left; exact H3|].
    right. exists a. split; [apply Hi; exact Ha|exact H3].
  Qed.

  Lemma good_run_incl C bs c1 c2 st' : incl c1 c2 -> good_run C bs c1 st' -> good_run C bs c2 st'.
  Proof.
    intros Hi (new & D & H1 & H2 & H3 & H4). exists new, D.
    split; [exact H1|]. split; [eapply Dok_incl; eassumption|]. split; assumption.
  Qed.

  (** a bin closed now is accounted with the parameter chosen later *)
  Lemma good_run_cons C bs b c1 c2 st' : incl c1 c2 ->
    (forall D, Dok C c1 D -> wsum C D (snd b) <= 3 * D) ->
    good_run C (bs ++ [b]) c1 st' -> good_run C bs c2 st'.
  Proof.
    intros Hi Hb (new & D & H1 & H2 & H3 & H4). exists (b :: new), D.
    split; [rewrite H1, <- app_assoc; reflexivity|].
    split; [eapply Dok_incl; eassumption|].
    split; [constructor; [apply Hb; exact H2|exact H3]|exact H4].
  Qed.

  (** the current bin: empty when fresh, otherwise a first item followed by small items *)
  Definition run_shape (C : Z) (fresh : bool) (cur : bin A) (rem : list A) : Prop :=
    fst cur = vsum (snd cur) /\ fst cur < C /\
    if fresh then snd cur = []
    else exists x pre, snd cur = x :: pre /\ 0 <= valueof x /\ Forall (smallp C) pre /\
                       Forall (fun a => valueof a <= valueof x) rem.

  Lemma smallp_nonneg C l : Forall (smallp C) l -> Forall (fun a => 0 <= valueof a) l.
  Proof. intros H. eapply Forall_impl; [|exact H]. intros a [Ha _]. exact Ha. Qed.

  Lemma run_stop C bs cur fresh rem cands : 0 < C -> run_shape C fresh cur rem ->
    good_run C bs cands (bs, cur).
  Proof.
    intros HC (Hw & Hlt & Hsh). exists [], C. cbn [fst snd]. rewrite app_nil_r.
    split; [reflexivity|]. split; [unfold Dok; repeat split; try lia; left; reflexivity|].
    split; [constructor|].
    assert (Hnn : Forall (fun a => 0 <= valueof a) (snd cur)).
    { destruct fresh.
      - rewrite Hsh. constructor.
      - destruct Hsh as (x & pre & Hs & Hx & Hpre & _). rewrite Hs.
        constructor; [exact Hx|apply (smallp_nonneg C); exact Hpre]. }
    pose proof (wsum_C C (snd cur) HC Hnn) as H. lia.
  Qed.

  Notation desc := (StronglySorted (fun a b : A => valueof b <= valueof a)).
  Notation posl := (Forall (fun a : A => 0 < valueof a)).

  Definition phase1_at (C : Z) (f : nat) : Prop := forall bs cur fresh rem,
    desc rem -> posl rem -> run_shape C fresh cur rem ->
    good_run C bs (snd cur ++ rem) (tt_loop valueof true f C (bs, cur) fresh rem).

  Lemma shape_empty C rem : 0 < C -> run_shape C true (@empty_bin A) rem.
  Proof. intros HC. unfold run_shape, empty_bin. cbn. repeat split. exact HC. Qed.

  (** a fresh bin receives the largest remaining item *)
  Lemma step_fresh C f : 0 < C -> phase1_at C f -> forall bs cur x t,
    desc (x :: t) -> posl (x :: t) -> run_shape C true cur (x :: t) ->
    good_run C bs (snd cur ++ x :: t) (tt_loop valueof true (S f) C (bs, cur) true (x :: t)).
  Proof.
    intros HC Hrec bs cur x t Hs Hp (Hw & Hlt & Hnil). cbn [tt_loop fst snd]. cbv zeta.
    inversion Hs as [|x0 t0 Hst Hxt]; subst x0 t0.
    inversion Hp as [|x0 t0 Hx Hpt]; subst x0 t0.
    assert (Hsnd : snd (add1 x cur) = [x]). { cbn [add_to_bin snd]. rewrite Hnil. reflexivity. }
    assert (Hfst : fst (add1 x cur) = valueof x).
    { cbn [add_to_bin fst]. rewrite Hw, Hnil. cbn. lia. }
    destruct (fst (add1 x cur) >=? C) eqn:E.
    - apply (good_run_cons C bs (add1 x cur) (snd (@empty_bin A) ++ t)).
      + cbn [empty_bin snd app]. intros a Ha. apply in_or_app. right. right. exact Ha.
      + intros D (HD & _). rewrite Hsnd. apply single_weight; [exact HD|lia].
      + apply Hrec; [exact Hst|exact Hpt|apply shape_empty; exact HC].
    - apply (good_run_incl C bs (snd (add1 x cur) ++ t)).
      + rewrite Hsnd, Hnil. cbn [app]. apply incl_refl.
      + apply Hrec; [exact Hst|exact Hpt|]. unfold run_shape.
        split; [rewrite Hfst, Hsnd; cbn; lia|]. split; [lia|].
        exists x, []. rewrite Hsnd. repeat split; [lia|constructor|exact Hxt].
  Qed.

  (** an open bin receives the smallest remaining item *)
  Lemma step_rest C f : 0 < C -> phase1_at C f -> forall bs cur r y,
    desc (r ++ [y]) -> posl (r ++ [y]) -> run_shape C false cur (r ++ [y]) ->
    good_run C bs (snd cur ++ r ++ [y])
      (if fst (add1 y cur) >=? C
       then tt_loop valueof true f C (bs ++ [add1 y cur], empty_bin) true r
       else tt_loop valueof true f C (bs, add1 y cur) false r).
  Proof.
    intros HC Hrec bs cur r y Hs Hp (Hw & Hlt & x & pre & Hcur & Hx & Hpre & Hle).
    destruct (sorted_snoc r y Hs) as [Hsr Hyr].
    apply Forall_app in Hp. destruct Hp as [Hpr Hpy].
    inversion Hpy as [|y0 t0 Hy _]; subst y0 t0.
    apply Forall_app in Hle. destruct Hle as [Hler Hley].
    inversion Hley as [|y0 t0 Hyx _]; subst y0 t0.
    destruct (wsum_small C C pre Hpre) as [Hpre0 _].
    assert (Hsnd : snd (add1 y cur) = x :: pre ++ [y]).
    { cbn [add_to_bin snd]. rewrite Hcur. reflexivity. }
    assert (Hfst : fst (add1 y cur) = valueof x + vsum pre + valueof y).
    { cbn [add_to_bin fst]. rewrite Hw, Hcur, vsum_cons. lia. }
    rewrite Hw, Hcur, vsum_cons in Hlt.
    destruct (fst (add1 y cur) >=? C) eqn:E.
    - destruct (2 * valueof y <? C) eqn:Ey.
      + (* closed by a small item *)
        apply (good_run_cons C bs (add1 y cur) (snd (@empty_bin A) ++ r)).
        * cbn [empty_bin snd app]. intros a Ha. apply in_or_app. right.
          apply in_or_app. left. exact Ha.
        * intros D (HD & HDC & HDx). rewrite Hsnd.
          apply small_close_weight; try assumption; [split; lia|].
          destruct HDx as [HDx|(a & Ha & Ha1 & Ha2 & HDa)]; [left; exact HDx|right].
          cbn [empty_bin snd app] in Ha. rewrite Forall_forall in Hler.
          specialize (Hler a Ha). cbv beta in Hler. lia.
        * apply Hrec; [exact Hsr|exact Hpr|apply shape_empty; exact HC].
      + (* closed by an item >= C/2: from now on pairs *)
        destruct (tt_pairs C (valueof x) ltac:(lia) f (bs ++ [add1 y cur]) empty_bin true r)
          as (new & H1 & H2 & H3).
        * rewrite Forall_forall in Hler, Hyr |- *. intros a Ha.
          specialize (Hler a Ha). specialize (Hyr a Ha). cbv beta in Hler, Hyr.
          unfold midp. lia.
        * reflexivity.
        * exists (add1 y cur :: new), (2 * (C - valueof x)).
          split; [transitivity ((bs ++ [add1 y cur]) ++ new);
                  [exact H1|rewrite <- app_assoc; reflexivity]|].
          split; [|split; [constructor; [|exact H2]|exact H3]].
          -- unfold Dok. split; [lia|]. split; [lia|]. right. exists x.
             split; [rewrite Hcur; left; reflexivity|]. lia.
          -- rewrite Hsnd. apply transition_weight; try assumption; lia.
    - apply (good_run_incl C bs (snd (add1 y cur) ++ r)).
      + rewrite Hsnd, Hcur. intros a Ha. cbn [app] in Ha |- *.
        destruct Ha as [Ha|Ha]; [left; exact Ha|right].
        rewrite <- app_assoc in Ha. apply in_app_or in Ha. apply in_or_app.
        destruct Ha as [Ha|Ha]; [left; exact Ha|right].
        apply in_app_or in Ha. apply in_or_app. destruct Ha as [Ha|Ha]; [right|left]; exact Ha.
      + apply Hrec; [exact Hsr|exact Hpr|]. unfold run_shape.
        split; [rewrite Hfst, Hsnd, vsum_cons, vsum_app; cbn; lia|]. split; [lia|].
        exists x, (pre ++ [y]). rewrite Hsnd. split; [reflexivity|]. split; [exact Hx|].
        split; [|exact Hler]. apply Forall_app. split; [exact Hpre|].
        constructor; [|constructor]. split; lia.
  Qed.

  Lemma phase1 C : 0 < C -> forall f, phase1_at C f.
  Proof.
    intros HC. induction f as [|f IH]; intros bs cur fresh rem Hs Hp Hsh.
    - cbn [tt_loop]. eapply run_stop; eassumption.
    - destruct rem as [|x t]; [cbn [tt_loop]; eapply run_stop; eassumption|].
      destruct fresh; [apply step_fresh; assumption|].
      cbn [tt_loop]. destruct (unsnoc (x :: t)) as [[r y]|] eqn:U;
        [|apply unsnoc_None in U; discriminate].
      apply unsnoc_Some in U. rewrite U in Hs, Hp, Hsh |- *. cbv zeta. cbn [fst snd].
      apply step_rest; assumption.
  Qed.

  (** ---- the whole run: some parameter D accounts for every closed bin ---- *)
  Lemma tt_weights C items : 0 < C -> Forall (fun a => 0 < valueof a) items ->
    exists D rest, 0 < D /\ D <= C /\
      Permutation (contents (cover_twothirds valueof true C items) ++ rest) items /\
      Forall (fun b => wsum C D (snd b) <= 3 * D) (cover_twothirds valueof true C items) /\
      wsum C D rest < 2 * D.
  Proof.
    intros HC Hpos. unfold cover_twothirds.
    set (st := tt_loop valueof true (length items) C ([], empty_bin) true (sort_desc valueof items)).
    destruct (tt_final valueof C items HC) as (_ & _ & _ & _ & HP). fold st in HP.
    rewrite app_nil_r in HP.
    assert (Hrun : good_run C [] (snd (@empty_bin A) ++ sort_desc valueof items) st).
    { subst st. apply phase1; [exact HC|apply sort_desc_sorted| |apply shape_empty; exact HC].
      eapply Permutation_Forall; [symmetry; apply sort_desc_perm|exact Hpos]. }
    destruct Hrun as (new & D & H1 & (HD & HDC & _) & H3 & H4). cbn [app] in H1.
    exists D, (snd (snd st)). rewrite H1. repeat split; try assumption.
    rewrite <- H1. exact HP.
  Qed.

  (** C10: twothirds fills at least 2/3 of (OPT - 1) bins.
      In fact 2 * OPT <= 3 * bins + 1. *)
  Theorem twothirds_ratio_strong : forall C items n, 0 < C ->
    Forall (fun x => 0 < valueof x) items -> MaxCover C (map valueof items) n ->
    (2 * n <= 3 * length (cover_twothirds valueof true C items) + 1)%nat.
  Proof.
    intros C items n HC Hpos [Hcov _].
    destruct (tt_weights C items HC Hpos) as (D & rest & HD & HDC & HP & Hb & Hr).
    pose proof (opt_weight valueof (W C D) C (2 * D) items n _ rest
      (fun v => W_nonneg C D v HD) (fun Q => W_valid C D Q HD HDC) Hpos Hcov HP) as Hopt.
    pose proof (wsum_contents valueof (W C D) _ _ Hb) as Hc.
    set (m := length (cover_twothirds valueof true C items)) in *.
    assert (Hlt : (2 * Z.of_nat n) * D < (3 * Z.of_nat m + 2) * D) by lia.
    apply Z.mul_lt_mono_pos_r in Hlt; [lia|exact HD].
  Qed.

  Theorem twothirds_ratio : forall C items n, 0 < C ->
    Forall (fun x => 0 < valueof x) items -> MaxCover C (map valueof items) n ->
    (2 * (n - 1) <= 3 * length (cover_twothirds valueof true C items))%nat.
  Proof.
    intros C items n HC Hpos Hmax.
    pose proof (twothirds_ratio_strong C items n HC Hpos Hmax). lia.
  Qed.
End CoverRatio.

(** ---- the guarantee against the executable oracle, and examples ---- *)
From Prtpy Require Import Oracle.Reach Proofs.OracleSpec.

Corollary twothirds_ratio_oracle : forall C vs, 0 < C -> Forall (fun v => 0 < v) vs ->
  (2 * (max_cover C vs - 1) <= 3 * length (cover_twothirds idz true C vs))%nat.
Proof.
  intros C vs HC Hpos. apply (twothirds_ratio idz C vs (max_cover C vs) HC Hpos).
  change (map idz vs) with (map (fun v : Z => v) vs). rewrite map_id.
  apply max_cover_spec; assumption.
Qed.

(** The optimum of an instance, without running the oracle: an assignment of the values
    to n bins that covers them all, while the total value falls short of n + 1 bins. *)
Definition cover_witness (C : Z) (vs : list Z) (asg : list nat) (n : nat) : bool :=
  (0 <? C) && forallb (fun v => 0 <? v) vs &&
  (length asg =? length vs)%nat && forallb (fun i => i <? n)%nat asg &&
  forallb (fun x => C <=? x) (loads n vs asg) && (zsum vs <? (Z.of_nat n + 1) * C).

Lemma max_cover_witness C vs asg n : cover_witness C vs asg n = true -> max_cover C vs = n.
Proof.
  unfold cover_witness. rewrite !andb_true_iff, !forallb_forall, Nat.eqb_eq.
  intros (((((HC & Hpos) & Hlen) & Hasg) & Hfull) & Hvol).
  assert (Hmax : MaxCover C vs (max_cover C vs)).
  { apply max_cover_spec; [lia|]. apply Forall_forall. intros v Hv. apply Hpos in Hv. lia. }
  destruct Hmax as [Hcov Hmax]. apply Nat.le_antisymm.
  - destruct Hcov as [E|(s & Hat & Hs)]; [lia|].
    pose proof (cover_volume_bound C _ vs s Hat Hs) as Hle.
    assert (Hlt : Z.of_nat (max_cover C vs) * C < (Z.of_nat n + 1) * C) by lia.
    apply Z.mul_lt_mono_pos_r in Hlt; lia.
  - apply Hmax. right. exists (loads n vs asg). split.
    + exists asg. repeat split; [exact Hlen|]. apply Forall_forall. intros i Hi.
      apply Hasg in Hi. apply Nat.ltb_lt. exact Hi.
    + apply Forall_forall. intros x Hx. apply Hfull in Hx. lia.
Qed.

(** the strong form 2 * OPT <= 3 * bins + 1 is attained: OPT = 2 ([5;5;2] twice), one bin filled *)
Example twothirds_ratio_tight :
  max_cover 12 [5; 5; 5; 5; 2; 2] = 2%nat /\
  cover_twothirds idz true 12 [5; 5; 5; 5; 2; 2] = [(14, [5; 2; 2; 5])].
Proof. split; [apply (max_cover_witness _ _ [0; 0; 1; 1; 0; 1]%nat)|]; reflexivity. Qed.

(** small items only: OPT = 3 ([9;9;1;1] three times), two bins filled *)
Example twothirds_ratio_small :
  max_cover 20 [9; 9; 9; 9; 9; 9; 1; 1; 1; 1; 1; 1] = 3%nat /\
  cover_twothirds idz true 20 [9; 9; 9; 9; 9; 9; 1; 1; 1; 1; 1; 1] =
    [(24, [9; 1; 1; 1; 1; 1; 1; 9]); (27, [9; 9; 9])].
Proof.
  split; [apply (max_cover_witness _ _ [0; 0; 1; 1; 2; 2; 0; 0; 1; 1; 2; 2]%nat)|]; reflexivity.
Qed.

(** a run of the second kind (the second bin is closed by 10 >= C/2 taken from the small end,
    so the analysis uses D = 2 * (20 - 12) = 16) *)
Example twothirds_ratio_pairs :
  max_cover 20 [13; 12; 11; 11; 10; 3; 3; 2] = 3%nat /\
  cover_twothirds idz true 20 [13; 12; 11; 11; 10; 3; 3; 2] =
    [(21, [13; 2; 3; 3]); (22, [12; 10]); (22, [11; 11])].
Proof. split; [apply (max_cover_witness _ _ [0; 1; 2; 2; 1; 0; 0; 0]%nat)|]; reflexivity. Qed.

(** the docstring instance (scaled by 1/10): twothirds fills 3 bins, which is optimal here *)
Example twothirds_ratio_docstring :
  let vs := [94; 49; 49; 49; 49; 49; 49; 1; 1; 1; 1; 1; 1] in
  (max_cover 100 vs, length (cover_twothirds idz true 100 vs)) = (3%nat, 3%nat).
Proof.
  cbv zeta. rewrite (max_cover_witness 100 _ [0; 1; 1; 1; 2; 2; 2; 0; 0; 0; 0; 0; 0]%nat 3)
    by reflexivity.
  reflexivity.
Qed.

Print Assumptions twothirds_ratio.
Print Assumptions twothirds_ratio_strong.
Print Assumptions twothirds_ratio_oracle.
