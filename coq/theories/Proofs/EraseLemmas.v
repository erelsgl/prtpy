(** How [erase] (forgetting the contents: what the sums-only bins manager holds) and [map_bins]
    (replacing each item by its value) commute with the operations of Model/Binner.v.  That the
    sums-only run of an algorithm is the erased contents run, and that the run on the values is the
    mapped run on the items, is, for each algorithm, an induction over these. *)
From Prtpy Require Import Base.Prelude Model.Binner Proofs.BaseLemmas.

Section EraseLemmas.
  Context {A : Type} (valueof : A -> Z).

  Lemma erase_new_bins k : erase (@new_bins A k) = new_bins k.
  Proof. unfold erase, new_bins. rewrite map_repeat_eq. reflexivity. Qed.

  Lemma erase_add_item keep (b : bins A) x i :
    erase (add_item valueof keep b x i) = add_item valueof false (erase b) x i.
  Proof. unfold erase, add_item. apply map_update. intros y. reflexivity. Qed.

  Lemma sort_bins_erase (b : bins A) : sort_bins (erase b) = erase (sort_bins b).
  Proof. unfold sort_bins, erase. symmetry. apply sort_asc_map. intros y. reflexivity. Qed.

  Lemma erase_rev (b : bins A) : erase (rev b) = rev (erase b).
  Proof. apply map_rev. Qed.

  Lemma map_bins_sums (b : bins A) : sums (map_bins valueof b) = sums b.
  Proof. unfold sums, map_bins. rewrite map_map. reflexivity. Qed.

  Lemma map_bins_new_bins k : map_bins valueof (@new_bins A k) = new_bins k.
  Proof. unfold map_bins, new_bins. rewrite map_repeat_eq. reflexivity. Qed.

  Lemma map_bins_add_item keep (b : bins A) x i :
    map_bins valueof (add_item valueof keep b x i) =
    add_item (fun v : Z => v) keep (map_bins valueof b) (valueof x) i.
  Proof.
    unfold map_bins, add_item. apply map_update. intros y.
    unfold add_to_bin. cbn [fst snd]. destruct keep; [rewrite map_app|]; reflexivity.
  Qed.
End EraseLemmas.
