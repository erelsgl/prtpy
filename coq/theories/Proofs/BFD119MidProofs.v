(** Best-fit-decreasing <= 11/9 OPT + c for the mid range of x (the first item of the last bin): the
    instance of the weight argument of FFD119MidProofs.v (Sections Quarter and Fifth) for best fit.

    Proved (b = bins of best_fit_decreasing, n = any number of bins of capacity C that can hold the
    values; hypotheses items <> [], values >= 0), with the SAME constants as for first-fit-decreasing:

      bfd_119_ranges3         : with x = the first item of the last bin,
                                  11 x <= 2 C            ->  9 |b| <= 11 n + 8
                                  C < 4 x                ->  6 |b| <=  7 n + 5
                                  C < 5 x, 4 x <= C      ->  9 |b| <= 11 n + 13
                                  2 C < 11 x, 41 x <= 8C ->  9 |b| <= 11 n + 16
      bfd_ratio_11_9_partial2 : 9 |b| <= 11 n + 16 provided no value lies in (8C/41, C/5]
      bfd_bfL                 : the invariant [bfL] of best-fit-decreasing (below)

    FFD119MidProofs.v proves the weight argument for any relation between the cores of an earlier and a
    later bin that is [later_like]; for first-fit-decreasing it is [Later] (from [sfit2]: NO value of a
    later core fits into an earlier core, counting the values at least as large).  That is FALSE for
    best-fit-decreasing ([bfd_mid_not_Later]).  What [later_like] asks for:
      (1) the first value of a later core does not fit, the first values decrease: [hfit] + [hdesc];
      (2) a value y of a later core c' with only the first value of c' beside it among the values >= y of
          c' does not fit.  This is NOT a consequence of [hfit] + [hdesc] + closedness; it follows from
          best-fit:

      [bfl]/[bfL]  a value y of a later bin c does not fit into an earlier bin bn (counting the values
                   >= y), or   first value of bn + y < sum of the values >= y of c.

    When y arrived, bn held at least its first value and c at most its values >= y other than y; if y
    fitted bn, best-fit (largest sum, lowest index among ties: [bf_scan_opt]) chose c because c was
    strictly fuller.  With first(c) <= first(bn) and sum of the values >= y of c <= first(c) + y the
    alternative is impossible ([LaterB_like]).
    [chain_coresB]: the cores of the bins before the last one are a chain for [LaterB]; the bounds are
    [quarter_of] / [fifth_of] of FFD119MidProofs.v.
    A [_partial] in a name marks a constant weaker than the published one, not an incomplete proof.

    OPEN, as for first-fit-decreasing: 8C/41 < x <= C/5. *)
From Prtpy Require Import Base.Prelude Model.Binner Model.Packing Spec.Partition
  Proofs.BaseLemmas Proofs.BinnerLemmas Proofs.PackingProofs Proofs.FFDRatioProofs Proofs.BFDRatioProofs
  Proofs.BCOptimalProofs Proofs.FFD119Proofs Proofs.BFD54Proofs Oracle.Reach Proofs.OracleSpec
  Proofs.FFD119MidProofs.
From Coq Require Import ZifyBool Sorting.Sorted.

(** ---- the bin-level relation kept by best-fit on a descending list ---- *)
Section BFLDef.
  Context {A : Type} (valueof : A -> Z).
  Notation vals bn := (map valueof (snd bn)).

  (** an item y of the later bin [c] does not fit into [bn] (counting the values >= y), or [c] was
      fuller than [bn] when y arrived: [bn] held at least its first item, [c] at most its values >= y
      other than y itself *)
  Definition bfl (C : Z) (bn c : bin A) : Prop :=
    Forall (fun y => C < zsum (sel y (vals bn)) + y \/ hd 0 (vals bn) + y < zsum (sel y (vals c))) (vals c).

  Fixpoint bfL (C : Z) (b : bins A) : Prop :=
    match b with
    | [] => True
    | bn :: t => Forall (bfl C bn) t /\ bfL C t
    end.

  (** the first item of every bin of a bins-array with [hdesc] dominates the bin *)
  Lemma hdesc_head_all : forall (t : bins A) c, hdesc valueof t -> In c t ->
    exists f r, snd c = f :: r /\ Forall (fun y => valueof y <= valueof f) (snd c).
  Proof.
    induction t as [|bn t IH]; intros c Hh Hc; [destruct Hc|].
    cbn [hdesc] in Hh. destruct Hh as [H1 H2]. destruct Hc as [E|Hc]; [subst c|apply IH; assumption].
    destruct (hd_dom_elim valueof _ _ H1) as (f & r & Es & HF). exists f, r. split; [exact Es|].
    rewrite contents_cons in HF. apply Forall_app in HF. destruct HF as [HF _]. exact HF.
  Qed.

  (** the core of a closed bin starts with the first item of the bin *)
  Lemma core_head C x (c : bin A) f r : x <= C -> snd c = f :: r ->
    Forall (fun y => valueof y <= valueof f) (snd c) -> C < zsum (sel x (vals c)) + x ->
    x <= valueof f /\ core x valueof c = valueof f :: sel x (map valueof r).
  Proof.
    intros HxC Es HF Hcl.
    assert (Hx : x <= valueof f).
    { destruct (sel x (vals c)) as [|e l] eqn:El; [rewrite zsum_nil in Hcl; lia|].
      assert (He : In e (sel x (vals c))) by (rewrite El; left; reflexivity).
      unfold sel in He. apply filter_In in He. destruct He as [He1 He2].
      apply in_map_iff in He1. destruct He1 as (y & Ey & Hy).
      rewrite Forall_forall in HF. specialize (HF y Hy). cbv beta in HF. lia. }
    split; [exact Hx|]. unfold core. rewrite Es. cbn [map]. rewrite sel_cons.
    destruct (x <=? valueof f) eqn:E; [reflexivity|lia].
  Qed.
End BFLDef.

(** ---- the relation between the cores of two bins of a best-fit-decreasing packing ---- *)
Section FrameBF.
  Variables C x : Z.
  Hypothesis HxC : x <= C.

  (** [c] is the core of an earlier bin than [c']: the first values decrease, the first value of c' does
      not fit into c (counting the values at least as large), and a value y of c' that does fit went
      into a fuller bin: c held at least its first value, c' at most its values >= y other than y *)
  Definition LaterB (c c' : list Z) : Prop :=
    hd 0 c' <= hd 0 c /\ C < zsum (sel (hd 0 c') c) + hd 0 c' /\
    Forall (fun y => C < zsum (sel y c) + y \/ hd 0 c + y < zsum (sel y c')) c'.

  (** a value y of c' that has among the values >= y of c' only the first one beside it: the bin was
      not fuller than the first value of c, so y does not fit *)
  Lemma LaterB_like : later_like C x LaterB.
  Proof.
    intros c c' _ (H1 & H2 & H3). split; [exact H1|]. split; [exact H2|]. intros y Hy Hs.
    rewrite Forall_forall in H3. destruct (H3 y Hy) as [H|H]; [exact H|lia].
  Qed.

  (** the cores of closed bins with [hfit], [bfL], [hdesc] form a chain *)
  Lemma chain_coresB {A : Type} (valueof : A -> Z) : forall t : bins A,
    closed valueof C x t -> hfit valueof C t -> bfL valueof C t ->
    wf valueof t -> feasible C t -> Forall (fun y => 0 <= valueof y) (contents t) -> hdesc valueof t ->
    chain_of C x LaterB (map (core x valueof) t).
  Proof.
    induction t as [|bn r IH]; intros Hcl Hsf Hbf Hw Hf Hnn Hh; [exact I|].
    pose proof Hh as Hh0.
    unfold closed in Hcl. apply Forall_cons_iff in Hcl. destruct Hcl as [Hc Hcl].
    cbn [hfit] in Hsf. destruct Hsf as [Hs1 Hsf]. cbn [bfL] in Hbf. destruct Hbf as [Hb1 Hbf].
    unfold wf in Hw. apply Forall_cons_iff in Hw. destruct Hw as [Hwb Hw].
    unfold feasible in Hf. apply Forall_cons_iff in Hf. destruct Hf as [Hfb Hf].
    rewrite contents_cons in Hnn. apply Forall_app in Hnn. destruct Hnn as [Hnb Hnn].
    cbn [hdesc] in Hh. destruct Hh as [Hd Hh].
    destruct (hd_dom_elim valueof _ _ Hd) as (y0 & l0 & Es & Hdom).
    rewrite contents_cons in Hdom. apply Forall_app in Hdom. destruct Hdom as [Hdb Hdr].
    destruct (core_head valueof C x bn y0 l0 HxC Es Hdb Hc) as [Hxy0 Ecore].
    assert (Hvn : Forall (fun a => 0 <= a) (map valueof (snd bn))) by (rewrite Forall_map; exact Hnb).
    cbn [map chain_of]. split; [|split; [|apply IH; assumption]].
    - unfold okcore. split; [apply sel_ge|]. split; [|split].
      + pose proof (zsum_sel_le x (map valueof (snd bn)) Hvn). unfold wf_bin in Hwb. unfold core. lia.
      + exact Hc.
      + assert (Ehd : hd 0 (core x valueof bn) = valueof y0) by (rewrite Ecore; reflexivity).
        rewrite Ehd. unfold core. apply sel_incl. rewrite Forall_map. exact Hdb.
    - rewrite Forall_map. apply Forall_forall. intros bn' Hbn'.
      destruct (hdesc_head_all valueof r bn' Hh Hbn') as (f' & r' & Es' & HF').
      assert (Hc' : C < zsum (sel x (map valueof (snd bn'))) + x).
      { unfold closed in Hcl. rewrite Forall_forall in Hcl. apply Hcl. exact Hbn'. }
      destruct (core_head valueof C x bn' f' r' HxC Es' HF' Hc') as [Hxf' Ecore'].
      assert (Hf'in : In f' (contents r)).
      { apply (in_contents_bin r bn' f' Hbn'). rewrite Es'. left. reflexivity. }
      assert (Ehd : hd 0 (core x valueof bn) = valueof y0) by (rewrite Ecore; reflexivity).
      assert (Ehd' : hd 0 (core x valueof bn') = valueof f') by (rewrite Ecore'; reflexivity).
      unfold LaterB. rewrite Ehd, Ehd'. split; [|split].
      + rewrite Forall_forall in Hdr. apply Hdr. exact Hf'in.
      + rewrite Forall_forall in Hs1. specialize (Hs1 bn' Hbn'). unfold head_nofit in Hs1.
        rewrite Es' in Hs1. unfold core. rewrite sel_sel; [exact Hs1|lia].
      + rewrite Forall_forall in Hb1. specialize (Hb1 bn' Hbn'). unfold bfl in Hb1.
        apply Forall_forall. intros y Hy. unfold core, sel in Hy. apply filter_In in Hy.
        destruct Hy as [Hy Hxy]. rewrite Forall_forall in Hb1. specialize (Hb1 y Hy). cbv beta in Hb1.
        rewrite Es in Hb1 at 2. cbn [map hd] in Hb1.
        unfold core. rewrite !sel_sel by lia. exact Hb1.
  Qed.
End FrameBF.

(** ---- best-fit keeps [bfL] on a descending list ---- *)
Section BFLStep.
  Context {A : Type} (valueof : A -> Z).
  Notation add := (add_to_bin valueof true).
  Notation vals bn := (map valueof (snd bn)).
  Notation desc_sorted := (StronglySorted (fun a c : A => valueof c <= valueof a)).

  Lemma vals_add x (bn : bin A) : vals (add x bn) = vals bn ++ [valueof x].
  Proof. unfold add_to_bin. cbn [snd]. rewrite map_app. reflexivity. Qed.

  Lemma zsum_sel_one y v : 0 <= v -> 0 <= zsum (sel y [v]).
  Proof. intros Hv. apply zsum_sel_le. constructor; [exact Hv|constructor]. Qed.

  (** the earlier bin grows *)
  Lemma bfl_grow_l C x bn c : 0 <= valueof x -> snd bn <> [] -> bfl valueof C bn c -> bfl valueof C (add x bn) c.
  Proof.
    intros Hx Hne H. unfold bfl in *. eapply Forall_impl; [|exact H]. intros y Hy. cbv beta in Hy.
    rewrite vals_add, sel_app, zsum_app. pose proof (zsum_sel_one y (valueof x) Hx).
    assert (Eh : hd 0 (vals bn ++ [valueof x]) = hd 0 (vals bn)).
    { destruct (snd bn) as [|f r]; [congruence|reflexivity]. }
    rewrite Eh. lia.
  Qed.

  (** the later bin grows *)
  Lemma bfl_grow_r C x a bn : 0 <= valueof x -> bfl valueof C a bn ->
    (C < zsum (sel (valueof x) (vals a)) + valueof x \/
     hd 0 (vals a) + valueof x < zsum (sel (valueof x) (vals bn ++ [valueof x]))) ->
    bfl valueof C a (add x bn).
  Proof.
    intros Hx H Hnew. unfold bfl in *. rewrite vals_add. apply Forall_app. split.
    - eapply Forall_impl; [|exact H]. intros y Hy. cbv beta in Hy.
      rewrite sel_app, zsum_app. pose proof (zsum_sel_one y (valueof x) Hx). lia.
    - constructor; [exact Hnew|constructor].
  Qed.

  Lemma bfL_into C x bn l2 : 0 <= valueof x -> snd bn <> [] -> forall l1 : bins A,
    Forall (fun a => C < zsum (sel (valueof x) (vals a)) + valueof x \/
       hd 0 (vals a) + valueof x < zsum (sel (valueof x) (vals bn ++ [valueof x]))) l1 ->
    bfL valueof C (l1 ++ bn :: l2) -> bfL valueof C (l1 ++ add x bn :: l2).
  Proof.
    intros Hx Hne. induction l1 as [|a l1 IH]; intros Hnew; cbn [app bfL].
    - intros [H1 H2]. split; [|exact H2]. eapply Forall_impl; [|exact H1].
      intros c Hc. apply bfl_grow_l; assumption.
    - apply Forall_cons_iff in Hnew. destruct Hnew as [Ha Hnew].
      intros [H1 H2]. split; [|apply IH; assumption].
      apply Forall_app in H1. destruct H1 as [H1a H1b].
      apply Forall_cons_iff in H1b. destruct H1b as [Hbn Hl2].
      apply Forall_app. split; [exact H1a|]. constructor; [|exact Hl2].
      apply bfl_grow_r; assumption.
  Qed.

  Lemma bfL_new C x : forall b : bins A, wf valueof b ->
    Forall (fun bn : bin A => C < fst bn + valueof x) b ->
    Forall (fun z => valueof x <= valueof z) (contents b) ->
    bfL valueof C b -> bfL valueof C (b ++ [add x empty_bin]).
  Proof.
    induction b as [|a t IH]; intros Hw Hall Hx; cbn [app bfL].
    - intros _. split; constructor.
    - intros [H1 H2].
      unfold wf in Hw. apply Forall_cons_iff in Hw. destruct Hw as [Hwa Hw].
      apply Forall_cons_iff in Hall. destruct Hall as [Ha Hall].
      rewrite contents_cons in Hx. apply Forall_app in Hx. destruct Hx as [Hxa Hx].
      split; [|apply IH; assumption].
      apply Forall_app. split; [exact H1|]. constructor; [|constructor].
      unfold bfl, add_to_bin, empty_bin. cbn [snd app map]. constructor; [|constructor]. left.
      rewrite sel_all; [|rewrite Forall_map; exact Hxa].
      unfold wf_bin in Hwa. lia.
  Qed.

  Lemma hd_le_zsum l : Forall (fun z => 0 <= z) l -> hd 0 l <= zsum l.
  Proof.
    intros H. destruct H as [|a l Ha Hl]; [cbn; lia|]. cbn [hd]. rewrite zsum_cons.
    pose proof (zsum_nonneg l Hl). lia.
  Qed.

  Lemma bf_place_bfL C x (b : bins A) : 0 <= valueof x -> wf valueof b -> all_nonempty b -> nonneg_sums b ->
    Forall (fun z => valueof x <= valueof z) (contents b) ->
    bfL valueof C b -> bfL valueof C (bf_place valueof true C x b).
  Proof.
    intros Hx Hw Hne Hnn Hge Hb.
    destruct (bf_place_cases valueof C x b (nonneg_sums_pos b (valueof x) Hx Hnn))
      as [(l1 & bn & l2 & E1 & E2 & E3 & E4 & _)|[E1 E2]]; rewrite E2.
    - subst b. apply bfL_into; [exact Hx| | |exact Hb].
      + unfold all_nonempty in Hne. apply Forall_app in Hne. destruct Hne as [_ Hne].
        apply Forall_cons_iff in Hne. destruct Hne as [Hne _]. exact Hne.
      + unfold wf in Hw. apply Forall_app in Hw. destruct Hw as [Hw1 Hw2].
        apply Forall_cons_iff in Hw2. destruct Hw2 as [Hwb _].
        assert (Hgc : Forall (fun z => valueof x <= valueof z) (contents l1 ++ snd bn ++ contents l2))
          by (rewrite <- contents_cons, <- contents_app; exact Hge).
        apply Forall_app in Hgc. destruct Hgc as [Hg1 Hg2].
        apply Forall_app in Hg2. destruct Hg2 as [Hgb _].
        apply Forall_forall. intros a Ha.
        assert (Hga : Forall (fun z => valueof x <= valueof z) (snd a)).
        { apply Forall_forall. intros z Hz. rewrite Forall_forall in Hg1. apply Hg1.
          apply (in_contents_bin l1 a z Ha Hz). }
        rewrite Forall_forall in Hw1, E4. specialize (Hw1 a Ha). specialize (E4 a Ha). cbv beta in E4.
        unfold wf_bin in Hw1, Hwb.
        rewrite (sel_all (valueof x) (vals a)); [|rewrite Forall_map; exact Hga].
        rewrite (sel_all (valueof x) (vals bn ++ [valueof x])).
        * rewrite zsum_app, zsum_cons, zsum_nil.
          assert (Hh : hd 0 (vals a) <= zsum (vals a)).
          { apply hd_le_zsum. rewrite Forall_map. eapply Forall_impl; [|exact Hga]. intros z Hz. cbv beta in Hz. lia. }
          destruct (Z_lt_le_dec C (fst a + valueof x)) as [Hlt|Hle]; [left; lia|right]. specialize (E4 Hle). lia.
        * apply Forall_app. split; [rewrite Forall_map; exact Hgb|constructor; [lia|constructor]].
    - apply bfL_new; assumption.
  Qed.

  Lemma bfd_bfL C items b : items <> [] -> Forall (fun x => 0 <= valueof x) items ->
    best_fit_decreasing valueof true C items = Ok b -> bfL valueof C b.
  Proof.
    intros Hne Hnn H. apply bfd_gloop in H.
    apply (gloop_afd_first valueof (bf_place valueof true) (bfL valueof C) C) in H.
    - apply H.
    - apply bf_is_step.
    - intros x b0 acc Hx (Hw & _ & _ & Hnem & Hsn & _) Hge Hb. apply bf_place_bfL; assumption.
    - intros x. cbn [bfL]. split; constructor.
    - apply sort_desc_nonnil. exact Hne.
    - apply sort_desc_sorted.
    - apply sort_desc_nonneg. exact Hnn.
  Qed.
End BFLStep.

Section BFD119Mid.
  Context {A : Type} (valueof : A -> Z).

  Lemma bfL_app_l C : forall b1 b2 : bins A, bfL valueof C (b1 ++ b2) -> bfL valueof C b1.
  Proof.
    induction b1 as [|c b1 IH]; intros b2; cbn [app bfL]; [auto|].
    intros [H1 H2]. split; [|apply (IH b2); exact H2].
    apply Forall_app in H1. destruct H1 as [H1 _]. exact H1.
  Qed.

  (** with x the first item of the last bin:
      11 x <= 2 C : 9 |b| <= 11 n + 8 (volume);  C < 4 x : 6 |b| <= 7 n + 5 (BFD54Proofs);
      C < 5 x and 4 x <= C : 9 |b| <= 11 n + 13 (the weights of Section Quarter of FFD119MidProofs) *)
  Lemma bfd_119_ranges3 C (items : list A) (b : bins A) (n : nat) :
    items <> [] -> Forall (fun x : A => 0 <= valueof x) items ->
    best_fit_decreasing valueof true C items = Ok b -> Packable C (map valueof items) n ->
    exists x0, In x0 items /\
      (11 * valueof x0 <= 2 * C -> (9 * length b <= 11 * n + 8)%nat) /\
      (C < 4 * valueof x0 -> (6 * length b <= 7 * n + 5)%nat) /\
      (C < 5 * valueof x0 -> 4 * valueof x0 <= C -> (9 * length b <= 11 * n + 13)%nat) /\
      (2 * C < 11 * valueof x0 -> 41 * valueof x0 <= 8 * C -> (9 * length b <= 11 * n + 16)%nat).
  Proof.
    intros Hne Hnn H Hpack.
    destruct (bfd_hfit valueof C items b Hne Hnn H) as (HI & Hsf0 & Hh0).
    pose proof (bfd_bfL valueof C items b Hne Hnn H) as Hbf0.
    pose proof HI as (_ & Hf & _).
    destruct (af_last valueof C items b Hne Hnn HI Hsf0 Hh0)
      as (t & last & x0 & E & Hin & [Hx0 Hx0C] & Hcl & Hsf & Hh & Hw & Hnnb & Hp).
    subst b.
    destruct (last_119_ranges valueof C t last x0 items n Hin (conj Hx0 Hx0C) Hcl
                (hfit_chain valueof C (valueof x0) Hx0C t Hcl Hsf Hh) Hw Hnnb Hp Hpack) as (Hinx & Hr1 & Hr2).
    rewrite app_length in Hr1, Hr2 |- *. cbn [length] in Hr1, Hr2 |- *.
    assert (Hch : valueof x0 <= C -> chain_of C (valueof x0) (LaterB C) (map (core (valueof x0) valueof) t)).
    { intros HxC. apply (chain_coresB C (valueof x0) HxC valueof t Hcl Hsf (bfL_app_l C t [last] Hbf0)); [| | |exact Hh].
      - unfold wf in Hw. apply Forall_app in Hw. apply Hw.
      - unfold feasible in Hf. apply Forall_app in Hf. apply Hf.
      - rewrite contents_app in Hnnb. apply Forall_app in Hnnb. apply Hnnb. }
    exists x0. split; [exact Hinx|split; [exact Hr1|split; [exact Hr2|split]]].
    - intros H5 H4.
      pose proof (quarter_of C (valueof x0) ltac:(lia) ltac:(lia) H5 H4 (LaterB C) (LaterB_like C (valueof x0))
                    valueof t last items n (Hch ltac:(lia)) Hnnb Hp Hpack).
      lia.
    - intros H11 H41.
      pose proof (fifth_of C (valueof x0) ltac:(lia) ltac:(lia) H11 H41 (LaterB C) (LaterB_like C (valueof x0))
                    valueof t last items n (Hch ltac:(lia)) Hnnb Hp Hpack).
      lia.
  Qed.

  (** 11/9 when no value lies in (8C/41, C/5] *)
  Theorem bfd_ratio_11_9_partial2 C (items : list A) (b : bins A) (n : nat) :
    items <> [] -> Forall (fun x : A => 0 <= valueof x) items ->
    Forall (fun x : A => 41 * valueof x <= 8 * C \/ C < 5 * valueof x) items ->
    best_fit_decreasing valueof true C items = Ok b -> Packable C (map valueof items) n ->
    (9 * length b <= 11 * n + 16)%nat.
  Proof.
    intros Hne Hnn Hgap H Hpack.
    destruct (bfd_119_ranges3 C items b n Hne Hnn H Hpack) as (x0 & Hin & H1 & H2 & H3 & H4).
    rewrite Forall_forall in Hgap. destruct (Hgap x0 Hin) as [Hs|Hb].
    - destruct (Z_le_gt_dec (11 * valueof x0) (2 * C)) as [Hv|Hv].
      + specialize (H1 Hv). lia.
      + apply H4; [lia|exact Hs].
    - destruct (Z_lt_le_dec C (4 * valueof x0)) as [Hq|Hq].
      + specialize (H2 Hq). lia.
      + specialize (H3 Hb Hq). lia.
  Qed.
End BFD119Mid.

(** ---- examples ---- *)
(** The relation [Later] of FFD119MidProofs.v (hence [sfit2], hence the lemma [chain_cores] there) is FALSE
    for best-fit-decreasing in these ranges: C = 100, x = 19 in (2C/11, 8C/41]; the value 25 went into
    the bin [40; 35] (sum 75) although it fits into the earlier bin [72] (sum 72, the 24 came later).
    The weaker relation [LaterB] holds: 72 + 25 < 40 + 35 + 25.
    So a value of at most C/3 of a bin without big value (here 25 in [40; 35; 25]) can meet a smaller
    companion (24) of a big value (72) that it fits beside; [late_fits_contra] of FFD119MidProofs.v
    excludes this for values above C/3 only, which is all the weight argument needs. *)
Example bfd_mid_not_Later :
  best_fit_decreasing idZ true 100 [72; 40; 35; 25; 24; 19] = Ok [(96, [72; 24]); (100, [40; 35; 25]); (19, [19])] /\
  ~ Later 100 [72; 24] [40; 35; 25] /\ LaterB 100 [72; 24] [40; 35; 25].
Proof.
  split; [vm_compute; reflexivity|split].
  - intros [H _]. rewrite Forall_forall in H. specialize (H 25 ltac:(right; right; left; reflexivity)).
    cbv beta in H. revert H. sel_cases 25.
  - unfold LaterB. cbn [hd]. split; [lia|split; [sel_cases 40|]].
    apply Forall_cons; [left; sel_cases 40|]. apply Forall_cons; [left; sel_cases 35|].
    apply Forall_cons; [right; sel_cases 25|]. apply Forall_nil.
Qed.

(** one third of the smallest member of Johnson's 11/9 family (C = 60: 31, 17, 16, 13; the last value
    lies in (C/5, C/4]): best-fit-decreasing uses 4 bins, the optimum is 3 *)
Example bfd_119_johnson_thm b :
  best_fit_decreasing idZ true 60 (repeat 31 2 ++ repeat 17 2 ++ repeat 16 2 ++ repeat 13 4) = Ok b ->
  (9 * length b <= 11 * 3 + 16)%nat.
Proof.
  intros H. set (L := repeat 31 2 ++ repeat 17 2 ++ repeat 16 2 ++ repeat 13 4) in *.
  apply (bfd_ratio_11_9_partial2 idZ 60 L b 3); [discriminate| | |exact H|].
  - repeat constructor; lia.
  - unfold L. cbn [repeat app]. repeat (apply Forall_cons; [right; cbv beta; lia|]). apply Forall_nil.
  - rewrite map_id. apply johnson_60_packable.
Qed.

(** the sample family satisfies the check because
    the theorems hold for every admissible input of its size ([bfd_119_check_true]): nothing is evaluated *)
Definition bflb (C : Z) (bn c : bin Z) : bool :=
  forallb (fun y => (C <? zsum (sel y (snd bn)) + y) || (hd 0 (snd bn) + y <? zsum (sel y (snd c)))) (snd c).
Fixpoint bfLb (C : Z) (b : bins Z) : bool :=
  match b with [] => true | bn :: t => forallb (bflb C bn) t && bfLb C t end.
Definition bfd_119_check (C : Z) (vs : list Z) : bool :=
  match best_fit_decreasing idZ true C vs with
  | Ok b => bfLb C b && hfitb C b && (9 * length b <=? 11 * min_bins C vs + 16)%nat
  | Err _ => false
  end.

Lemma bfLb_true C (b : bins Z) : bfL idZ C b -> bfLb C b = true.
Proof.
  induction b as [|bn t IH]; cbn [bfL bfLb]; [reflexivity|]. intros [H1 H2].
  rewrite (IH H2), andb_true_r. apply forallb_forall. intros c Hc.
  rewrite Forall_forall in H1. specialize (H1 c Hc). unfold bfl in H1. rewrite !map_id in H1.
  apply forallb_forall. intros y Hy. rewrite Forall_forall in H1. specialize (H1 y Hy). cbv beta in H1. lia.
Qed.

(** the check holds on every admissible input of at most 28 values: it is [bfL], [hfit] and 5/4 OPT + 1
    (which gives 11/9 OPT + 16/9 as long as OPT <= 28), so the optimum is not evaluated *)
Lemma bfd_119_check_true C vs : vs <> [] -> (length vs <= 28)%nat -> Forall (fun v => 0 < v <= C) vs ->
  bfd_119_check C vs = true.
Proof.
  intros Hne Hlen H. unfold bfd_119_check.
  assert (Hnn : Forall (fun v => 0 <= idZ v) vs) by (eapply Forall_impl; [|exact H]; cbv beta; lia).
  destruct (best_fit_decreasing idZ true C vs) as [b|e] eqn:E.
  - destruct (min_bins_MinBins C vs H) as [Hpack Hmin].
    pose proof (bfd_ratio_54_partial idZ C vs b _ Hne Hnn E Hpack) as H54.
    destruct (bfd_hfit idZ C vs b Hne Hnn E) as ((_ & _ & Hperm & Hall & _) & Hh & _).
    pose proof (contents_length_ge b Hall) as Hb. rewrite (Permutation_length Hperm) in Hb.
    rewrite (bfLb_true C b (bfd_bfL idZ C vs b Hne Hnn E)), (hfitb_true C b Hh). cbn [andb].
    apply Nat.leb_le. lia.
  - exfalso. apply (no_value_above C vs H), bfd_error_iff. exists e. exact E.
Qed.

Example bfd_119_random :
  forallb (fun s => bfd_119_check (fst (ffd_32_instance s)) (snd (ffd_32_instance s))) (map Z.of_nat (seq 1 80)) = true.
Proof.
  apply forallb_forall. intros s _. pose proof (ffd_32_instance_length s).
  apply bfd_119_check_true; [apply ffd_32_instance_values|lia|apply ffd_32_instance_values].
Qed.

Print Assumptions bfd_119_ranges3.
Print Assumptions bfd_ratio_11_9_partial2.
Print Assumptions bfd_bfL.
Print Assumptions bfd_mid_not_Later.
Print Assumptions bfd_119_johnson_thm.
