(** Lemmas about the base definitions and about lists in general: sums, map/combine/filter, folds, ranges,
    update, stable sorts, max/min, argmin, tick limits. *)
From Prtpy Require Import Base.Prelude.
From Coq Require Import Sorting.Sorted.

Lemma zsum_nil : zsum [] = 0.
Proof. reflexivity. Qed.

Lemma zsum_cons x l : zsum (x :: l) = x + zsum l.
Proof. reflexivity. Qed.

Lemma zsum_app l1 l2 : zsum (l1 ++ l2) = zsum l1 + zsum l2.
Proof. induction l1; simpl; lia. Qed.

Lemma zsum_perm l1 l2 : Permutation l1 l2 -> zsum l1 = zsum l2.
Proof. induction 1; simpl; lia. Qed.

Lemma zsum_nonneg l : Forall (fun x => 0 <= x) l -> 0 <= zsum l.
Proof. induction 1; simpl; lia. Qed.

Lemma zsum_repeat0 n : zsum (repeat 0 n) = 0.
Proof. induction n; simpl; lia. Qed.

Lemma zsum_rev l : zsum (rev l) = zsum l.
Proof. apply zsum_perm. symmetry. apply Permutation_rev. Qed.

Lemma zsum_le_bound b l : Forall (fun a => a <= b) l -> zsum l <= Z.of_nat (length l) * b.
Proof. induction 1 as [|y t Hy Ht IH]; [rewrite zsum_nil|rewrite zsum_cons]; cbn [length]; lia. Qed.

Lemma zsum_ge_bound b l : Forall (fun a => b <= a) l -> Z.of_nat (length l) * b <= zsum l.
Proof. induction 1 as [|y t Hy Ht IH]; [rewrite zsum_nil|rewrite zsum_cons]; cbn [length]; lia. Qed.

(** ---- map, combine, filter, concat, folds, ranges ---- *)
Lemma map_repeat_eq {T U} (f : T -> U) x n : map f (repeat x n) = repeat (f x) n.
Proof. induction n as [|n IH]; cbn [repeat map]; [reflexivity|]. rewrite IH. reflexivity. Qed.

Lemma concat_repeat_nil {T} n : concat (repeat (@nil T) n) = [].
Proof. induction n as [|n IH]; cbn [repeat concat]; [reflexivity|]. exact IH. Qed.

Lemma filter_map_comm {T U} (f : T -> U) (p : T -> bool) (q : U -> bool) l :
  (forall x, q (f x) = p x) -> filter q (map f l) = map f (filter p l).
Proof.
  intros H. induction l as [|x t IH]; cbn [map filter]; [reflexivity|].
  rewrite H. destruct (p x); cbn [map]; rewrite IH; reflexivity.
Qed.

Lemma map_fst_combine {T U} (l : list T) : forall l' : list U,
  length l = length l' -> map fst (combine l l') = l.
Proof.
  induction l as [|x t IH]; intros [|y t'] H; cbn [length] in H; try discriminate; cbn [combine map fst];
    [reflexivity|]. f_equal. apply IH. lia.
Qed.

Lemma map_snd_combine {T U} (l : list T) : forall l' : list U,
  length l = length l' -> map snd (combine l l') = l'.
Proof.
  induction l as [|x t IH]; intros [|y t'] H; cbn [length] in H; try discriminate; cbn [combine map snd];
    [reflexivity|]. f_equal. apply IH. lia.
Qed.

Lemma combine_fst_snd {T U} (ps : list (T * U)) : combine (map fst ps) (map snd ps) = ps.
Proof.
  induction ps as [|[a b] t IH]; cbn [map combine fst snd]; [reflexivity|]. rewrite IH. reflexivity.
Qed.

Lemma nth_opt_map {T U} (f : T -> U) (l : list T) : forall i, nth_opt (map f l) i = option_map f (nth_opt l i).
Proof. induction l as [|x t IH]; intros [|j]; cbn [map nth_opt option_map]; try reflexivity. apply IH. Qed.

Lemma fold_sim_cond {S S' T T' : Type} (ps : S -> S') (pt : T -> T') (P : T -> Prop)
      (f : S -> T -> S) (f' : S' -> T' -> S') :
  (forall s x, P x -> ps (f s x) = f' (ps s) (pt x)) ->
  forall l s, Forall P l -> ps (fold_left f l s) = fold_left f' (map pt l) (ps s).
Proof.
  intros Hstep l. induction l as [|x t IH]; intros s HF; cbn [fold_left map]; [reflexivity|].
  rewrite IH by exact (Forall_inv_tail HF). rewrite Hstep by exact (Forall_inv HF). reflexivity.
Qed.

Lemma fold_left_sim {S S' T T' : Type} (ps : S -> S') (pt : T -> T')
      (f : S -> T -> S) (f' : S' -> T' -> S') :
  (forall s x, ps (f s x) = f' (ps s) (pt x)) ->
  forall l s, ps (fold_left f l s) = fold_left f' (map pt l) (ps s).
Proof.
  intros Hstep l s. apply (fold_sim_cond ps pt (fun _ => True)); [intros s' x _; apply Hstep|].
  apply Forall_forall. intros x _. exact I.
Qed.

Lemma range_from_seq i n : range_from i n = seq i n.
Proof. reflexivity. Qed.

Lemma range_seq n : range n = seq 0 n.
Proof. reflexivity. Qed.

Lemma range_from_length i n : length (range_from i n) = n.
Proof. exact (seq_length n i). Qed.

Lemma range_from_In i n x : In x (range_from i n) <-> (i <= x < i + n)%nat.
Proof. exact (in_seq n i x). Qed.

Lemma range_from_nodup i n : NoDup (range_from i n).
Proof. exact (seq_NoDup n i). Qed.

Lemma range_from_nth i n j d : (j < n)%nat -> nth j (range_from i n) d = (i + j)%nat.
Proof. apply seq_nth. Qed.

Lemma range_from_S i n : range_from i (S n) = range_from i n ++ [(i + n)%nat].
Proof. exact (seq_S n i). Qed.

Lemma range_from_map_S i n : range_from (S i) n = map S (range_from i n).
Proof. symmetry. exact (seq_shift n i). Qed.

Lemma range_length n : length (range n) = n.
Proof. apply range_from_length. Qed.

Lemma range_In i n : In i (range n) <-> (i < n)%nat.
Proof. unfold range. rewrite range_from_In. lia. Qed.

Lemma range_nodup n : NoDup (range n).
Proof. apply range_from_nodup. Qed.

Lemma range_nth n j d : (j < n)%nat -> nth j (range n) d = j.
Proof. apply range_from_nth. Qed.

Lemma range_S n : range (S n) = range n ++ [n].
Proof. apply range_from_S. Qed.

(** ---- update ---- *)
Lemma update_length {T} i (f : T -> T) l : length (update i f l) = length l.
Proof. revert i; induction l as [|x t IH]; intros [|j]; simpl; auto. Qed.

Lemma update_nth_same {T} i (f : T -> T) l d : (i < length l)%nat -> nth i (update i f l) d = f (nth i l d).
Proof. revert i; induction l as [|x t IH]; intros [|j]; simpl; intros H; try lia; auto. apply IH; lia. Qed.

Lemma update_nth_other {T} i j (f : T -> T) l d : i <> j -> nth j (update i f l) d = nth j l d.
Proof. revert i j; induction l as [|x t IH]; intros [|i] [|j]; simpl; intros H; try congruence; auto. Qed.

Lemma update_out {T} i (f : T -> T) l : (length l <= i)%nat -> update i f l = l.
Proof. revert i; induction l as [|x t IH]; intros [|j]; simpl; intros H; try lia; auto. f_equal. apply IH; lia. Qed.

Lemma update_add0 i (l : list Z) : update i (fun z => z + 0) l = l.
Proof.
  revert i; induction l as [|y t IH]; intros [|i]; cbn [update]; auto.
  - f_equal. lia.
  - f_equal. apply IH.
Qed.

Lemma nth_update {T} (f : T -> T) d l i j : (i < length l)%nat ->
  nth j (update i f l) d = if Nat.eqb i j then f (nth j l d) else nth j l d.
Proof.
  intros Hi. destruct (Nat.eqb i j) eqn:E.
  - apply Nat.eqb_eq in E. subst j. apply update_nth_same; auto.
  - apply Nat.eqb_neq in E. apply update_nth_other; auto.
Qed.

Lemma In_update {T} (f : T -> T) d a : forall l i,
  In a (update i f l) -> In a l \/ ((i < length l)%nat /\ a = f (nth i l d)).
Proof.
  induction l as [|y t IH]; intros [|j] H; simpl in *; try contradiction.
  - destruct H as [H|H]; auto. right. split; [lia|auto].
  - destruct H as [H|H]; auto.
    destruct (IH j H) as [H1|[H1 H2]]; auto. right. split; [lia|auto].
Qed.

Lemma update_split {T} i (f : T -> T) l : (i < length l)%nat ->
  exists l1 x l2, l = l1 ++ x :: l2 /\ length l1 = i /\ update i f l = l1 ++ f x :: l2.
Proof.
  revert i; induction l as [|x t IH]; intros [|j]; simpl; intros H; try lia.
  - exists [], x, t; auto.
  - destruct (IH j) as (l1 & y & l2 & E1 & E2 & E3); [lia|].
    exists (x :: l1), y, l2. simpl. rewrite E3. subst. auto.
Qed.

Lemma zsum_update i f l : (i < length l)%nat ->
  zsum (update i f l) = zsum l - nth i l 0 + f (nth i l 0).
Proof.
  revert i; induction l as [|x t IH]; intros [|j]; simpl; intros H; try lia.
  rewrite IH; lia.
Qed.

Lemma map_update {T U} (g : T -> U) (f : T -> T) (f' : U -> U) i l :
  (forall x, g (f x) = f' (g x)) -> map g (update i f l) = update i f' (map g l).
Proof. intros H. revert i; induction l as [|x t IH]; intros [|j]; simpl; auto; f_equal; auto. Qed.

Lemma update_comm {T} (f g : T -> T) (l : list T) : (forall x, f (g x) = g (f x)) ->
  forall i j, update i f (update j g l) = update j g (update i f l).
Proof.
  intros H. induction l as [|x t IH]; intros [|i] [|j]; cbn [update]; try reflexivity.
  - rewrite H. reflexivity.
  - rewrite IH. reflexivity.
Qed.

Lemma update_app_l {T} (f : T -> T) (t : list T) : forall s i, (i < length s)%nat ->
  update i f (s ++ t) = update i f s ++ t.
Proof.
  induction s as [|x s IH]; intros [|i] H; cbn [length] in H; try lia; cbn [app update]; [reflexivity|].
  rewrite IH by lia. reflexivity.
Qed.

Lemma update_app_r {T} (f : T -> T) (z : T) (t : list T) : forall s,
  update (length s) f (s ++ z :: t) = s ++ f z :: t.
Proof. induction s as [|x s IH]; cbn [length app update]; [reflexivity|]. rewrite IH. reflexivity. Qed.

Lemma Forall2_length_eq {T U} (P : T -> U -> Prop) s t : Forall2 P s t -> length s = length t.
Proof. induction 1 as [|a b s t Hab Hst IH]; simpl; congruence. Qed.

Lemma Forall2_update {T U} (P : T -> U -> Prop) (f : T -> T) (g : U -> U) :
  (forall a b, P a b -> P (f a) (g b)) ->
  forall s t, Forall2 P s t -> forall i, Forall2 P (update i f s) (update i g t).
Proof.
  intros Hfg s t H. induction H as [|a b s t Hab Hst IH]; intros [|i]; simpl; constructor; auto.
Qed.

Lemma concat_update_cons {T} (x : T) : forall (l : list (list T)) i, (i < length l)%nat ->
  Permutation (concat (update i (cons x) l)) (x :: concat l).
Proof.
  induction l as [|y t IH]; intros [|j] Hi; cbn [length] in Hi; try lia; cbn [update concat].
  - apply Permutation_refl.
  - rewrite (IH j) by lia. symmetry. apply Permutation_middle.
Qed.

(** ---- stable insertion sort ---- *)
Section SortLemmas.
  Context {T : Type} (key : T -> Z).

  Lemma insert_asc_perm x l : Permutation (insert_asc key x l) (x :: l).
  Proof.
    induction l as [|y t IH]; simpl; auto.
    destruct (key x <=? key y); auto.
    rewrite IH. apply perm_swap.
  Qed.

  Lemma sort_asc_perm l : Permutation (sort_asc key l) l.
  Proof. induction l as [|x t IH]; simpl; auto. rewrite insert_asc_perm. auto. Qed.

  Lemma sort_asc_length l : length (sort_asc key l) = length l.
  Proof. apply Permutation_length, sort_asc_perm. Qed.

  Definition key_sorted (l : list T) : Prop := StronglySorted (fun a b => key a <= key b) l.

  Lemma insert_asc_sorted x l : key_sorted l -> key_sorted (insert_asc key x l).
  Proof.
    induction 1 as [|y t Ht IH Hy]; simpl.
    - repeat constructor.
    - destruct (key x <=? key y) eqn:E.
      + constructor. constructor; auto. constructor; [lia|].
        eapply Forall_impl; [|exact Hy]. simpl; intros; lia.
      + constructor; auto.
        eapply Permutation_Forall; [symmetry; apply insert_asc_perm|].
        constructor; auto; lia.
  Qed.

  Lemma sort_asc_sorted l : key_sorted (sort_asc key l).
  Proof. induction l; simpl; [constructor|apply insert_asc_sorted; auto]. Qed.

  (** a sorted list is a fixpoint of the sort (so re-sorting is the identity) *)
  Lemma insert_asc_head x l : Forall (fun y => key x <= key y) l -> insert_asc key x l = x :: l.
  Proof. destruct l as [|y t]; simpl; auto. intros H. inversion H; subst. destruct (key x <=? key y) eqn:E; auto; lia. Qed.

  Lemma sort_asc_id l : key_sorted l -> sort_asc key l = l.
  Proof. induction 1 as [|y t Ht IH Hy]; simpl; auto. rewrite IH. apply insert_asc_head; auto. Qed.

  Lemma sort_asc_idem l : sort_asc key (sort_asc key l) = sort_asc key l.
  Proof. apply sort_asc_id, sort_asc_sorted. Qed.

  Lemma sort_asc_In x l : In x (sort_asc key l) <-> In x l.
  Proof. split; apply Permutation_in; [|symmetry]; apply sort_asc_perm. Qed.
End SortLemmas.

Lemma sort_desc_perm {T} (key : T -> Z) l : Permutation (sort_desc key l) l.
Proof. apply sort_asc_perm. Qed.

Lemma sort_desc_length {T} (key : T -> Z) l : length (sort_desc key l) = length l.
Proof. apply sort_asc_length. Qed.

Lemma sort_desc_sorted {T} (key : T -> Z) l :
  StronglySorted (fun a b => key b <= key a) (sort_desc key l).
Proof.
  pose proof (sort_asc_sorted (fun x => - key x) l) as H. unfold sort_desc, key_sorted in *.
  induction H; constructor; auto. eapply Forall_impl; [|eassumption]. simpl; intros; lia.
Qed.

Lemma sort_desc_nonnil {T} (key : T -> Z) l : l <> [] -> sort_desc key l <> [].
Proof. intros H E. apply H, length_zero_iff_nil. rewrite <- (sort_desc_length key), E. reflexivity. Qed.

Lemma Forall_sort_desc {T} (key : T -> Z) (P : T -> Prop) l : Forall P l -> Forall P (sort_desc key l).
Proof. intros H. eapply Permutation_Forall; [symmetry; apply sort_desc_perm|exact H]. Qed.

Lemma StronglySorted_nth l :
  StronglySorted Z.le l <->
  (forall i j, (i <= j < length l)%nat -> nth i l 0 <= nth j l 0).
Proof.
  induction l as [|x t IH].
  - split.
    + intros _ i j Hij. cbn [length] in Hij. lia.
    + intros _. constructor.
  - split.
    + intros Hs. inversion Hs as [|a l' Hs' Hall]; subst.
      intros i j Hij. cbn [length] in Hij.
      destruct i as [|i]; destruct j as [|j]; cbn [nth].
      * lia.
      * rewrite Forall_forall in Hall. apply Hall. apply nth_In. lia.
      * lia.
      * destruct IH as [IH1 _]. apply (IH1 Hs'). lia.
    + intros H. constructor.
      * apply IH. intros i j Hij. apply (H (S i) (S j)). cbn [length]. lia.
      * rewrite Forall_forall. intros y Hy.
        destruct (In_nth _ _ 0 Hy) as [j [Hj Hnth]].
        rewrite <- Hnth. apply (H O (S j)). cbn [length]. lia.
Qed.

Lemma StronglySorted_app_inv {T} (R : T -> T -> Prop) l1 l2 : StronglySorted R (l1 ++ l2) ->
  StronglySorted R l1 /\ StronglySorted R l2 /\ Forall (fun a => Forall (R a) l2) l1.
Proof.
  induction l1 as [|a l1 IH]; cbn [app]; intros H; [repeat split; [constructor|exact H|constructor]|].
  inversion H as [|a' l' Hs Ha]; subst. destruct (IH Hs) as (I1 & I2 & I3).
  apply Forall_app in Ha. destruct Ha as [Ha1 Ha2]. repeat split; [constructor| |constructor]; assumption.
Qed.

(** sorting commutes with a map that preserves the order of the keys *)
Lemma insert_asc_map_mono {T U} (g : T -> U) (kT : T -> Z) (kU : U -> Z) x l :
  (forall a b, (kU (g a) <=? kU (g b)) = (kT a <=? kT b)) ->
  map g (insert_asc kT x l) = insert_asc kU (g x) (map g l).
Proof.
  intros H. induction l as [|y t IH]; cbn [insert_asc map]; [reflexivity|].
  rewrite H. destruct (kT x <=? kT y); cbn [map]; [reflexivity|]. rewrite IH. reflexivity.
Qed.

Lemma sort_asc_map_mono {T U} (g : T -> U) (kT : T -> Z) (kU : U -> Z) l :
  (forall a b, (kU (g a) <=? kU (g b)) = (kT a <=? kT b)) ->
  map g (sort_asc kT l) = sort_asc kU (map g l).
Proof.
  intros H. induction l as [|x t IH]; [reflexivity|].
  cbn [map]. unfold sort_asc in *. cbn [fold_right].
  rewrite (insert_asc_map_mono g kT kU x _ H), IH. reflexivity.
Qed.

Lemma sort_asc_map {T U} (g : T -> U) (kT : T -> Z) (kU : U -> Z) l :
  (forall y, kU (g y) = kT y) -> map g (sort_asc kT l) = sort_asc kU (map g l).
Proof. intros H. apply sort_asc_map_mono. intros a b. rewrite !H. reflexivity. Qed.

Lemma sort_desc_map {T U} (g : T -> U) (kT : T -> Z) (kU : U -> Z) l :
  (forall y, kU (g y) = kT y) -> map g (sort_desc kT l) = sort_desc kU (map g l).
Proof. intros H. apply sort_asc_map. intros; rewrite H; auto. Qed.

(** ---- max / min ---- *)
Lemma zmax_list_ge d l : d <= zmax_list d l /\ Forall (fun x => x <= zmax_list d l) l.
Proof.
  revert d; induction l as [|x t IH]; intros d; simpl; [split; [lia|constructor]|].
  destruct (IH (Z.max d x)) as [H1 H2]. split; [lia|]. constructor; auto; lia.
Qed.
Lemma zmax_list_in d l : zmax_list d l = d \/ In (zmax_list d l) l.
Proof.
  revert d; induction l as [|x t IH]; intros d; simpl; auto.
  destruct (IH (Z.max d x)) as [H|H]; auto. rewrite H. destruct (Z.max_spec d x) as [[_ E]|[_ E]]; rewrite E; auto.
Qed.
Lemma zmin_list_le d l : zmin_list d l <= d /\ Forall (fun x => zmin_list d l <= x) l.
Proof.
  revert d; induction l as [|x t IH]; intros d; simpl; [split; [lia|constructor]|].
  destruct (IH (Z.min d x)) as [H1 H2]. split; [lia|]. constructor; auto; lia.
Qed.
Lemma zmin_list_in d l : zmin_list d l = d \/ In (zmin_list d l) l.
Proof.
  revert d; induction l as [|x t IH]; intros d; simpl; auto.
  destruct (IH (Z.min d x)) as [H|H]; auto. rewrite H. destruct (Z.min_spec d x) as [[_ E]|[_ E]]; rewrite E; auto.
Qed.

Lemma zmax_ge l : Forall (fun x => x <= zmax l) l.
Proof. destruct l as [|x t]; simpl; [constructor|]. destruct (zmax_list_ge x t). constructor; auto. Qed.
Lemma zmax_in l : l <> [] -> In (zmax l) l.
Proof. destruct l as [|x t]; [congruence|]. intros _. simpl. destruct (zmax_list_in x t); auto. Qed.
Lemma zmin_le l : Forall (fun x => zmin l <= x) l.
Proof. destruct l as [|x t]; simpl; [constructor|]. destruct (zmin_list_le x t). constructor; auto. Qed.
Lemma zmin_in l : l <> [] -> In (zmin l) l.
Proof. destruct l as [|x t]; [congruence|]. intros _. simpl. destruct (zmin_list_in x t); auto. Qed.

Lemma zmax_ge_in a l : In a l -> a <= zmax l.
Proof. intros H. pose proof (zmax_ge l) as G. rewrite Forall_forall in G. apply G; exact H. Qed.
Lemma zmin_le_in a l : In a l -> zmin l <= a.
Proof. intros H. pose proof (zmin_le l) as G. rewrite Forall_forall in G. apply G; exact H. Qed.

Lemma zmax_lub l b : l <> [] -> Forall (fun a => a <= b) l -> zmax l <= b.
Proof. intros Hne H. rewrite Forall_forall in H. apply H. apply zmax_in; exact Hne. Qed.

Lemma zmin_glb l b : l <> [] -> Forall (fun a => b <= a) l -> b <= zmin l.
Proof. intros Hne H. rewrite Forall_forall in H. apply H. apply zmin_in; exact Hne. Qed.

Lemma zmax_perm l1 l2 : Permutation l1 l2 -> zmax l1 = zmax l2.
Proof.
  intros P. destruct l1 as [|x t].
  - apply Permutation_nil in P. subst; auto.
  - assert (l2 <> []) by (intro; subst; apply Permutation_sym, Permutation_nil in P; discriminate).
    assert (H1 : In (zmax (x :: t)) l2) by (eapply Permutation_in; [exact P|apply zmax_in; discriminate]).
    assert (H2 : In (zmax l2) (x :: t)) by (eapply Permutation_in; [symmetry; exact P|apply zmax_in; auto]).
    pose proof (zmax_ge (x :: t)) as G1. pose proof (zmax_ge l2) as G2.
    rewrite Forall_forall in G1, G2. apply G1 in H2. apply G2 in H1. lia.
Qed.
Lemma zmin_perm l1 l2 : Permutation l1 l2 -> zmin l1 = zmin l2.
Proof.
  intros P. destruct l1 as [|x t].
  - apply Permutation_nil in P. subst; auto.
  - assert (l2 <> []) by (intro; subst; apply Permutation_sym, Permutation_nil in P; discriminate).
    assert (H1 : In (zmin (x :: t)) l2) by (eapply Permutation_in; [exact P|apply zmin_in; discriminate]).
    assert (H2 : In (zmin l2) (x :: t)) by (eapply Permutation_in; [symmetry; exact P|apply zmin_in; auto]).
    pose proof (zmin_le (x :: t)) as G1. pose proof (zmin_le l2) as G2.
    rewrite Forall_forall in G1, G2. apply G1 in H2. apply G2 in H1. lia.
Qed.

Lemma in_le_zsum v l : In v l -> Forall (fun x => 0 <= x) l -> v <= zsum l.
Proof.
  intros Hin H. induction H as [|a l Ha Hl IH]; [destruct Hin|].
  rewrite zsum_cons. pose proof (zsum_nonneg l Hl). destruct Hin as [->|Hin]; [lia|specialize (IH Hin); lia].
Qed.

Lemma zmax_le_zsum l : Forall (fun v => 0 <= v) l -> zmax l <= zsum l.
Proof.
  intros Hnn. destruct l as [|x t]; [cbn; lia|].
  pose proof (zmax_in (x :: t) ltac:(discriminate)) as Hin. revert Hin. generalize (zmax (x :: t)). intros m Hin.
  induction Hnn as [|y l Hy Hl IH]; [destruct Hin|].
  rewrite zsum_cons. pose proof (zsum_nonneg l Hl). destruct Hin as [->|Hin]; [lia|]. specialize (IH Hin). lia.
Qed.

(** any two entries differ by at most M *)
Definition spread_le (M : Z) (l : list Z) : Prop :=
  forall x y, In x l -> In y l -> x - y <= M.

(** ---- the tick limit of an anytime search: None = no limit = infinity ---- *)
Definition lim_le (l1 l2 : option nat) : Prop :=
  match l2 with
  | None => True
  | Some m => match l1 with Some n => (n <= m)%nat | None => False end
  end.

(** ---- argmin: first index of a minimum ---- *)
Lemma argmin_aux_spec l i besti bestv :
  let r := argmin_aux l i besti bestv in
  (r = besti /\ Forall (fun x => bestv <= x) l) \/
  (exists j, r = (i + j)%nat /\ (j < length l)%nat /\ nth j l 0 < bestv /\
             Forall (fun x => nth j l 0 <= x) l /\
             forall j', (j' < j)%nat -> nth j l 0 < nth j' l 0).
Proof.
  revert i besti bestv; induction l as [|x t IH]; intros i besti bestv; simpl.
  - left; auto.
  - destruct (x <? bestv) eqn:E.
    + destruct (IH (S i) i x) as [[H1 H2]|(j & H1 & H2 & H3 & H4 & H5)].
      * right. exists O. simpl. repeat split; try lia; auto. constructor; auto; lia.
      * right. exists (S j). simpl. repeat split; try lia; auto.
        -- constructor; auto; lia.
        -- intros [|j'] Hj; [lia|]. apply H5; lia.
    + destruct (IH (S i) besti bestv) as [[H1 H2]|(j & H1 & H2 & H3 & H4 & H5)].
      * left. split; auto. constructor; auto; lia.
      * right. exists (S j). simpl. repeat split; try lia; auto.
        -- constructor; auto; lia.
        -- intros [|j'] Hj; [lia|]. apply H5; lia.
Qed.

Lemma argmin_spec l : l <> [] ->
  (argmin l < length l)%nat /\ Forall (fun x => nth (argmin l) l 0 <= x) l /\
  forall j, (j < argmin l)%nat -> nth (argmin l) l 0 < nth j l 0.
Proof.
  destruct l as [|x t]; [congruence|]. intros _. unfold argmin.
  destruct (argmin_aux_spec t 1%nat O x) as [[H1 H2]|(j & H1 & H2 & H3 & H4 & H5)]; rewrite H1; simpl.
  - repeat split; try lia. constructor; auto; lia.
  - repeat split; try lia.
    + constructor; auto; lia.
    + intros [|j'] Hj; [lia|]. apply H5; lia.
Qed.
