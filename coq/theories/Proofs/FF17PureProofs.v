(** Rung 2 (10 m <= 17 n + 2; the ladder is described in FF17SharpProofs.v) towards FF, BF <=
    floor(17/10 OPT) of Dosa and Sgall, unconditionally, and rung 1 when every bin is more than half
    full or no bin is a single item a with C/3 < a <= C/2.  b = bins returned, m = length b, n = any number of bins of capacity C into which the values
    can be packed (in particular the optimum).

    PROVED, for first_fit and best_fit alike (items <> [], values >= 0):
      *_ratio_17_2_uncond_partial      10 m <= 17 n + 2            unconditionally
      *_ratio_17_floor_rung2_partial   10 m <= 17 n  for every n that is not 4 or 7 mod 10
      *_ratio_17_res1_partial          10 m <= 17 n  for n = 1 mod 10
      *_half_full_1_partial            10 m <= 17 n + 1            if every bin is more than half full
      *_ratio_17_1_nms_partial         10 m <= 17 n + 1            if no bin is a single item a with
                                                                   C/3 < a <= C/2
      *_ratio_17_floor_nms1_partial    10 m <= 17 n  for n <> 7 mod 10, no such single item
      *_half_full_beta_sharp_partial   10 m <= 17 n  if every bin is more than half full and fewer
                                       than n values exceed C/2
      *_nms_beta_sharp_partial         10 m <= 17 n  if no such single item and fewer than n values
                                       exceed C/2 (every n)
      pure_problem_partial             the "pure problem" (section 7): 10 k <= 7 n + 1
                                       when the last bin is filled to l, 4C/7 <= l <= 2C/3
    OPEN: 10 m <= 17 n for n = 4 mod 10 when some bin is a single item a with C/3 < a <= C/2,
    and for n = 7 mod 10 (see the end of the file).
    A [_partial] in a name marks a bound weaker than the published one, not an incomplete proof.

    The tool is a one-parameter family of weight functions.  With M = 3 L (12C/7 <= M <= 2C,
    L = M/3 is the sum of the exceptional bin) and "weight 1" = 10 M:
       WM(a) = 24 a + bonM(a),  bonM(a) = 0                   if 12 a <= 12 C - 5 M
                                        = 12 a - 12 C + 5 M   if 12 C - 5 M <= 12 a and 6 a <= M
                                        = 7 M - 12 C          if M <= 6 a and 2 a <= C
                                        = 10 M - 12 C         if C < 2 a.
    For M = 2C this is twice the weight W2 of Dosa and Sgall (slope 12, bonus from C/6 to C/3, "1" = 10 C);
    in general the slope is 0.8 C / L per unit, so that a bin filled to L weighs 8/10 (deficit
    2/10) and the bonus grows from C - 5L/4 to L/2, where it reaches 0.7 - 0.4 C / L; for
    M = 12C/7 (L = 4C/7) the bonus vanishes and the weight is 1.4 * size (+ 0.3 above C/2).
    - a feasible bin weighs at most 17 M ([light_binM]), at most 15 M without a value above C/2
      ([wsumM_nobig], via M * bonus <= (42 M - 72 C) * size);
    - the amortisation "the bonus of the first two items of the next bin pays for the free
      space" works for every bin whose free space is at most M/6 = L/2, or whose sum is at most
      L ([heavyM], potential [PhiM]); a bin that is less than 2/3 full has both properties
      relative to its own sum l (the earlier bins are filled above C - l/2 since its two first
      items did not fit, the later ones hold two items above C - l), so L = l works and the
      deficit drops from 10 - 12 l / C < 4 (FF17FloorProofs.v) to 2;
    - below 4C/7 the sizes decide ([sizes_count]): every other bin without a value
      above C/2 is filled above C - l/2 > 5C/7.
    [heavy_choiceM] picks the bin that carries the deficit; [half_full_bounds] draws both half-full
    bounds from it; [medium_core2] is [medium_core3] of FF17FloorProofs.v (a bin {a},
    C/3 < a <= C/2) with these weights.
    The bound 10 k <= 7 n + 1 of the pure problem is what weights can give: the linear programme
    over all weight functions and potentials has value 0.2 for 4C/7 <= l < 2C/3, so 10 k <= 7 n needs an integrality (parity) argument. *)
From Prtpy Require Import Base.Prelude Model.Binner Model.Packing Spec.Partition
  Proofs.BaseLemmas Proofs.BinnerLemmas Proofs.PackingProofs Proofs.FFDRatioProofs
  Proofs.BFDRatioProofs Proofs.BCOptimalProofs Proofs.FF17Proofs Proofs.BF17Proofs
  Proofs.FF17SharpProofs Proofs.FF17FloorProofs.
From Coq Require Import ZifyBool.

(** ---- 1. the weight functions ---- *)
Definition bonM (C M a : Z) : Z :=
  if 12 * a <=? 12 * C - 5 * M then 0
  else if 6 * a <=? M then 12 * a - 12 * C + 5 * M
  else if 2 * a <=? C then 7 * M - 12 * C
  else 10 * M - 12 * C.

Definition WM (C M a : Z) : Z := 24 * a + bonM C M a.

Notation wsumM C M := (fsum (WM C M)).

(** M = 2 C gives twice the weights W2 of Dosa and Sgall *)
Example WM_examples :
  map (WM 60 120) [0; 5; 10; 11; 20; 21; 30; 31; 60] = map (fun a => 2 * W2 60 a) [0; 5; 10; 11; 20; 21; 30; 31; 60] /\
  map (WM 60 108) [0; 15; 16; 18; 19; 30; 31] = [0; 360; 396; 468; 492; 756; 1104].
Proof. vm_compute. split; reflexivity. Qed.

Lemma bonM_spec C M a :
  (12 * a <= 12 * C - 5 * M /\ bonM C M a = 0) \/
  (12 * C - 5 * M < 12 * a /\ 6 * a <= M /\ bonM C M a = 12 * a - 12 * C + 5 * M) \/
  (M < 6 * a /\ 12 * C - 5 * M < 12 * a /\ 2 * a <= C /\ bonM C M a = 7 * M - 12 * C) \/
  (C < 2 * a /\ M < 6 * a /\ 12 * C - 5 * M < 12 * a /\ bonM C M a = 10 * M - 12 * C).
Proof.
  unfold bonM. destruct (12 * a <=? 12 * C - 5 * M) eqn:E1; [left; lia|].
  destruct (6 * a <=? M) eqn:E2; [right; left; lia|].
  destruct (2 * a <=? C) eqn:E3; [right; right; left; lia|].
  right; right; right; lia.
Qed.

Lemma bonM_nonneg C M a : 0 <= M -> 12 * C <= 7 * M -> 0 <= bonM C M a.
Proof. intros HM H7. pose proof (bonM_spec C M a). lia. Qed.

Lemma bonM_mono C M a a' : 0 <= M -> 12 * C <= 7 * M -> a <= a' -> bonM C M a <= bonM C M a'.
Proof. intros HM H7 H. pose proof (bonM_spec C M a). pose proof (bonM_spec C M a'). lia. Qed.

Lemma wsumM_ge_24 C M l : 0 <= M -> 12 * C <= 7 * M -> 24 * zsum l <= wsumM C M l.
Proof.
  intros HM H7. induction l as [|a l IH]; [rewrite fsum_nil, zsum_nil; lia|].
  rewrite fsum_cons, zsum_cons. unfold WM at 1. pose proof (bonM_nonneg C M a HM H7). lia.
Qed.

(** values summing to less than C/2 *)
Lemma wsumM_small C M l : 0 <= C -> 0 <= M -> 12 * C <= 7 * M -> M <= 2 * C ->
  Forall (fun a => 0 <= a) l -> 2 * zsum l < C ->
  wsumM C M l <= 24 * zsum l + Z.max 0 (Z.min (7 * M - 12 * C) (12 * zsum l - 12 * C + 5 * M)).
Proof.
  intros HC HM H7 H2 Hnn. induction Hnn as [|a l Ha Hl IH]; intros HS.
  - rewrite fsum_nil, zsum_nil. lia.
  - rewrite zsum_cons in HS. rewrite fsum_cons, zsum_cons.
    pose proof (zsum_nonneg l Hl) as H0. assert (HS' : 2 * zsum l < C) by lia.
    specialize (IH HS'). unfold WM at 1. pose proof (bonM_spec C M a) as Hb. lia.
Qed.

(** values up to C/2, any sum: at most two bonuses count fully *)
Definition FbM (C M S : Z) : Z :=
  Z.max (Z.max 0 (Z.min (7 * M - 12 * C) (12 * S - 12 * C + 5 * M))) (12 * S - 24 * C + 10 * M).

Lemma wsumM_nobig_Fb C M l : 0 <= C -> 0 <= M -> 12 * C <= 7 * M -> M <= 2 * C ->
  Forall (fun a => 0 <= a) l -> Forall (fun a => 2 * a <= C) l ->
  wsumM C M l <= 24 * zsum l + FbM C M (zsum l).
Proof.
  intros HC HM H7 H2 Hnn. induction Hnn as [|a l Ha Hl IH]; intros Hnb.
  - rewrite fsum_nil, zsum_nil. unfold FbM. lia.
  - apply Forall_cons_iff in Hnb. destruct Hnb as [Ha2 Hnb]. specialize (IH Hnb).
    rewrite fsum_cons, zsum_cons. pose proof (zsum_nonneg l Hl) as H0.
    unfold WM at 1. pose proof (bonM_spec C M a) as Hb. unfold FbM in *. lia.
Qed.

(** a list containing a value above C/2 *)
Lemma wsumM_big C M l : 0 <= C -> 0 <= M -> 12 * C <= 7 * M -> M <= 2 * C ->
  Forall (fun a => 0 <= a) l ->
  Exists (fun a => ~ 2 * a <= C) l -> 24 * zsum l + 10 * M - 12 * C <= wsumM C M l.
Proof.
  intros HC HM H7 H2 Hnn H. induction H as [a l Ha|a l Hl IH].
  - rewrite fsum_cons, zsum_cons. pose proof (wsumM_ge_24 C M l HM H7).
    unfold WM at 1. pose proof (bonM_spec C M a) as Hb. lia.
  - apply Forall_cons_iff in Hnn. destruct Hnn as [Ha0 Hl0].
    rewrite fsum_cons, zsum_cons. specialize (IH Hl0).
    unfold WM at 1. pose proof (bonM_nonneg C M a HM H7). lia.
Qed.

(** values up to C/2: M * bonus <= (42 M - 72 C) * size *)
Lemma bonM_ratio C M a : 0 <= a -> 2 * a <= C -> 0 <= M -> 12 * C <= 7 * M -> 5 * M <= 12 * C ->
  M * bonM C M a <= (42 * M - 72 * C) * a.
Proof.
  intros Ha H2 HM H7 H5. pose proof (bonM_spec C M a) as Hb.
  destruct Hb as [[_ E]|[(Hlo & Hhi & E)|[(Hlo & _ & _ & E)|(Hbig & _)]]]; [| | |lia]; rewrite E.
  - assert (0 <= (42 * M - 72 * C) * a) by (apply Z.mul_nonneg_nonneg; lia). lia.
  - assert (0 <= (12 * C - 5 * M) * (M - 6 * a)) by (apply Z.mul_nonneg_nonneg; lia). lia.
  - assert (0 <= (7 * M - 12 * C) * (6 * a - M)) by (apply Z.mul_nonneg_nonneg; lia). lia.
Qed.

Lemma wsumM_nobig C M l : 0 <= C -> 0 < M -> 12 * C <= 7 * M -> M <= 2 * C ->
  Forall (fun a => 0 <= a) l -> Forall (fun a => 2 * a <= C) l -> zsum l <= C ->
  wsumM C M l <= 15 * M.
Proof.
  intros HC HM H7 H2 Hnn Hnb HS.
  assert (H5 : 5 * M <= 12 * C) by lia.
  assert (Hkey : M * wsumM C M l <= (66 * M - 72 * C) * zsum l).
  { clear HS. induction Hnn as [|a l Ha Hl IH]; [rewrite fsum_nil, zsum_nil; lia|].
    apply Forall_cons_iff in Hnb. destruct Hnb as [Ha2 Hnb]. specialize (IH Hnb).
    rewrite fsum_cons, zsum_cons. unfold WM at 1.
    pose proof (bonM_ratio C M a Ha Ha2 ltac:(lia) H7 H5). lia. }
  pose proof (zsum_nonneg l Hnn) as H0.
  assert (H1 : (66 * M - 72 * C) * zsum l <= (66 * M - 72 * C) * C)
    by (apply Z.mul_le_mono_nonneg_l; lia).
  assert (H3 : 0 <= (2 * C - M) * (12 * C - 5 * M)) by (apply Z.mul_nonneg_nonneg; lia).
  assert (H4 : M * wsumM C M l <= M * (15 * M)) by lia.
  apply Z.mul_le_mono_pos_l in H4; lia.
Qed.

(** a feasible bin weighs at most 17 M *)
Lemma light_binM C M l : 0 <= C -> 0 < M -> 12 * C <= 7 * M -> M <= 2 * C ->
  Forall (fun a => 0 <= a) l -> zsum l <= C -> wsumM C M l <= 17 * M.
Proof.
  intros HC HM H7 H2 Hnn HS. pose proof (zsum_nonneg l Hnn) as H0.
  destruct (Forall_Exists_dec (fun a => 2 * a <= C) (fun a => Z_le_dec (2 * a) C) l) as [Hnb|Hbig].
  - pose proof (wsumM_nobig C M l HC HM H7 H2 Hnn Hnb HS). lia.
  - apply Exists_exists in Hbig. destruct Hbig as (x & Hin & Hx).
    apply in_split in Hin. destruct Hin as (l1 & l2 & E). subst l.
    assert (P : Permutation (l1 ++ x :: l2) (x :: l1 ++ l2)) by (symmetry; apply Permutation_middle).
    rewrite (fsum_perm _ _ _ P), fsum_cons. rewrite (zsum_perm _ _ P), zsum_cons in HS.
    assert (Hnn' : Forall (fun a => 0 <= a) (l1 ++ l2)).
    { apply Forall_app in Hnn. destruct Hnn as [H1 H3]. apply Forall_cons_iff in H3.
      destruct H3 as [_ H3]. apply Forall_app. split; assumption. }
    pose proof (zsum_nonneg _ Hnn') as H0'.
    assert (HS' : 2 * zsum (l1 ++ l2) < C) by lia.
    pose proof (wsumM_small C M (l1 ++ l2) HC ltac:(lia) H7 H2 Hnn' HS') as Hw.
    unfold WM at 1. pose proof (bonM_spec C M x) as Hb. lia.
Qed.

(** WM minus 2 M for every value above C/2: at most 15 M on a feasible bin *)
Definition WMb (C M a : Z) : Z := WM C M a - 2 * M * bigw C a.

Lemma fsum_WMb C M l : fsum (WMb C M) l = wsumM C M l - 2 * M * fsum (bigw C) l.
Proof.
  induction l as [|a l IH]; [rewrite !fsum_nil; lia|].
  rewrite !fsum_cons, IH. unfold WMb. lia.
Qed.

Lemma light_binMb C M l : 0 <= C -> 0 < M -> 12 * C <= 7 * M -> M <= 2 * C ->
  Forall (fun a => 0 <= a) l -> zsum l <= C -> fsum (WMb C M) l <= 15 * M.
Proof.
  intros HC HM H7 H2 Hnn HS. rewrite fsum_WMb.
  destruct (Forall_Exists_dec (fun a => 2 * a <= C) (fun a => Z_le_dec (2 * a) C) l) as [Hnb|Hbig].
  - pose proof (wsumM_nobig C M l HC HM H7 H2 Hnn Hnb HS). pose proof (fsum_bigw_nonneg C l) as Hb.
    assert (0 <= 2 * M * fsum (bigw C) l) by (apply Z.mul_nonneg_nonneg; lia). lia.
  - pose proof (light_binM C M l HC HM H7 H2 Hnn HS). pose proof (fsum_bigw_pos C l Hbig) as Hb.
    assert (2 * M * 1 <= 2 * M * fsum (bigw C) l) by (apply Z.mul_le_mono_nonneg_l; lia). lia.
Qed.

(** total weight at most 15 M n + 2 M (number of values above C/2) *)
Lemma packable_wsumMb C M vs n : 0 <= C -> 0 < M -> 12 * C <= 7 * M -> M <= 2 * C ->
  Forall (fun a => 0 <= a) vs -> Packable C vs n ->
  wsumM C M vs <= 15 * M * Z.of_nat n + 2 * M * fsum (bigw C) vs.
Proof.
  intros HC HM H7 H2 Hnn Hp.
  assert (H : fsum (WMb C M) vs <= 15 * M * Z.of_nat n).
  { apply (packable_fsum (WMb C M) C); auto. intros g Hg Hs. apply light_binMb; auto. }
  rewrite fsum_WMb in H. lia.
Qed.

(** ---- 2. the amortised analysis with the weights WM ----
    [l0] is a lower bound for the sum of the last bin without a value above C/2; the excess of
    a bin of sum s holding a value above C/2 is 24 s - 12 C = 2 (12 s - 6 C), twice the excess
    [xs] of FF17SharpProofs.v. *)
Definition PhiM (C M l0 alpha : Z) : Z :=
  10 * M - Z.max (24 * l0) (48 * alpha) - 2 * bonM C M alpha.

Lemma PhiM_mono C M l0 a a' : 0 <= M -> 12 * C <= 7 * M -> a <= a' -> PhiM C M l0 a' <= PhiM C M l0 a.
Proof. intros HM H7 H. unfold PhiM. pose proof (bonM_mono C M a a' HM H7 H). lia. Qed.

Lemma PhiM_last C M l0 alpha x1 x2 r : 0 <= M -> 12 * C <= 7 * M -> l0 <= x1 + x2 + r -> 0 <= r ->
  alpha <= x1 -> alpha <= x2 ->
  10 * M <= WM C M x1 + WM C M x2 + 24 * r + PhiM C M l0 alpha.
Proof.
  intros HM H7 Hl Hr H1 H2. unfold PhiM, WM.
  pose proof (bonM_mono C M alpha x1 HM H7 H1). pose proof (bonM_mono C M alpha x2 HM H7 H2). lia.
Qed.

(** a bin of sum s = x1 + x2 + r without a value above C/2; the later items exceed C - s *)
Lemma PhiM_step C M l0 alpha x1 x2 r : 0 <= C -> 0 <= M -> 12 * C <= 7 * M -> M <= 2 * C -> 0 <= r ->
  alpha <= x1 -> alpha <= x2 -> 2 * x1 <= C -> 2 * x2 <= C -> C < 2 * (x1 + x2 + r) ->
  6 * (C - (x1 + x2 + r)) <= M \/ (3 * (x1 + x2 + r) <= M /\ 6 * l0 + M <= 6 * C + 12) ->
  10 * M + PhiM C M l0 (Z.max alpha (C - (x1 + x2 + r) + 1)) <=
  WM C M x1 + WM C M x2 + 24 * r + PhiM C M l0 alpha.
Proof.
  intros HC HM H7 H2C Hr H1 H2 Hx1 Hx2 Hs Hc. unfold PhiM, WM.
  pose proof (bonM_mono C M alpha x1 HM H7 H1). pose proof (bonM_mono C M alpha x2 HM H7 H2).
  pose proof (bonM_spec C M (Z.max alpha (C - (x1 + x2 + r) + 1))). lia.
Qed.

Section HeavyM.
  Context {A : Type} (valueof : A -> Z).

  Notation cwM C M b := (wsumM C M (map valueof (contents b))).

  (** the bins without a value above C/2: free space at most M/6 (= L/2), or sum at most M/3
      (= L) when l0 is not much larger than M/3 *)
  Definition okM (C M l0 : Z) (b : bins A) : Prop :=
    Forall (fun bn : bin A => nobig valueof C bn ->
              6 * (C - fst bn) <= M \/ (3 * fst bn <= M /\ 6 * l0 + M <= 6 * C + 12)) b.

  Lemma heavyM C M l0 : 0 <= C -> 0 <= M -> 12 * C <= 7 * M -> M <= 2 * C ->
    forall (b : bins A) alpha,
    wf valueof b -> all_nonempty b -> anyfit valueof C b -> bf2 valueof C b -> half_full C b ->
    okM C M l0 b -> regular valueof C l0 b ->
    Forall (fun y => 0 <= valueof y) (contents b) ->
    Forall (head2_ge valueof C alpha) b ->
    10 * M * Z.of_nat (length b) + 2 * xs valueof C b <= cwM C M b + PhiM C M l0 alpha.
  Proof.
    intros HC HM H7 H2 b alpha Hw Hne Haf Hb2 Hhf Hok Hreg Hnn Hge.
    apply (heavy_gen valueof (WM C M) C (10 * M) 2 l0 (PhiM C M l0)
             (fun s => 6 * (C - s) <= M \/ (3 * s <= M /\ 6 * l0 + M <= 6 * C + 12))); auto.
    - intros l Hl Hb. pose proof (wsumM_big C M l HC HM H7 H2 Hl Hb). lia.
    - intros l Hl. pose proof (wsumM_ge_24 C M l HM H7). lia.
    - intros a a'. apply PhiM_mono; assumption.
    - intros a x1 x2 r Hl Hr H1 H2'. pose proof (PhiM_last C M l0 a x1 x2 r HM H7 Hl Hr H1 H2'). lia.
    - intros a x1 x2 r Hr H1 H2' Hx1 Hx2 Hs Hc.
      pose proof (PhiM_step C M l0 a x1 x2 r HC HM H7 H2 Hr H1 H2' Hx1 Hx2 Hs Hc). lia.
  Qed.
End HeavyM.

(** ---- 3. choosing the bin that carries the deficit ---- *)
Section ToolsM.
  Context {A : Type} (valueof : A -> Z).

  Notation cwM C M b := (wsumM C M (map valueof (contents b))).
  Notation bigc C b := (fsum (bigw C) (map valueof (contents b))).
  Notation nbigb C := (fun c : bin A => negb (bigb valueof C c)).

  Lemma nobig_hasbig C (c : bin A) : nobig valueof C c -> hasbig valueof C c -> False.
  Proof.
    unfold nobig, hasbig. intros H1 H2. apply Exists_exists in H2. destruct H2 as (v & Hin & Hv).
    rewrite Forall_forall in H1. apply Hv. apply H1. exact Hin.
  Qed.

  Lemma cntb_app P (t1 t2 : bins A) : cntb P (t1 ++ t2) = cntb P t1 + cntb P t2.
  Proof. induction t1 as [|c t IH]; cbn [app cntb]; [lia|]. rewrite IH. lia. Qed.

  Lemma cntb_bigb_le C (t : bins A) : cntb (bigb valueof C) t <= bigc C t.
  Proof.
    induction t as [|c t IH].
    - cbn [cntb]. unfold contents, lists. cbn [map concat]. rewrite fsum_nil. lia.
    - rewrite contents_cons, map_app, fsum_app. cbn [cntb].
      pose proof (fsum_bigw_nonneg C (map valueof (snd c))) as H0.
      destruct (bigb valueof C c) eqn:E; [|lia].
      apply bigb_true in E. pose proof (fsum_bigw_pos C _ E). lia.
  Qed.

  (** the bins other than the last common bin c satisfy [okM] for M >= 3 (sum of c) *)
  Lemma okM_last C M (t1 : bins A) c t2 : 0 <= C ->
    wf valueof (t1 ++ c :: t2) -> anyfit valueof C (t1 ++ c :: t2) -> bf2 valueof C (t1 ++ c :: t2) ->
    Forall (fun y => 0 <= valueof y) (snd c) -> nobig valueof C c -> C < 2 * fst c ->
    Forall (hasbig valueof C) t2 -> 3 * fst c <= M -> 6 * fst c + M <= 6 * C + 12 ->
    Forall (fun bn : bin A => nobig valueof C bn -> 2 * (C - fst bn + 1) <= fst c) t1 /\
    okM valueof C M (fst c) (t1 ++ c :: t2).
  Proof.
    intros HC Hw Ha Hb2 Hnn Hnb Hhc H2 HM1 HM2.
    assert (H1 : Forall (fun bn : bin A => nobig valueof C bn -> 2 * (C - fst bn + 1) <= fst c) t1).
    { rewrite Forall_forall. intros bn Hin _.
      apply (before_common valueof C t1 c t2 bn); auto. }
    split; [exact H1|]. unfold okM. apply Forall_app. split.
    - eapply Forall_impl; [|exact H1]. intros bn Hbn Hnbn. left. specialize (Hbn Hnbn). lia.
    - constructor; [intros _; right; lia|].
      eapply Forall_impl; [|exact H2]. intros bn Hbn Hnbn. exfalso. apply (nobig_hasbig C bn); assumption.
  Qed.

  (** sizes, for a carrier c filled below 4C/7: u(bin) = 14 sum + 3 C (number of values above
      C/2) - 10 C is positive except for c *)
  Definition ub (C : Z) (bn : bin A) : Z :=
    14 * fst bn + 3 * C * fsum (bigw C) (map valueof (snd bn)) - 10 * C.

  Fixpoint usum (C : Z) (b : bins A) : Z :=
    match b with [] => 0 | c :: t => ub C c + usum C t end.

  Lemma usum_app C (b1 b2 : bins A) : usum C (b1 ++ b2) = usum C b1 + usum C b2.
  Proof. induction b1 as [|c t IH]; cbn [app usum]; [lia|]. rewrite IH. lia. Qed.

  Lemma usum_total C (b : bins A) : wf valueof b ->
    usum C b = 14 * zsum (map valueof (contents b)) + 3 * C * bigc C b - 10 * C * Z.of_nat (length b).
  Proof.
    intros Hw. induction Hw as [|c t Hc Ht IH].
    - cbn [usum length Z.of_nat]. unfold contents, lists. cbn [map concat].
      rewrite fsum_nil, zsum_nil. lia.
    - cbn [usum length]. rewrite Nat2Z.inj_succ, IH, contents_cons, !map_app, fsum_app, zsum_app.
      unfold ub. unfold wf_bin in Hc. rewrite Hc. lia.
  Qed.

  Lemma usum_lower C l (t : bins A) : 0 <= C -> 0 <= 4 * C + 14 - 7 * l ->
    half_full C t ->
    Forall (fun bn : bin A => nobig valueof C bn -> 2 * (C - fst bn + 1) <= l) t ->
    (4 * C + 14 - 7 * l) * cntb (nbigb C) t <= usum C t.
  Proof.
    intros HC Hd Hhf H. induction H as [|c t Hc Ht IH]; [cbn [cntb usum]; lia|].
    unfold half_full in Hhf. apply Forall_cons_iff in Hhf. destruct Hhf as [Hh1 Hhf].
    specialize (IH Hhf). cbn [cntb usum]. unfold ub.
    destruct (bigb valueof C c) eqn:Eb; cbn [negb].
    - apply bigb_true in Eb. pose proof (fsum_bigw_pos C _ Eb) as Hp.
      assert (3 * C * 1 <= 3 * C * fsum (bigw C) (map valueof (snd c)))
        by (apply Z.mul_le_mono_nonneg_l; lia).
      lia.
    - apply bigb_false in Eb. specialize (Hc Eb). rewrite (bigc_nobig C _ Eb). lia.
  Qed.

  (** the bins other than c without a value above C/2 (G of them) are filled above C - (sum of c)/2 *)
  Lemma sizes_count C (b : bins A) t1 c t2 : 0 <= C -> b = t1 ++ c :: t2 ->
    wf valueof b -> half_full C b -> nobig valueof C c -> 7 * fst c <= 4 * C + 14 ->
    Forall (fun bn : bin A => nobig valueof C bn -> 2 * (C - fst bn + 1) <= fst c) t1 ->
    Forall (fun bn : bin A => nobig valueof C bn -> 2 * (C - fst bn + 1) <= fst c) t2 ->
    exists G, 0 <= G /\ Z.of_nat (length b) <= bigc C b + G + 1 /\
      (4 * C + 14 - 7 * fst c) * G + 14 * fst c + 10 * C * Z.of_nat (length b) <=
      14 * zsum (map valueof (contents b)) + 3 * C * bigc C b + 10 * C.
  Proof.
    intros HC Eb Hw Hhf Hnb Hd H1 H2.
    pose proof (usum_total C b Hw) as Htotal.
    pose proof (cntb_bigb_le C b) as Hcnt.
    pose proof (cntb_total (bigb valueof C) b) as Hct.
    unfold half_full in Hhf. rewrite Eb in Hhf. apply Forall_app in Hhf. destruct Hhf as [Hhf1 Hhf2].
    apply Forall_cons_iff in Hhf2. destruct Hhf2 as [_ Hhf2].
    pose proof (usum_lower C (fst c) t1 HC ltac:(lia) Hhf1 H1) as Hu1.
    pose proof (usum_lower C (fst c) t2 HC ltac:(lia) Hhf2 H2) as Hu2.
    assert (Ebc : bigb valueof C c = false) by (apply bigb_false; exact Hnb).
    assert (Euc : ub C c = 14 * fst c - 10 * C).
    { unfold ub. rewrite (bigc_nobig C _ Hnb). lia. }
    rewrite Eb, usum_app in Htotal. cbn [usum] in Htotal. rewrite <- Eb in Htotal.
    rewrite Eb, !cntb_app in Hct. cbn [cntb] in Hct. rewrite Ebc in Hct. cbn [negb] in Hct.
    rewrite <- Eb in Hct.
    rewrite Eb, !cntb_app in Hcnt. cbn [cntb] in Hcnt. rewrite Ebc in Hcnt. rewrite <- Eb in Hcnt.
    pose proof (cntb_nonneg (nbigb C) t1). pose proof (cntb_nonneg (nbigb C) t2).
    exists (cntb (nbigb C) t1 + cntb (nbigb C) t2). split; [lia|]. split; lia.
  Qed.

  (** a bin d without a value above C/2, more than half full, after c: its first two items do
      not fit c *)
  Lemma after_common_level C (t1 : bins A) c t2 d : 0 <= C ->
    wf valueof (t1 ++ c :: t2) -> anyfit valueof C (t1 ++ c :: t2) -> bf2 valueof C (t1 ++ c :: t2) ->
    Forall (fun y => 0 <= valueof y) (snd d) ->
    In d t2 -> nobig valueof C d -> C < 2 * fst d -> 2 * (C - fst c + 1) <= fst d.
  Proof.
    intros HC Hw Ha Hb2 Hnn Hin Hnb Hhf. apply in_split in Hin. destruct Hin as (u1 & u2 & E). subst t2.
    assert (E : t1 ++ c :: u1 ++ d :: u2 = (t1 ++ c :: u1) ++ d :: u2)
      by (rewrite <- app_assoc; reflexivity).
    rewrite E in Hw, Ha, Hb2.
    apply (before_common valueof C (t1 ++ c :: u1) d u2 c); auto.
    apply in_or_app. right. left. reflexivity.
  Qed.

  (** the parameter M for a deficit carrier of sum l <= 2C/3: M = 3 l, but at least
      (12 C + 6) / 7 = ceil(12 C / 7), which says L = M/3 >= 4C/7 *)
  Definition Mof (C l : Z) : Z := Z.min (2 * C) (Z.max (3 * l) ((12 * C + 6) / 7)).

  Lemma Mof_spec C l : 0 <= C -> 3 * l <= 2 * C ->
    12 * C <= 7 * Mof C l /\ Mof C l <= 2 * C /\ 3 * l <= Mof C l /\
    (Mof C l = 3 * l \/ 7 * Mof C l <= 12 * C + 6).
  Proof.
    intros HC Hl. unfold Mof.
    pose proof (Z.div_mod (12 * C + 6) 7) as Hdm. pose proof (Z.mod_pos_bound (12 * C + 6) 7) as Hmb.
    lia.
  Qed.

  (** some common bin c carries the whole deficit 10 M - 24 (sum of c), for a suitable M *)
  Lemma heavy_choiceM C (b' : bins A) : 0 < C ->
    wf valueof b' -> all_nonempty b' -> anyfit valueof C b' -> bf2 valueof C b' -> half_full C b' ->
    Forall (fun y => 0 <= valueof y) (contents b') ->
    Forall (hasbig valueof C) b' \/
    exists t1 c t2 M, b' = t1 ++ c :: t2 /\ nobig valueof C c /\
      12 * C <= 7 * M /\ M <= 2 * C /\
      (M = 3 * fst c \/ (7 * M <= 12 * C + 6 /\ 3 * fst c <= M) \/ (M = 2 * C /\ 2 * C <= 3 * fst c)) /\
      (3 * fst c <= 2 * C ->
       Forall (fun bn : bin A => nobig valueof C bn -> 2 * (C - fst bn + 1) <= fst c) t1 /\
       Forall (fun bn : bin A => nobig valueof C bn -> 2 * (C - fst c + 1) <= fst bn) t2) /\
      10 * M * Z.of_nat (length b') + 2 * xs valueof C b' <= cwM C M b' + 10 * M - 24 * fst c.
  Proof.
    intros HC Hw Hnem Ha Hb2 Hhf Hnn. assert (HC0 : 0 <= C) by lia.
    destruct (last_common_split valueof C b') as [Hall|(t1 & c & t2 & Eb' & Hnb & Hall)];
      [left; exact Hall|right].
    assert (Hinc : In c b') by (rewrite Eb'; apply in_or_app; right; left; reflexivity).
    assert (Hhc : C < 2 * fst c) by (unfold half_full in Hhf; rewrite Forall_forall in Hhf; auto).
    assert (HPhi : forall M l0, 0 <= l0 -> 5 * M <= 12 * C -> PhiM C M l0 0 = 10 * M - 24 * l0).
    { intros M l0 Hl0 HM5. unfold PhiM. pose proof (bonM_spec C M 0). lia. }
    assert (Hnnin : forall d, In d b' -> Forall (fun y => 0 <= valueof y) (snd d)).
    { intros d Hd. apply (contents_Forall (fun y => 0 <= valueof y)) in Hnn.
      rewrite Forall_forall in Hnn. apply Hnn. exact Hd. }
    destruct (carrier_choice valueof C (2 * C) b' c Hinc Hnb) as [(c' & Hin' & Hnb' & Hcap' & Hle)|H23].
    - (* the carrier c': a common bin that is at most 2/3 full and not fuller than c *)
      assert (Hhc' : C < 2 * fst c') by (unfold half_full in Hhf; rewrite Forall_forall in Hhf; auto).
      destruct (Mof_spec C (fst c') HC0 Hcap') as (HM7 & HM2 & HM3 & HMd).
      set (M := Mof C (fst c')) in *.
      pose proof (Hnnin c' Hin') as Hnnc'.
      apply in_split in Hin'. destruct Hin' as (u1 & u2 & Eu).
      exists u1, c', u2, M. split; [exact Eu|]. split; [exact Hnb'|]. split; [exact HM7|].
      split; [exact HM2|]. split; [destruct HMd as [E|E]; [left; exact E|right; left; split; assumption]|].
      assert (Hreg : regular valueof C (fst c') b').
      { rewrite Eb'. apply regular_app. apply reg_last; auto. }
      assert (Hlev1 : Forall (fun bn : bin A => nobig valueof C bn -> 2 * (C - fst bn + 1) <= fst c') u1).
      { rewrite Forall_forall. intros bn Hbn _. rewrite Eu in Hw, Ha, Hb2.
        apply (before_common valueof C u1 c' u2 bn HC0 Hw Ha Hb2 Hnnc' Hnb' Hhc' Hbn). }
      assert (Hlev2 : Forall (fun bn : bin A => nobig valueof C bn -> 2 * (C - fst c' + 1) <= fst bn) u2).
      { rewrite Forall_forall. intros d Hd Hnd.
        assert (Hdb : In d b') by (rewrite Eu; apply in_or_app; right; right; exact Hd).
        assert (Hhd : C < 2 * fst d) by (unfold half_full in Hhf; rewrite Forall_forall in Hhf; auto).
        rewrite Eu in Hw, Ha, Hb2.
        apply (after_common_level C u1 c' u2 d HC0 Hw Ha Hb2 (Hnnin d Hdb) Hd Hnd Hhd). }
      split; [intros _; split; assumption|].
      assert (Hok : okM valueof C M (fst c') b').
      { unfold okM. rewrite Eu. apply Forall_app. split.
        - eapply Forall_impl; [|exact Hlev1]. intros bn Hbn Hnbn. left. specialize (Hbn Hnbn). lia.
        - constructor; [intros _; right; destruct HMd as [E|E]; lia|].
          eapply Forall_impl; [|exact Hlev2]. intros bn Hbn Hnbn. left. specialize (Hbn Hnbn). lia. }
      pose proof (heavyM valueof C M (fst c') HC0 ltac:(lia) HM7 HM2 b' 0 Hw Hnem Ha Hb2 Hhf Hok Hreg Hnn
                    (head2_ge_all valueof C 0 b' Hnn)) as H.
      rewrite (HPhi M (fst c') ltac:(lia) ltac:(lia)) in H. lia.
    - (* every common bin is more than 2/3 full *)
      pose proof (H23 c Hinc Hnb) as Hc23.
      exists t1, c, t2, (2 * C). split; [exact Eb'|]. split; [exact Hnb|]. split; [lia|].
      split; [lia|]. split; [right; right; split; lia|]. split; [intros Hbad; lia|].
      assert (Hok : okM valueof C (2 * C) (fst c) b').
      { unfold okM. rewrite Forall_forall. intros c0 Hin0 Hnb0. left.
        pose proof (H23 c0 Hin0 Hnb0). lia. }
      assert (Hreg : regular valueof C (fst c) b').
      { rewrite Eb'. apply regular_app. apply reg_last; auto. lia. }
      pose proof (heavyM valueof C (2 * C) (fst c) HC0 ltac:(lia) ltac:(lia) ltac:(lia) b' 0 Hw Hnem Ha
                    Hb2 Hhf Hok Hreg Hnn (head2_ge_all valueof C 0 b' Hnn)) as H.
      rewrite (HPhi (2 * C) (fst c) ltac:(lia) ltac:(lia)) in H. lia.
  Qed.
End ToolsM.

(** ---- 4. every bin more than half full: 10 m <= 17 n + 1, and 10 m <= 17 n when fewer than n
    values exceed C/2 ----
    The carrier c of [heavy_choiceM] has deficit 10 M - 24 (sum of c); at most 2 M (c filled to
    4C/7 or more): the weights decide, with the excess of a bin holding a value above C/2 when
    there are n such values; more: the sizes decide ([sizes_count]). *)
Section HalfFull.
  Context {A : Type} (valueof : A -> Z).

  Notation bigc C b := (fsum (bigw C) (map valueof (contents b))).

  Lemma half_full_bounds C (items : list A) (b : bins A) (n : nat) :
    items <> [] -> Forall (fun x : A => 0 <= valueof x) items ->
    Inv valueof C b items -> bf2 valueof C b -> 0 <= C -> (1 <= n)%nat ->
    Forall (fun y => 0 <= valueof y) (contents b) ->
    Packable C (map valueof items) n -> half_full C b ->
    (10 * length b <= 17 * n + 1)%nat /\
    (fsum (bigw C) (map valueof items) < Z.of_nat n -> (10 * length b <= 17 * n)%nat).
  Proof.
    intros Hne Hnn HI Hb2 HC Hn Hnnb Hpack Hhf.
    pose proof (Inv_lt_2n valueof C b items n HI Hne Hnn Hpack) as H2n.
    destruct (le_lt_dec n 3) as [Hn3|Hn4]; [split; [|intros _]; lia|].
    destruct (cap_pos_or_single valueof C items b n HI HC Hnnb Hpack) as [HCpos|H1];
      [|split; [|intros _]; lia].
    destruct HI as (Hw & Hf & Hp & Hnem & Hns & Ha).
    pose proof (Permutation_map valueof Hp) as Hpv.
    assert (Hvs : Forall (fun v => 0 <= v) (map valueof items)) by (rewrite Forall_map; exact Hnn).
    pose proof (packable_big C _ n HC Hvs Hpack) as Hbig.
    change (zsum (map (bigw C) (map valueof items))) with (fsum (bigw C) (map valueof items)) in Hbig.
    rewrite <- (fsum_perm (bigw C) _ _ Hpv) in Hbig |- *.
    destruct (heavy_choiceM valueof C b HCpos Hw Hnem Ha Hb2 Hhf Hnnb)
      as [Hall|(t1 & c & t2 & M & Eb & Hnb & HM7 & HM2 & HMd & Hlev & Hheavy)].
    { pose proof (hasbig_count valueof C b Hall) as Hcnt. split; [|intros _]; lia. }
    assert (HMpos : 0 < M) by lia.
    pose proof (packable_wsumMb C M _ n HC HMpos HM7 HM2 Hvs Hpack) as Hlight.
    rewrite <- (fsum_perm (WM C M) _ _ Hpv), <- (fsum_perm (bigw C) _ _ Hpv) in Hlight.
    pose proof (xs_nonneg valueof C b Hhf) as Hxs0.
    set (mm := Z.of_nat (length b)) in *. set (nn := Z.of_nat n) in *.
    set (beta := bigc C b) in *.
    assert (Hkey : forall K, beta <= K -> nn - 1 <= K <= nn -> 10 * mm <= 16 * nn + K + 1).
    { intros K HbK HKn.
      destruct (Z_le_dec (10 * M - 24 * fst c) (2 * M)) as [HD|HD].
      - (* deficit at most 2/10 *)
        destruct (Z_lt_dec beta nn) as [Hlt|Hge].
        + assert (Hpb : M * beta <= M * (nn - 1)) by (apply Z.mul_le_mono_nonneg_l; lia).
          assert (Hz : M * (10 * mm) <= M * (17 * nn)) by lia.
          apply Z.mul_le_mono_pos_l in Hz; lia.
        + (* n values exceed C/2: some bin has a positive excess *)
          assert (Hpb : M * beta <= M * nn) by (apply Z.mul_le_mono_nonneg_l; lia).
          pose proof (xs_pos valueof C b Hhf ltac:(fold beta; lia)) as Hxs.
          assert (Hz : M * (10 * mm) < M * (17 * nn + 2)) by lia.
          apply Z.mul_lt_mono_pos_l in Hz; lia.
      - (* the carrier is filled below 4C/7: sizes *)
        assert (Hlow : 7 * M <= 12 * C + 6 /\ 3 * fst c < M) by lia.
        destruct Hlow as [HM6 HlM].
        destruct (Hlev ltac:(lia)) as [Hlev1 Hlev2].
        assert (Hlev2' : Forall (fun bn : bin A => nobig valueof C bn -> 2 * (C - fst bn + 1) <= fst c) t2).
        { eapply Forall_impl; [|exact Hlev2]. intros bn Hbn Hnbn. specialize (Hbn Hnbn). lia. }
        destruct (sizes_count valueof C b t1 c t2 HC Eb Hw Hhf Hnb ltac:(lia) Hlev1 Hlev2')
          as (G & HG0 & Hlen & Hsz).
        pose proof (packable_total C _ n Hpack) as Htot. rewrite <- (zsum_perm _ _ Hpv) in Htot.
        fold mm in Hlen, Hsz. fold beta in Hlen, Hsz. fold nn in Htot.
        destruct (Z_le_dec 2 G) as [HG|HG]; [|lia].
        assert (Hp2 : (4 * C + 14 - 7 * fst c) * 2 <= (4 * C + 14 - 7 * fst c) * G)
          by (apply Z.mul_le_mono_nonneg_l; lia).
        assert (Hb : 3 * C * beta <= 3 * C * K) by (apply Z.mul_le_mono_nonneg_l; lia).
        assert (Hz : C * (10 * mm) < C * (14 * nn + 3 * K + 2)) by lia.
        apply Z.mul_lt_mono_pos_l in Hz; lia. }
    split.
    - pose proof (Hkey nn Hbig ltac:(lia)). unfold mm, nn in *. lia.
    - intros Hbeta. pose proof (Hkey (nn - 1) ltac:(lia) ltac:(lia)). unfold mm, nn in *. lia.
  Qed.

  (** no bin is a single item a with C/3 < a <= C/2: some bin is at most half full
      ([low_bin_sharp_core] of FF17SharpProofs.v), or [half_full_bounds] *)
  Lemma nms_bounds C (items : list A) (b : bins A) (n : nat) :
    items <> [] -> Forall (fun x : A => 0 <= valueof x) items ->
    Inv valueof C b items -> bf2 valueof C b -> 0 <= C -> (1 <= n)%nat ->
    Forall (fun y => 0 <= valueof y) (contents b) ->
    Packable C (map valueof items) n -> no_medium_single valueof C b ->
    (10 * length b <= 17 * n + 1)%nat /\
    (fsum (bigw C) (map valueof items) < Z.of_nat n -> (10 * length b <= 17 * n)%nat).
  Proof.
    intros Hne Hnn HI Hb2 HC Hn Hnnb Hpack Hno1.
    destruct (Forall_dec (fun bn : bin A => C < 2 * fst bn)
                (fun bn => Z_lt_dec C (2 * fst bn)) b) as [Hhf|Hnhf].
    - apply (half_full_bounds C items b n); auto.
    - pose proof (low_bin_sharp_core valueof C items b n HI Hb2 HC Hn Hnnb Hpack Hno1 Hnhf).
      split; [|intros _]; lia.
  Qed.

  Theorem ff_half_full_1_partial C (items : list A) (b : bins A) (n : nat) :
    items <> [] -> Forall (fun x : A => 0 <= valueof x) items ->
    first_fit valueof true C items = Ok b -> Packable C (map valueof items) n ->
    half_full C b -> (10 * length b <= 17 * n + 1)%nat.
  Proof.
    intros Hne Hnn Hff Hpack Hhf.
    destruct (ff_facts valueof C items b n Hne Hnn Hff Hpack) as (HI & Hb2 & HC & Hn & Hnnb).
    apply (half_full_bounds C items b n); auto.
  Qed.

  Theorem bf_half_full_1_partial C (items : list A) (b : bins A) (n : nat) :
    items <> [] -> Forall (fun x : A => 0 <= valueof x) items ->
    best_fit valueof true C items = Ok b -> Packable C (map valueof items) n ->
    half_full C b -> (10 * length b <= 17 * n + 1)%nat.
  Proof.
    intros Hne Hnn Hbf Hpack Hhf.
    destruct (bf_facts valueof C items b n Hne Hnn Hbf Hpack) as (HI & Hb2 & HC & Hn & Hnnb).
    apply (half_full_bounds C items b n); auto.
  Qed.

  Theorem ff_ratio_17_1_nms_partial C (items : list A) (b : bins A) (n : nat) :
    items <> [] -> Forall (fun x : A => 0 <= valueof x) items ->
    first_fit valueof true C items = Ok b -> Packable C (map valueof items) n ->
    no_medium_single valueof C b -> (10 * length b <= 17 * n + 1)%nat.
  Proof.
    intros Hne Hnn Hff Hpack Hno1.
    destruct (ff_facts valueof C items b n Hne Hnn Hff Hpack) as (HI & Hb2 & HC & Hn & Hnnb).
    apply (nms_bounds C items b n); auto.
  Qed.

  Theorem bf_ratio_17_1_nms_partial C (items : list A) (b : bins A) (n : nat) :
    items <> [] -> Forall (fun x : A => 0 <= valueof x) items ->
    best_fit valueof true C items = Ok b -> Packable C (map valueof items) n ->
    no_medium_single valueof C b -> (10 * length b <= 17 * n + 1)%nat.
  Proof.
    intros Hne Hnn Hbf Hpack Hno1.
    destruct (bf_facts valueof C items b n Hne Hnn Hbf Hpack) as (HI & Hb2 & HC & Hn & Hnnb).
    apply (nms_bounds C items b n); auto.
  Qed.

  Theorem ff_ratio_17_floor_nms1_partial C (items : list A) (b : bins A) (n : nat) :
    items <> [] -> Forall (fun x : A => 0 <= valueof x) items ->
    first_fit valueof true C items = Ok b -> MinBins C (map valueof items) n ->
    no_medium_single valueof C b ->
    (exists k r, n = 10 * k + r /\ r < 10 /\ r <> 7)%nat ->
    (10 * length b <= 17 * n)%nat.
  Proof.
    intros Hne Hnn Hff [Hpack _] Hno1 (k & r & E & Hr & H7).
    pose proof (ff_ratio_17_1_nms_partial C items b n Hne Hnn Hff Hpack Hno1) as H1. lia.
  Qed.

  Theorem bf_ratio_17_floor_nms1_partial C (items : list A) (b : bins A) (n : nat) :
    items <> [] -> Forall (fun x : A => 0 <= valueof x) items ->
    best_fit valueof true C items = Ok b -> MinBins C (map valueof items) n ->
    no_medium_single valueof C b ->
    (exists k r, n = 10 * k + r /\ r < 10 /\ r <> 7)%nat ->
    (10 * length b <= 17 * n)%nat.
  Proof.
    intros Hne Hnn Hbf [Hpack _] Hno1 (k & r & E & Hr & H7).
    pose proof (bf_ratio_17_1_nms_partial C items b n Hne Hnn Hbf Hpack Hno1) as H1. lia.
  Qed.

  Theorem ff_half_full_beta_sharp_partial C (items : list A) (b : bins A) (n : nat) :
    items <> [] -> Forall (fun x : A => 0 <= valueof x) items ->
    first_fit valueof true C items = Ok b -> Packable C (map valueof items) n ->
    half_full C b -> fsum (bigw C) (map valueof items) < Z.of_nat n ->
    (10 * length b <= 17 * n)%nat.
  Proof.
    intros Hne Hnn Hff Hpack Hhf Hbeta.
    destruct (ff_facts valueof C items b n Hne Hnn Hff Hpack) as (HI & Hb2 & HC & Hn & Hnnb).
    apply (half_full_bounds C items b n); auto.
  Qed.

  Theorem bf_half_full_beta_sharp_partial C (items : list A) (b : bins A) (n : nat) :
    items <> [] -> Forall (fun x : A => 0 <= valueof x) items ->
    best_fit valueof true C items = Ok b -> Packable C (map valueof items) n ->
    half_full C b -> fsum (bigw C) (map valueof items) < Z.of_nat n ->
    (10 * length b <= 17 * n)%nat.
  Proof.
    intros Hne Hnn Hbf Hpack Hhf Hbeta.
    destruct (bf_facts valueof C items b n Hne Hnn Hbf Hpack) as (HI & Hb2 & HC & Hn & Hnnb).
    apply (half_full_bounds C items b n); auto.
  Qed.

  Theorem ff_nms_beta_sharp_partial C (items : list A) (b : bins A) (n : nat) :
    items <> [] -> Forall (fun x : A => 0 <= valueof x) items ->
    first_fit valueof true C items = Ok b -> Packable C (map valueof items) n ->
    no_medium_single valueof C b -> fsum (bigw C) (map valueof items) < Z.of_nat n ->
    (10 * length b <= 17 * n)%nat.
  Proof.
    intros Hne Hnn Hff Hpack Hno1 Hbeta.
    destruct (ff_facts valueof C items b n Hne Hnn Hff Hpack) as (HI & Hb2 & HC & Hn & Hnnb).
    apply (nms_bounds C items b n); auto.
  Qed.

  Theorem bf_nms_beta_sharp_partial C (items : list A) (b : bins A) (n : nat) :
    items <> [] -> Forall (fun x : A => 0 <= valueof x) items ->
    best_fit valueof true C items = Ok b -> Packable C (map valueof items) n ->
    no_medium_single valueof C b -> fsum (bigw C) (map valueof items) < Z.of_nat n ->
    (10 * length b <= 17 * n)%nat.
  Proof.
    intros Hne Hnn Hbf Hpack Hno1 Hbeta.
    destruct (bf_facts valueof C items b n Hne Hnn Hbf Hpack) as (HI & Hb2 & HC & Hn & Hnnb).
    apply (nms_bounds C items b n); auto.
  Qed.
End HalfFull.

(** ---- 5. a bin {a}, C/3 < a <= C/2: the additive constant 2 (for n >= 4) ----
    As [medium_core3] of FF17FloorProofs.v, with the weights WM of the deficit carrier c:
    the deficit 10 M - 24 (sum of c) is at most 3 M, and at most the excess of the bin Bg of a
    value g with C/2 < g <= C - a. *)
Section Medium2.
  Context {A : Type} (valueof : A -> Z).

  Lemma WM_medium C M a : 0 <= C -> 12 * C <= 7 * M -> M <= 2 * C -> C < 3 * a -> 2 * a <= C ->
    WM C M a = 24 * a + 7 * M - 12 * C.
  Proof. intros HC H7 H2 Ha3 Ha2. unfold WM. pose proof (bonM_spec C M a). lia. Qed.

  Lemma medium_core2 C (b : bins A) (vs : list Z) (n : nat) E xa :
    0 < C -> (4 <= n)%nat -> wf valueof b -> feasible C b -> all_nonempty b -> anyfit valueof C b ->
    bf2 valueof C b -> Forall (fun y => 0 <= valueof y) (contents b) ->
    Permutation (map valueof (contents b)) vs -> Packable C vs n ->
    In E b -> snd E = [xa] -> C < 3 * valueof xa -> 2 * valueof xa <= C ->
    after_ok valueof C b ->
    (10 * length b <= 17 * n + 2)%nat.
  Proof.
    intros HC Hn Hw Hfe Hnem Ha Hb2 Hnnb Hpv Hpack HinE EsE Ha3 Ha2 Hafter.
    destruct (medium_remove valueof C b vs E xa Hw Hfe Hnem Ha Hb2 Hnnb Hafter Hpv HinE EsE Ha2)
      as (b' & Elen & Hw' & Hfe' & Hnem' & Ha' & Hb2' & Hnnb' & Hafter' & Hlv & Hhf & Hpa & Hvs).
    rewrite Elen. clear Hw Hfe Hnem Ha Hb2 Hnnb HinE Hafter Elen Hpv.
    assert (HC0 : 0 <= C) by lia.
    set (a := valueof xa) in *. set (th := C - a) in *.
    set (R := map valueof (contents b')) in *.
    assert (HR : Forall (fun v => 0 <= v) R) by (unfold R; rewrite Forall_map; exact Hnnb').
    destruct (medium_opt_cases C a R vs n HC0 Ha3 Ha2 HR Hpa Hpack) as (Ebeta & Hbig & Hcases).
    set (e0 := 12 * (th + 1) - 6 * C).
    assert (He0 : 12 <= e0) by (unfold e0, th; lia).
    destruct (heavy_choiceM valueof C b' HC Hw' Hnem' Ha' Hb2' Hhf Hnnb')
      as [Hall|(t1 & c & t2 & M & Eb' & Hnb & HM7 & HM2 & HMd & _ & Hheavy)].
    - pose proof (hasbig_count valueof C b' Hall) as Hcnt. fold R in Hcnt. lia.
    - assert (Hinc : In c b') by (rewrite Eb'; apply in_or_app; right; left; reflexivity).
      assert (Hlc : th + 1 <= fst c) by (rewrite Forall_forall in Hlv; apply Hlv; exact Hinc).
      assert (HMpos : 0 < M) by lia.
      pose proof (packable_wsumMb C M vs n HC0 HMpos HM7 HM2 Hvs Hpack) as Hlight.
      rewrite <- (fsum_perm (WM C M) _ _ Hpa), fsum_cons, (WM_medium C M a HC0 HM7 HM2 Ha3 Ha2) in Hlight.
      fold R in Hheavy.
      assert (HD3 : 10 * M - 24 * fst c <= 3 * M) by (unfold th in *; lia).
      set (m' := Z.of_nat (length b')) in *. set (nn := Z.of_nat n) in *.
      set (beta := fsum (bigw C) R) in *. rewrite Ebeta in Hlight.
      assert (Hnn4 : 4 <= nn) by (unfold nn; lia).
      assert (Hb0 : 0 <= beta) by (apply fsum_bigw_nonneg).
      pose proof (xs_nonneg valueof C b' Hhf) as Hxs0.
      assert (Hp : M * beta <= M * nn) by (apply Z.mul_le_mono_nonneg_l; lia).
      assert (Hz : M * (10 * (m' + 1)) < M * (17 * nn + 3)).
      { destruct Hcases as [Hb2n|[(Hb2n & g & HgR & Hg2 & Hgth)|
                                  (Eb1 & B & R' & m0 & En & HPR & HaB & HB0 & HBnb & HR'0 & Hpack')]].
        - (* at most n - 2 values above C/2 *)
          assert (Hp' : M * beta <= M * (nn - 2)) by (apply Z.mul_le_mono_nonneg_l; lia).
          unfold th in *. lia.
        - (* some value g with C/2 < g <= th: its bin Bg *)
          destruct (big_value_bin valueof C b' g HgR Hg2) as (Bg & HBg & HgB & Hbb).
          assert (HlB : th + 1 <= fst Bg) by (rewrite Forall_forall in Hlv; apply Hlv; exact HBg).
          pose proof (xs_lower_in valueof C (th + 1) b' Bg HC0 ltac:(lia) Hw' Hfe' Hnnb' Hlv HBg Hbb) as Hxs.
          fold R in Hxs. fold beta in Hxs. fold e0 in Hxs.
          pose proof (big_partner valueof C b' t1 c t2 Bg g HC0 Eb' Hw' Ha' Hb2' Hnnb' Hafter' Hnb
                        ltac:(unfold th in *; lia) ltac:(lia) HBg HgB Hg2 ltac:(lia)) as Hkey.
          assert (Hp2 : e0 * 2 <= e0 * beta) by (apply Z.mul_le_mono_nonneg_l; lia).
          unfold e0, th in *. lia.
        - (* n - 1 values above C/2; the optimal bin of a holds none of them *)
          pose proof (zsum_nonneg B HB0) as HzB.
          pose proof (wsumM_nobig_Fb C M B HC0 ltac:(lia) HM7 HM2 HB0 HBnb) as HWB.
          pose proof (packable_wsumMb C M R' m0 HC0 HMpos HM7 HM2 HR'0 Hpack') as HWR'.
          pose proof (fsum_bigw_nonneg C B) as HbB.
          rewrite (fsum_perm (WM C M) _ _ HPR), fsum_app in Hlight, Hheavy.
          assert (EbR : beta = fsum (bigw C) B + fsum (bigw C) R').
          { unfold beta. rewrite (fsum_perm (bigw C) _ _ HPR), fsum_app. reflexivity. }
          pose proof (xs_lower valueof C (th + 1) b' HC0 ltac:(lia) Hw' Hfe' Hnnb' Hlv) as Hxs.
          fold R in Hxs. fold beta in Hxs. fold e0 in Hxs.
          assert (Em0 : Z.of_nat m0 = nn - 1) by (unfold nn; lia).
          rewrite Em0 in HWR'.
          assert (Hbr : M * fsum (bigw C) R' <= M * beta)
            by (apply Z.mul_le_mono_nonneg_l; lia).
          assert (Hp3 : e0 * 3 <= e0 * beta) by (apply Z.mul_le_mono_nonneg_l; lia).
          unfold FbM in HWB. unfold e0, th in *. rewrite Eb1 in *. lia. }
      apply Z.mul_lt_mono_pos_l in Hz; [|lia]. unfold m', nn in Hz. lia.
  Qed.
End Medium2.

(** ---- 6. rung 2: 10 m <= 17 n + 2 unconditionally ---- *)
Section Rung2u.
  Context {A : Type} (valueof : A -> Z).

  Lemma ratio_17_2_uncond_core C (items : list A) (b : bins A) (n : nat) :
    items <> [] -> Forall (fun x : A => 0 <= valueof x) items ->
    Inv valueof C b items -> bf2 valueof C b -> 0 <= C -> (1 <= n)%nat ->
    Forall (fun y => 0 <= valueof y) (contents b) ->
    Packable C (map valueof items) n -> after_ok valueof C b ->
    (10 * length b <= 17 * n + 2)%nat.
  Proof.
    intros Hne Hnn HI Hb2 HC Hn Hnnb Hpack Hafter.
    pose proof (Inv_lt_2n valueof C b items n HI Hne Hnn Hpack) as H2n.
    destruct (medium_single_dec valueof C b) as [(E & xa & HinE & EsE & Ha3 & Ha2)|Hno1].
    - destruct (cap_pos_or_single valueof C items b n HI HC Hnnb Hpack) as [HCpos|H1]; [|lia].
      destruct (le_lt_dec 4 n) as [Hn4|Hn3]; [|lia].
      destruct HI as (Hw & Hf & Hp & Hnem & Hns & Ha).
      apply (medium_core2 valueof C b (map valueof items) n E xa); auto.
      apply Permutation_map. exact Hp.
    - pose proof (proj1 (nms_bounds valueof C items b n Hne Hnn HI Hb2 HC Hn Hnnb Hpack Hno1)). lia.
  Qed.

  Theorem ff_ratio_17_2_uncond_partial C (items : list A) (b : bins A) (n : nat) :
    items <> [] -> Forall (fun x : A => 0 <= valueof x) items ->
    first_fit valueof true C items = Ok b -> Packable C (map valueof items) n ->
    (10 * length b <= 17 * n + 2)%nat.
  Proof.
    intros Hne Hnn Hff Hpack.
    destruct (ff_facts valueof C items b n Hne Hnn Hff Hpack) as (HI & Hb2 & HC & Hn & Hnnb).
    apply (ratio_17_2_uncond_core C items b n); auto.
    apply (ff_after_ok valueof C items b n); assumption.
  Qed.

  Theorem bf_ratio_17_2_uncond_partial C (items : list A) (b : bins A) (n : nat) :
    items <> [] -> Forall (fun x : A => 0 <= valueof x) items ->
    best_fit valueof true C items = Ok b -> Packable C (map valueof items) n ->
    (10 * length b <= 17 * n + 2)%nat.
  Proof.
    intros Hne Hnn Hbf Hpack.
    destruct (bf_facts valueof C items b n Hne Hnn Hbf Hpack) as (HI & Hb2 & HC & Hn & Hnnb).
    apply (ratio_17_2_uncond_core C items b n); auto.
    apply (bf_after_ok valueof C items b n); assumption.
  Qed.

  Theorem ff_ratio_17_floor_rung2_partial C (items : list A) (b : bins A) (n : nat) :
    items <> [] -> Forall (fun x : A => 0 <= valueof x) items ->
    first_fit valueof true C items = Ok b -> MinBins C (map valueof items) n ->
    (exists k r, n = 10 * k + r /\ r < 10 /\ r <> 4 /\ r <> 7)%nat ->
    (10 * length b <= 17 * n)%nat.
  Proof.
    intros Hne Hnn Hff [Hpack _] (k & r & E & Hr & H4 & H7).
    pose proof (ff_ratio_17_2_uncond_partial C items b n Hne Hnn Hff Hpack) as H2. lia.
  Qed.

  Theorem bf_ratio_17_floor_rung2_partial C (items : list A) (b : bins A) (n : nat) :
    items <> [] -> Forall (fun x : A => 0 <= valueof x) items ->
    best_fit valueof true C items = Ok b -> MinBins C (map valueof items) n ->
    (exists k r, n = 10 * k + r /\ r < 10 /\ r <> 4 /\ r <> 7)%nat ->
    (10 * length b <= 17 * n)%nat.
  Proof.
    intros Hne Hnn Hbf [Hpack _] (k & r & E & Hr & H4 & H7).
    pose proof (bf_ratio_17_2_uncond_partial C items b n Hne Hnn Hbf Hpack) as H2. lia.
  Qed.

  Corollary ff_ratio_17_res1_partial C (items : list A) (b : bins A) (n k : nat) :
    items <> [] -> Forall (fun x : A => 0 <= valueof x) items ->
    first_fit valueof true C items = Ok b -> MinBins C (map valueof items) n ->
    (n = 10 * k + 1)%nat -> (10 * length b <= 17 * n)%nat.
  Proof.
    intros Hne Hnn Hff Hmin E. apply (ff_ratio_17_floor_rung2_partial C items b n); auto.
    exists k, 1%nat. lia.
  Qed.

  Corollary bf_ratio_17_res1_partial C (items : list A) (b : bins A) (n k : nat) :
    items <> [] -> Forall (fun x : A => 0 <= valueof x) items ->
    best_fit valueof true C items = Ok b -> MinBins C (map valueof items) n ->
    (n = 10 * k + 1)%nat -> (10 * length b <= 17 * n)%nat.
  Proof.
    intros Hne Hnn Hbf Hmin E. apply (bf_ratio_17_floor_rung2_partial C items b n); auto.
    exists k, 1%nat. lia.
  Qed.
End Rung2u.

(** ---- 7. the "pure problem", the core of the open cases, in the range where the weights decide it ----
    Bins without a value above C/2, all more than half full, the last one filled to l with
    4C/7 <= l <= 2C/3 (any-fit /\ bf2 order, so the other bins are filled above C - l/2); the
    values can be packed into n bins of capacity cap < C/2 (the room left by n values above C/2).
    Then 10 k <= 7 n + 1 for the number k of bins.  (The open cases need 10 k <= 7 n, for every l
    with C/2 < l < 2C/3; the weights WM cannot give more than 10 k <= 7 n + 2 - eps: the last bin
    weighs 8/10.) *)
Section Pure.
  Context {A : Type} (valueof : A -> Z).

  Lemma pure_problem_partial C cap (t1 : bins A) c (vs : list Z) (n : nat) :
    0 < C -> (1 <= n)%nat -> 2 * cap < C ->
    wf valueof (t1 ++ [c]) -> all_nonempty (t1 ++ [c]) -> anyfit valueof C (t1 ++ [c]) ->
    bf2 valueof C (t1 ++ [c]) -> half_full C (t1 ++ [c]) ->
    Forall (fun y => 0 <= valueof y) (contents (t1 ++ [c])) ->
    nobig valueof C c -> 4 * C <= 7 * fst c -> 3 * fst c <= 2 * C ->
    Permutation (map valueof (contents (t1 ++ [c]))) vs -> Packable cap vs n ->
    (10 * length (t1 ++ [c]) <= 7 * n + 1)%nat.
  Proof.
    intros HC Hn Hcap Hw Hnem Ha Hb2 Hhf Hnnb Hnb H7 H3 Hpv Hpack.
    assert (HC0 : 0 <= C) by lia. set (b := t1 ++ [c]) in *. set (M := 3 * fst c).
    assert (Hinc : In c b) by (unfold b; apply in_or_app; right; left; reflexivity).
    assert (Hhc : C < 2 * fst c) by (unfold half_full in Hhf; rewrite Forall_forall in Hhf; apply Hhf; exact Hinc).
    assert (Hnnc : Forall (fun y => 0 <= valueof y) (snd c)).
    { apply (contents_Forall (fun y => 0 <= valueof y)) in Hnnb.
      rewrite Forall_forall in Hnnb. apply Hnnb. exact Hinc. }
    assert (Hok : okM valueof C M (fst c) b).
    { apply (okM_last valueof C M t1 c []); auto; unfold M; lia. }
    assert (Hreg : regular valueof C (fst c) b).
    { unfold b. apply regular_app. apply reg_last; auto. lia. }
    pose proof (heavyM valueof C M (fst c) HC0 ltac:(unfold M; lia) ltac:(unfold M; lia) ltac:(unfold M; lia)
                  b 0 Hw Hnem Ha Hb2 Hhf Hok Hreg Hnnb (head2_ge_all valueof C 0 b Hnnb)) as Hheavy.
    pose proof (xs_nonneg valueof C b Hhf) as Hxs0.
    assert (Hvs : Forall (fun a => 0 <= a) vs).
    { eapply Permutation_Forall; [exact Hpv|]. rewrite Forall_map. exact Hnnb. }
    assert (Hlight : wsumM C M vs <= (7 * M - 12) * Z.of_nat n).
    { apply (packable_fsum (WM C M) cap); auto. intros g Hg Hs.
      pose proof (wsumM_small C M g HC0 ltac:(unfold M; lia) ltac:(unfold M; lia) ltac:(unfold M; lia) Hg
                    ltac:(lia)) as Hsm.
      unfold M in *. lia. }
    rewrite <- (fsum_perm (WM C M) _ _ Hpv) in Hlight.
    assert (HPhi : PhiM C M (fst c) 0 = 2 * M).
    { unfold PhiM. pose proof (bonM_spec C M 0). unfold M in *. lia. }
    assert (Hz : M * (10 * Z.of_nat (length b)) < M * (7 * Z.of_nat n + 2)) by lia.
    apply Z.mul_lt_mono_pos_l in Hz; unfold M in *; lia.
  Qed.
End Pure.

(* OPEN: Theorem ff_ratio_17_floor / bf_ratio_17_floor for n = 4, 7 mod 10:
     items <> [] -> Forall (fun x => 0 <= valueof x) items ->
     first_fit valueof true C items = Ok b -> MinBins C (map valueof items) n ->
     (10 * length b <= 17 * n)%nat.
   State of the cases (FF17SharpProofs.v, FF17FloorProofs.v and this file):
     some bin at most half full, not a single item in (C/3, C/2]       10 m <= 17 n      (sharp)
     all bins more than half full, fewer than n values above C/2       10 m <= 17 n      (sharp)
     all bins more than half full, n values above C/2                  17 n + 1   (n = 7 mod 10 open)
     a bin {a}, C/3 < a <= C/2                                         17 n + 2   (n = 4, 7 mod 10 open)
   In the last case (on paper, not formalised) the inequalities of [medium_core2] give 17 n + 1
   when fewer than n values exceed C/2 and the deficit carrier is filled to 4C/7; the obstacle is
   beta = n: then a shares its optimal bin with a value g <= C - a, whose bin Bg is filled above
   C - a, and  m <= 1.7 n + 0.3 + D - excess(Bg) - (n - 2) * 0.8 (C/2 - a) / L  with D = 0.2 the deficit.
   excess(Bg) >= D is all the order invariants give when Bg comes before the carrier, a is close
   to C/2 and the carrier close to 2C/3; the fractional relaxation attains the bound (the other
   bins then solve the pure problem with n - 1 optimal bins up to its weight bound), so
   n = 4 mod 10 needs an integrality argument as well.
   n = 7 mod 10 (m = 17 k + 12, n = 10 k + 7): every slack is below 1/10; Dosa and Sgall count
   the items above C/3 (at most one per optimal bin, two per "dedicated" bin) and use the
   parity of their number. *)

Print Assumptions ff_half_full_1_partial.
Print Assumptions bf_half_full_1_partial.
Print Assumptions ff_ratio_17_1_nms_partial.
Print Assumptions bf_ratio_17_1_nms_partial.
Print Assumptions ff_ratio_17_floor_nms1_partial.
Print Assumptions bf_ratio_17_floor_nms1_partial.
Print Assumptions ff_ratio_17_2_uncond_partial.
Print Assumptions bf_ratio_17_2_uncond_partial.
Print Assumptions ff_ratio_17_floor_rung2_partial.
Print Assumptions bf_ratio_17_floor_rung2_partial.
Print Assumptions ff_ratio_17_res1_partial.
Print Assumptions bf_ratio_17_res1_partial.
Print Assumptions pure_problem_partial.
Print Assumptions ff_half_full_beta_sharp_partial.
Print Assumptions bf_half_full_beta_sharp_partial.
Print Assumptions ff_nms_beta_sharp_partial.
Print Assumptions bf_nms_beta_sharp_partial.
