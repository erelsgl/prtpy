(** Specifications of the executable oracles of Oracle/Reach.v against Spec/Partition.v. *)
From Coq Require Import Sorting.Sorted ZifyBool.
From Prtpy Require Import Base.Prelude Model.Objectives Spec.Partition Oracle.Reach Proofs.BaseLemmas
  Proofs.ObjectivesProofs.

Local Notation srt := (sort_asc (fun x : Z => x)).
Local Notation zsorted := (StronglySorted Z.le).

(** * normalize *)

Lemma zl_eqb_eq a b : zl_eqb a b = true <-> a = b.
Proof.
  revert b; induction a as [|x s IH]; intros [|y t]; cbn [zl_eqb]; split; intros H;
    try discriminate; auto.
  - apply andb_true_iff in H. destruct H as [H1 H2]. apply IH in H2. f_equal; [lia|exact H2].
  - injection H as H1 H2. apply andb_true_iff. split; [lia|]. apply IH; exact H2.
Qed.

Lemma dedup_adj_In x l : In x (dedup_adj l) <-> In x l.
Proof.
  induction l as [|a t IH]; [reflexivity|].
  destruct t as [|b t'].
  - reflexivity.
  - change (dedup_adj (a :: b :: t'))
      with (if zl_eqb a b then dedup_adj (b :: t') else a :: dedup_adj (b :: t')).
    destruct (zl_eqb a b) eqn:E.
    + apply zl_eqb_eq in E. subst b. rewrite IH. cbn [In]. tauto.
    + cbn [In] in *. rewrite IH. tauto.
Qed.

Lemma normalize_In : forall x l, In x (normalize l) <-> In x l.
Proof.
  intros x l. unfold normalize. rewrite dedup_adj_In.
  split; apply Permutation_in; [symmetry|]; apply LexSort.Permuted_sort.
Qed.

(** * Sorted vectors *)

Lemma ins_insert x l : ins x l = insert_asc (fun x : Z => x) x l.
Proof. induction l as [|y t IH]; cbn [ins insert_asc]; auto. rewrite IH. reflexivity. Qed.

Lemma fold_ins_srt pre l : fold_right ins (srt l) pre = srt (pre ++ l).
Proof.
  induction pre as [|p pre IH]; cbn [fold_right app]; auto.
  rewrite IH, ins_insert. reflexivity.
Qed.

Lemma ins_srt x t : zsorted t -> ins x t = srt (x :: t).
Proof. intros Hs. rewrite ins_insert. cbn [sort_asc fold_right]. fold (srt t). rewrite sort_asc_id; auto. Qed.

Lemma ins_srt_cons x l : ins x (srt l) = srt (x :: l).
Proof. rewrite ins_insert. reflexivity. Qed.

Lemma ins_perm x l : Permutation (ins x l) (x :: l).
Proof. rewrite ins_insert. apply insert_asc_perm. Qed.

Lemma ins_sorted x l : zsorted l -> zsorted (ins x l).
Proof. intros Hs. rewrite ins_insert. apply (insert_asc_sorted (fun x : Z => x)). exact Hs. Qed.

Lemma sorted_tail x t : zsorted (x :: t) -> zsorted t.
Proof. intros Hs. inversion Hs; auto. Qed.

(** * One step: add v to one entry of a sorted vector *)

(** the entry that [add_each] and [add_each_cap] produce for the head [x] of the vector *)
Lemma add_each_head v x s' pre : zsorted (x :: s') ->
  fold_right ins (ins (x + v) s') pre = srt (pre ++ (x + v) :: s').
Proof. intros Hs. rewrite ins_srt by exact (sorted_tail _ _ Hs). apply fold_ins_srt. Qed.

Lemma add_each_spec v s : forall pre t, zsorted s ->
  (In t (add_each v pre s) <->
   exists i, (i < length s)%nat /\ t = srt (pre ++ update i (fun x => x + v) s)).
Proof.
  induction s as [|x s' IH]; intros pre t Hs.
  - cbn [add_each In length]. split; [tauto|]. intros (i & Hi & _). lia.
  - cbn [add_each In]. rewrite (add_each_head v x s' pre Hs), IH by exact (sorted_tail _ _ Hs). split.
    + intros [<-|(i & Hi & ->)].
      * exists O. cbn [update length]. split; [lia|reflexivity].
      * exists (S i). cbn [update length]. split; [lia|]. rewrite <- app_assoc. reflexivity.
    + intros (i & Hi & ->). destruct i as [|i].
      * left. reflexivity.
      * right. exists i. cbn [update length] in *. split; [lia|]. rewrite <- app_assoc. reflexivity.
Qed.

(** updating an index commutes with permutations, up to the choice of the index *)
Lemma perm_update (f : Z -> Z) d l1 l2 : Permutation l1 l2 -> forall i, (i < length l1)%nat ->
  exists j, (j < length l2)%nat /\ nth j l2 d = nth i l1 d /\
            Permutation (update i f l1) (update j f l2).
Proof.
  induction 1 as [|x l1 l2 P IH|x y l|l1 l2 l3 P1 IH1 P2 IH2]; intros i Hi.
  - cbn [length] in Hi. lia.
  - destruct i as [|i].
    + exists O. cbn [update length nth]. split; [lia|]. split; auto.
    + destruct (IH i) as (j & Hj & Hn & HP); [cbn [length] in Hi; lia|].
      exists (S j). cbn [update length nth]. split; [lia|]. split; auto.
  - destruct i as [|[|i]].
    + exists 1%nat. cbn [update length nth]. split; [lia|]. split; auto. apply perm_swap.
    + exists O. cbn [update length nth]. split; [lia|]. split; auto. apply perm_swap.
    + exists (S (S i)). cbn [update length nth] in *. split; [lia|]. split; auto. apply perm_swap.
  - destruct (IH1 i Hi) as (j & Hj & Hn & HP).
    destruct (IH2 j Hj) as (k & Hk & Hn' & HP').
    exists k. split; auto. split; [congruence|]. eapply perm_trans; eauto.
Qed.

Lemma add_each_perm v st s0 t : zsorted st -> Permutation st s0 ->
  (In t (add_each v [] st) <->
   exists i, (i < length s0)%nat /\ t = srt (update i (fun x => x + v) s0)).
Proof.
  intros Sst P. rewrite add_each_spec by exact Sst. cbn [app].
  split; intros (j & Hj & ->).
  - destruct (perm_update (fun x => x + v) 0 _ _ P j Hj) as (i & Hi & _ & HP).
    exists i. split; [exact Hi|]. apply sort_asc_perm_eq, HP.
  - destruct (perm_update (fun x => x + v) 0 _ _ (Permutation_sym P) j Hj) as (i & Hi & _ & HP).
    exists i. split; [exact Hi|]. apply sort_asc_perm_eq, HP.
Qed.

(** * loads *)

Lemma loads_length k vs asg : length (loads k vs asg) = k.
Proof.
  unfold loads. rewrite <- (repeat_length 0 k) at 2. generalize (repeat 0 k).
  induction (combine vs asg) as [|p ps IH]; intros s; cbn [fold_left]; auto.
  rewrite IH. apply update_length.
Qed.

Lemma zsum_fold_update (ps : list (Z * nat)) : forall s, Forall (fun p => (snd p < length s)%nat) ps ->
  zsum (fold_left (fun s p => update (snd p) (fun x => x + fst p) s) ps s) = zsum s + zsum (map fst ps).
Proof.
  induction ps as [|[v i] ps IH]; intros s H; cbn [fold_left map fst snd].
  - rewrite zsum_nil. lia.
  - inversion H as [|p' ps' Hp Hps]; subst. cbn [snd] in Hp.
    rewrite IH by (rewrite update_length; exact Hps).
    rewrite zsum_update by exact Hp. rewrite zsum_cons. lia.
Qed.

Lemma loads_sum k vs asg : length asg = length vs -> valid_asg k asg -> zsum (loads k vs asg) = zsum vs.
Proof.
  intros Hl Hv. unfold loads. rewrite zsum_fold_update.
  - rewrite zsum_repeat0, map_fst_combine by (symmetry; exact Hl). lia.
  - rewrite repeat_length. apply Forall_forall. intros [v i] Hp. apply in_combine_r in Hp.
    exact (proj1 (Forall_forall _ _) Hv i Hp).
Qed.

Lemma combine_snoc {A B} (l1 : list A) (l2 : list B) a b : length l1 = length l2 ->
  combine (l1 ++ [a]) (l2 ++ [b]) = combine l1 l2 ++ [(a, b)].
Proof.
  revert l2; induction l1 as [|x l1 IH]; intros [|y l2] H; cbn [length] in H; try discriminate; auto.
  cbn [app combine]. rewrite IH by lia. reflexivity.
Qed.

Lemma loads_snoc k vs asg v i : length asg = length vs ->
  loads k (vs ++ [v]) (asg ++ [i]) = update i (fun x => x + v) (loads k vs asg).
Proof.
  intros H. unfold loads. rewrite combine_snoc, fold_left_app by auto. reflexivity.
Qed.

Lemma Attainable_nil k s : Attainable k [] s <-> s = repeat 0 k.
Proof.
  split.
  - intros (asg & _ & _ & H). rewrite <- H. reflexivity.
  - intros ->. exists []. split; auto. split; [constructor|reflexivity].
Qed.

Lemma snoc_of_length {A} (l : list A) n : length l = S n -> exists l' a, l = l' ++ [a] /\ length l' = n.
Proof.
  intros H. destruct (exists_last (l := l)) as (l' & a & E).
  - intro; subst; discriminate.
  - exists l', a. split; auto. subst l. rewrite app_length in H. cbn [length] in H. lia.
Qed.

Lemma Attainable_snoc k vs v s :
  Attainable k (vs ++ [v]) s <->
  exists s0 i, Attainable k vs s0 /\ (i < k)%nat /\ s = update i (fun x => x + v) s0.
Proof.
  split.
  - intros (asg & HL & HV & HS).
    rewrite app_length in HL. cbn [length] in HL.
    destruct (snoc_of_length asg (length vs)) as (asg' & i & -> & HL'); [lia|].
    unfold valid_asg in HV. apply Forall_app in HV. destruct HV as [HV Hi].
    inversion Hi as [|? ? Hi' _]; subst.
    exists (loads k vs asg'), i. split; [exists asg'; auto|]. split; auto.
    rewrite loads_snoc by auto. reflexivity.
  - intros (s0 & i & (asg & HL & HV & HS) & Hi & ->).
    exists (asg ++ [i]). split; [rewrite !app_length; cbn [length]; lia|].
    split; [apply Forall_app; split; auto|].
    rewrite loads_snoc by auto. rewrite HS. reflexivity.
Qed.

Lemma Attainable_length k vs s : Attainable k vs s -> length s = k.
Proof. intros (asg & _ & _ & <-). apply loads_length. Qed.

Lemma Attainable_rev_ind k (P : list Z -> list Z -> Prop) :
  P [] (repeat 0 k) ->
  (forall vs v s i, Attainable k vs s -> P vs s -> (i < k)%nat ->
     P (vs ++ [v]) (update i (fun x => x + v) s)) ->
  forall vs s, Attainable k vs s -> P vs s.
Proof.
  intros H0 HS vs. induction vs as [|v vs IH] using rev_ind; intros s HA.
  - apply Attainable_nil in HA. subst s. exact H0.
  - apply Attainable_snoc in HA. destruct HA as (s0 & i & HA & Hi & ->). apply HS; auto.
Qed.

(** * reach *)

Lemma reach_snoc k vs v : reach k (vs ++ [v]) = reach_step v (reach k vs).
Proof. unfold reach. rewrite fold_left_app. reflexivity. Qed.

Lemma reach_step_In v states t :
  In t (reach_step v states) <-> exists s, In s states /\ In t (add_each v [] s).
Proof. unfold reach_step. rewrite normalize_In, in_flat_map. reflexivity. Qed.

Lemma srt_repeat0 k : srt (repeat 0 k) = repeat 0 k.
Proof.
  apply sort_asc_id. induction k as [|k IH]; cbn [repeat]; constructor; auto.
  apply Forall_forall. intros x Hx. apply repeat_spec in Hx. lia.
Qed.

Theorem reach_spec : forall k vs s,
  In s (reach k vs) <-> exists s', Attainable k vs s' /\ sort_asc (fun x => x) s' = s.
Proof.
  intros k vs; induction vs as [|v vs IH] using rev_ind; intros s.
  - cbn [reach fold_left In]. split.
    + intros [<-|[]]. exists (repeat 0 k). split; [apply Attainable_nil; reflexivity|apply srt_repeat0].
    + intros (s' & HA & <-). apply Attainable_nil in HA. subst s'. left. symmetry. apply srt_repeat0.
  - rewrite reach_snoc, reach_step_In. split.
    + intros (st & Hst & Ht). apply IH in Hst. destruct Hst as (s0 & HA & <-).
      apply (add_each_perm v _ s0) in Ht; [|apply sort_asc_sorted|apply sort_asc_perm].
      destruct Ht as (i & Hi & ->). rewrite (Attainable_length _ _ _ HA) in Hi.
      exists (update i (fun x => x + v) s0). split; [|reflexivity].
      apply Attainable_snoc. exists s0, i. auto.
    + intros (s' & HA & <-). apply Attainable_snoc in HA.
      destruct HA as (s0 & i & HA & Hi & ->). rewrite <- (Attainable_length _ _ _ HA) in Hi.
      exists (srt s0). split; [apply IH; exists s0; auto|].
      apply (add_each_perm v _ s0); [apply sort_asc_sorted|apply sort_asc_perm|]. exists i. auto.
Qed.

Lemma reach_sorted k vs s : In s (reach k vs) -> zsorted s.
Proof. intros H. apply reach_spec in H. destruct H as (s' & _ & <-). apply sort_asc_sorted. Qed.

Lemma reach_length k vs s : In s (reach k vs) -> length s = k.
Proof.
  intros H. apply reach_spec in H. destruct H as (s' & HA & <-).
  rewrite sort_asc_length. eapply Attainable_length; eauto.
Qed.

(** * value is invariant under permutation *)

Lemma value_sorted_perm o s : value o (sort_asc (fun x => x) s) false = value o s false.
Proof. apply value_perm, sort_asc_perm. Qed.

(** * opt_value *)

Lemma min_over_map f l : forall best, min_over f best l = zmin_list best (map f l).
Proof. induction l as [|s t IH]; intros best; cbn [min_over map zmin_list]; auto. Qed.

Lemma min_over_spec f s0 t : exists s, In s (s0 :: t) /\ min_over f (f s0) t = f s /\
  forall s', In s' (s0 :: t) -> f s <= f s'.
Proof.
  rewrite min_over_map. destruct (zmin_list_le (f s0) (map f t)) as [L1 L2].
  rewrite Forall_forall in L2.
  assert (exists s, In s (s0 :: t) /\ zmin_list (f s0) (map f t) = f s) as (s & Hs & E).
  { destruct (zmin_list_in (f s0) (map f t)) as [H|H]; [exists s0; split; [left|]; auto|].
    apply in_map_iff in H. destruct H as (s & E & Hs). exists s. split; [right|]; auto. }
  exists s. split; [exact Hs|]. split; [exact E|]. rewrite <- E.
  intros s' [<-|Hs']; [exact L1|]. apply L2, in_map, Hs'.
Qed.

Lemma Attainable_exists k vs : (1 <= k)%nat -> exists s, Attainable k vs s.
Proof.
  intros Hk. exists (loads k vs (repeat O (length vs))), (repeat O (length vs)).
  split; [apply repeat_length|]. split; auto.
  apply Forall_forall. intros i Hi. apply repeat_spec in Hi. lia.
Qed.

Theorem opt_value_spec : forall o k vs, (1 <= k)%nat ->
  exists v, opt_value o k vs = Some v /\ Opt o k vs v.
Proof.
  intros o k vs Hk. unfold opt_value.
  destruct (reach k vs) as [|s0 t] eqn:E.
  - exfalso. destruct (Attainable_exists k vs Hk) as (s & HA).
    assert (H : In (srt s) (reach k vs)) by (apply reach_spec; exists s; auto).
    rewrite E in H. exact H.
  - destruct (min_over_spec (fun x => value o x false) s0 t) as (s & Hs & Hv & Hmin).
    rewrite <- E in Hs, Hmin. eexists. split; [reflexivity|]. rewrite Hv. split.
    + apply reach_spec in Hs. destruct Hs as (s' & HA & <-). exists s'. split; auto.
      symmetry. apply value_sorted_perm.
    + intros s' HA. rewrite <- (value_sorted_perm o s'). apply Hmin, reach_spec. exists s'; auto.
Qed.

(** * bin covering *)

Lemma Forall_srt (P : Z -> Prop) s : Forall P (srt s) <-> Forall P s.
Proof. split; apply Permutation_Forall; [|symmetry]; apply sort_asc_perm. Qed.

Lemma coverable_b_spec C vs n : coverable_b C vs n = true <-> Coverable C vs n.
Proof.
  destruct n as [|n]; cbn [coverable_b].
  - split; auto. intros _. left; reflexivity.
  - rewrite existsb_exists. split.
    + intros (s & Hs & Hf). right. apply reach_spec in Hs. destruct Hs as (s' & HA & HS).
      exists s'. split; auto. rewrite forallb_forall in Hf.
      apply Forall_srt. rewrite HS. apply Forall_forall. intros x Hx. apply Hf in Hx. lia.
    + intros [H|(s & HA & HF)]; [discriminate|]. exists (srt s). split.
      * apply reach_spec. exists s; auto.
      * apply forallb_forall. intros x Hx. apply Forall_srt in HF.
        rewrite Forall_forall in HF. apply HF in Hx. lia.
Qed.

(** merging the first two bins *)
Definition merge2 (s : list Z) : list Z :=
  match s with a :: b :: r => (a + b) :: r | _ => s end.

Lemma merge2_update v i s : (2 <= length s)%nat ->
  merge2 (update i (fun x => x + v) s) = update (pred i) (fun x => x + v) (merge2 s).
Proof.
  destruct s as [|a [|b r]]; cbn [length]; intros H; try lia.
  destruct i as [|[|i]]; cbn [update merge2 pred]; try reflexivity; f_equal; lia.
Qed.

Lemma Attainable_merge2 m : forall vs s,
  Attainable (S (S m)) vs s -> Attainable (S m) vs (merge2 s).
Proof.
  apply Attainable_rev_ind.
  - apply Attainable_nil. reflexivity.
  - intros vs v s i HA IH Hi.
    rewrite merge2_update by (rewrite (Attainable_length _ _ _ HA); lia).
    apply Attainable_snoc. exists (merge2 s), (pred i). split; [exact IH|]. split; [lia|reflexivity].
Qed.

Lemma merge2_covered C s : 0 <= C -> Forall (fun x => C <= x) s -> Forall (fun x => C <= x) (merge2 s).
Proof.
  intros HC HF. destruct s as [|a [|b r]]; cbn [merge2]; auto.
  inversion HF as [|? ? Ha HF']; subst. inversion HF' as [|? ? Hb HF'']; subst.
  constructor; auto. lia.
Qed.

Lemma Coverable_down1 C vs n : 0 <= C -> Coverable C vs (S n) -> Coverable C vs n.
Proof.
  intros HC [H|(s & HA & HF)]; [discriminate|].
  destruct n as [|m]; [left; reflexivity|].
  right. exists (merge2 s). split; [apply Attainable_merge2; exact HA|apply merge2_covered; auto].
Qed.

Lemma Coverable_down C vs n m : 0 <= C -> (m <= n)%nat -> Coverable C vs n -> Coverable C vs m.
Proof.
  intros HC Hle. induction Hle as [|n Hle IH]; auto.
  intros H. apply IH. apply Coverable_down1; auto.
Qed.

(** number of non-zero entries: each value makes at most one more bin non-zero *)
Fixpoint nnz (s : list Z) : nat :=
  match s with [] => O | x :: t => ((if Z.eqb x 0 then O else 1%nat) + nnz t)%nat end.

Lemma nnz_update f s : forall i, (nnz (update i f s) <= S (nnz s))%nat.
Proof.
  induction s as [|x t IH]; intros [|i]; cbn [update nnz]; try lia.
  - destruct (x =? 0), (f x =? 0); lia.
  - specialize (IH i). lia.
Qed.

Lemma nnz_repeat0 k : nnz (repeat 0 k) = O.
Proof. induction k as [|k IH]; cbn [repeat nnz]; auto. Qed.

Lemma nnz_all s : Forall (fun x => 0 < x) s -> nnz s = length s.
Proof.
  induction 1 as [|x t Hx Ht IH]; cbn [nnz length]; auto.
  destruct (x =? 0) eqn:E; lia.
Qed.

Lemma Attainable_nnz k : forall vs s, Attainable k vs s -> (nnz s <= length vs)%nat.
Proof.
  apply Attainable_rev_ind.
  - rewrite nnz_repeat0. lia.
  - intros vs v s i _ IH _. pose proof (nnz_update (fun x => x + v) s i) as H.
    rewrite app_length. cbn [length]. lia.
Qed.

Lemma Coverable_bound C vs n : 0 < C -> Coverable C vs n -> (n <= length vs)%nat.
Proof.
  intros HC [->|(s & HA & HF)]; [lia|].
  pose proof (Attainable_length _ _ _ HA) as HL. apply Attainable_nnz in HA.
  rewrite nnz_all in HA; [lia|].
  eapply Forall_impl; [|exact HF]. cbn beta. intros x Hx. lia.
Qed.

Lemma max_cover_from_spec C vs : 0 <= C -> forall fuel n,
  Coverable C vs n -> (forall m, Coverable C vs m -> (m <= n + fuel)%nat) ->
  MaxCover C vs (max_cover_from fuel C vs n).
Proof.
  intros HC. induction fuel as [|fuel IH]; intros n Hn Hb; cbn [max_cover_from].
  - split; auto. intros m Hm. apply Hb in Hm. lia.
  - destruct (coverable_b C vs (S n)) eqn:E.
    + apply IH; [apply coverable_b_spec; exact E|]. intros m Hm. apply Hb in Hm. lia.
    + split; auto. intros m Hm. destruct (le_lt_dec m n) as [Hle|Hlt]; auto. exfalso.
      assert (Hc : Coverable C vs (S n)) by (apply (Coverable_down C vs m); auto; lia).
      apply coverable_b_spec in Hc. congruence.
Qed.

(** the positivity hypothesis on the values is not needed *)
Theorem max_cover_spec_strong : forall C vs, 0 < C -> MaxCover C vs (max_cover C vs).
Proof.
  intros C vs HC. unfold max_cover. apply max_cover_from_spec; [lia|left; reflexivity|].
  intros m Hm. cbn [Nat.add]. apply (Coverable_bound C); auto.
Qed.

Theorem max_cover_spec : forall C vs, 0 < C -> Forall (fun v => 0 < v) vs ->
  MaxCover C vs (max_cover C vs).
Proof. intros C vs HC _. apply max_cover_spec_strong; exact HC. Qed.

(** * balanced two-way partition *)

Lemma in_cons_eq {A} (p y : A) t : In p (y :: t) <-> p = y \/ In p t.
Proof. cbn [In]. split; intros [H|H]; auto. Qed.

Lemma ins_pair_In p x l : In p (ins_pair x l) <-> p = x \/ In p l.
Proof.
  induction l as [|y t IH]; cbn [ins_pair].
  - rewrite in_cons_eq. reflexivity.
  - destruct ((fst x =? fst y) && (snd x =? snd y)) eqn:E.
    + assert (Hxy : x = y).
      { apply andb_true_iff in E. destruct E as [E1 E2]. destruct x as [x1 x2], y as [y1 y2].
        cbn [fst snd] in *. f_equal; lia. }
      subst y. rewrite in_cons_eq. tauto.
    + destruct (pair_leb x y).
      * rewrite in_cons_eq. reflexivity.
      * rewrite !in_cons_eq, IH. tauto.
Qed.

Definition sstep (st : list (Z * Z)) (v : Z) : list (Z * Z) :=
  fold_left (fun acc p => ins_pair (fst p + v, snd p + 1) acc) st st.

Lemma fold_ins_pair_In (g : Z * Z -> Z * Z) q l : forall acc,
  In q (fold_left (fun acc p => ins_pair (g p) acc) l acc) <->
  In q acc \/ exists p, In p l /\ q = g p.
Proof.
  induction l as [|a l IH]; intros acc; cbn [fold_left].
  - split; auto. intros [H|(p & [] & _)]; auto.
  - rewrite IH, ins_pair_In. split.
    + intros [[H|H]|(p & Hp & H)]; auto.
      * right. exists a. split; [left; reflexivity|exact H].
      * right. exists p. split; [right; exact Hp|exact H].
    + intros [H|(p & [Hp|Hp] & H)]; auto.
      * subst p. auto.
      * right. exists p. auto.
Qed.

Lemma sstep_In q st v :
  In q (sstep st v) <-> In q st \/ exists p, In p st /\ q = (fst p + v, snd p + 1).
Proof. unfold sstep. apply (fold_ins_pair_In (fun p => (fst p + v, snd p + 1))). Qed.

Lemma side_states_unfold vs : side_states vs = fold_left sstep vs [(0, 0)].
Proof. reflexivity. Qed.

Lemma side_fold_spec vs : forall st s c,
  In (s, c) (fold_left sstep vs st) <->
  exists s0 c0 mask, In (s0, c0) st /\ length mask = length vs /\
                     s = s0 + side_sum vs mask /\ c = c0 + side_count mask.
Proof.
  induction vs as [|v vs IH]; intros st s c; cbn [fold_left].
  - split.
    + intros H. exists s, c, []. cbn [length side_sum side_count]. repeat split; auto; lia.
    + intros (s0 & c0 & mask & Hin & HL & Hs & Hc).
      destruct mask as [|b mask]; [|discriminate].
      cbn [side_sum side_count] in *. replace s with s0 by lia. replace c with c0 by lia. exact Hin.
  - rewrite IH. split.
    + intros (s1 & c1 & mask & Hin & HL & Hs & Hc). apply sstep_In in Hin.
      destruct Hin as [Hin|([s0 c0] & Hin & Heq)].
      * exists s1, c1, (false :: mask). cbn [length side_sum side_count].
        repeat split; auto; lia.
      * cbn [fst snd] in Heq. injection Heq as -> ->.
        exists s0, c0, (true :: mask). cbn [length side_sum side_count].
        repeat split; auto; lia.
    + intros (s0 & c0 & mask & Hin & HL & Hs & Hc).
      destruct mask as [|b mask]; [discriminate|].
      cbn [length side_sum side_count] in *. destruct b.
      * exists (s0 + v), (c0 + 1), mask. split.
        -- apply sstep_In. right. exists (s0, c0). split; auto.
        -- repeat split; lia.
      * exists s0, c0, mask. split; [apply sstep_In; left; exact Hin|]. repeat split; lia.
Qed.

Lemma side_states_spec vs s c :
  In (s, c) (side_states vs) <->
  exists mask, length mask = length vs /\ side_sum vs mask = s /\ side_count mask = c.
Proof.
  rewrite side_states_unfold, side_fold_spec. split.
  - intros (s0 & c0 & mask & [Hin|[]] & HL & Hs & Hc). injection Hin as <- <-.
    exists mask. repeat split; auto; lia.
  - intros (mask & HL & Hs & Hc). exists 0, 0, mask. split; [left; reflexivity|].
    repeat split; auto; lia.
Qed.

Lemma balanced_mask_exists n : exists mask, length mask = n /\
  (2 * side_count mask - Z.of_nat n = 0 \/ 2 * side_count mask - Z.of_nat n = 1).
Proof.
  induction n as [|n (mask & HL & H)].
  - exists []. cbn [length side_count]. split; auto.
  - destruct H as [H|H].
    + exists (true :: mask). cbn [length side_count]. split; [lia|]. right. lia.
    + exists (false :: mask). cbn [length side_count]. split; [lia|]. left. lia.
Qed.

Lemma opt_balanced2_In d vs x :
  In x (map (fun p => Z.abs (2 * fst p - zsum vs))
            (filter (fun p => Z.abs (2 * snd p - Z.of_nat (length vs)) <=? d) (side_states vs))) <->
  exists mask, balanced_split d vs mask /\ split_diff vs mask = x.
Proof.
  rewrite in_map_iff. split.
  - intros ([s c] & Hx & Hf). apply filter_In in Hf. destruct Hf as [Hin Hg].
    apply side_states_spec in Hin. destruct Hin as (mask & HL & Hs & Hc).
    cbn [fst snd] in *. exists mask. split.
    + split; auto. rewrite Hc. lia.
    + unfold split_diff. rewrite Hs. exact Hx.
  - intros (mask & [HL Hb] & Hx). exists (side_sum vs mask, side_count mask). cbn [fst snd].
    split; [exact Hx|]. apply filter_In. split.
    + apply side_states_spec. exists mask. auto.
    + cbn [snd]. lia.
Qed.

(** the hypothesis [vs <> []] is not needed *)
Theorem opt_balanced2_spec_strong : forall d vs, 1 <= d ->
  exists v, opt_balanced2 d vs = Some v /\ OptBalanced d vs v.
Proof.
  intros d vs Hd. unfold opt_balanced2. cbv zeta.
  pose proof (opt_balanced2_In d vs) as HIn.
  destruct (map _ _) as [|x l].
  - exfalso. destruct (balanced_mask_exists (length vs)) as (mask & HL & Hb).
    apply (HIn (split_diff vs mask)). exists mask. split; auto. split; auto. lia.
  - exists (zmin_list x l). split; auto. split.
    + apply HIn. destruct (zmin_list_in x l) as [H|H]; [left; auto|right; exact H].
    + intros mask Hm. assert (H : In (split_diff vs mask) (x :: l)) by (apply HIn; exists mask; auto).
      destruct (zmin_list_le x l) as [H1 H2]. rewrite Forall_forall in H2.
      destruct H as [<-|H]; auto.
Qed.

Theorem opt_balanced2_spec : forall d vs, 1 <= d -> vs <> [] ->
  exists v, opt_balanced2 d vs = Some v /\ OptBalanced d vs v.
Proof. intros d vs Hd _. apply opt_balanced2_spec_strong; exact Hd. Qed.

(** * bin packing *)

Lemma add_each_cap_spec C v s : forall pre t, zsorted s ->
  (In t (add_each_cap C v pre s) <->
   exists i, (i < length s)%nat /\ nth i s 0 + v <= C /\
             t = srt (pre ++ update i (fun x => x + v) s)).
Proof.
  induction s as [|x s' IH]; intros pre t Hs.
  - cbn [add_each_cap In length]. split; [tauto|]. intros (i & Hi & _). lia.
  - cbn [add_each_cap]. rewrite in_app_iff, (add_each_head v x s' pre Hs), IH by exact (sorted_tail _ _ Hs).
    split.
    + intros [H|(i & Hi & Hc & ->)].
      * destruct (x + v <=? C) eqn:E; [|destruct H]. destruct H as [<-|[]].
        exists O. cbn [update length nth]. split; [lia|]. split; [lia|reflexivity].
      * exists (S i). cbn [update length nth]. split; [lia|]. split; [exact Hc|].
        rewrite <- app_assoc. reflexivity.
    + intros (i & Hi & Hc & ->). destruct i as [|i].
      * left. cbn [update nth] in *. destruct (x + v <=? C) eqn:E; [left; reflexivity|lia].
      * right. exists i. cbn [update length nth] in *. split; [lia|]. split; [exact Hc|].
        rewrite <- app_assoc. reflexivity.
Qed.

Lemma pack_states_snoc C vs v : pack_states C (vs ++ [v]) = pack_step C v (pack_states C vs).
Proof. unfold pack_states. rewrite fold_left_app. reflexivity. Qed.

Lemma pack_step_In C v states t :
  In t (pack_step C v states) <->
  exists s, In s states /\ (t = ins v s \/ In t (add_each_cap C v [] s)).
Proof.
  unfold pack_step. rewrite normalize_In, in_flat_map. split.
  - intros (s & Hs & [H|H]); exists s; auto.
  - intros (s & Hs & [H|H]); exists s; split; auto; [left; auto|right; auto].
Qed.

Lemma Forall_update_nth (P : Z -> Prop) (f : Z -> Z) d l : forall i,
  Forall P l -> P (f (nth i l d)) -> Forall P (update i f l).
Proof.
  induction l as [|x t IH]; intros [|i] HF Hp; cbn [update nth] in *; auto.
  - inversion HF; subst. constructor; auto.
  - inversion HF; subst. constructor; auto.
Qed.

Lemma Attainable_extend k : forall vs s, Attainable k vs s -> Attainable (S k) vs (s ++ [0]).
Proof.
  apply (Attainable_rev_ind k (fun vs s => Attainable (S k) vs (s ++ [0]))).
  - apply Attainable_nil. symmetry. apply repeat_cons.
  - intros vs v s i HA IH Hi.
    rewrite <- update_app_l by (rewrite (Attainable_length _ _ _ HA); exact Hi).
    apply Attainable_snoc. exists (s ++ [0]), i. split; [exact IH|]. split; [lia|reflexivity].
Qed.

Lemma Attainable_nonneg k : forall vs s, Attainable k vs s ->
  Forall (fun v => 0 <= v) vs -> Forall (fun x => 0 <= x) s.
Proof.
  apply (Attainable_rev_ind k (fun vs s => Forall _ vs -> Forall _ s)).
  - intros _. apply Forall_forall. intros x Hx. apply repeat_spec in Hx. lia.
  - intros vs v s i _ IH _ HF. apply Forall_app in HF. destruct HF as [HF Hv].
    apply Forall_inv in Hv. specialize (IH HF). apply (Forall_update_nth _ _ 0); auto.
    destruct (Nat.lt_ge_cases i (length s)) as [Hlt|Hge].
    + pose proof (nth_In s 0 Hlt) as Hin. rewrite Forall_forall in IH. apply IH in Hin. lia.
    + rewrite nth_overflow by exact Hge. lia.
Qed.

Definition nz (x : Z) : bool := negb (x =? 0).

Lemma filter_nz_repeat0 k : filter nz (repeat 0 k) = [].
Proof. induction k as [|k IH]; cbn [repeat filter]; auto. Qed.

Lemma filter_nz_all s : Forall (fun x => 0 < x) s -> filter nz s = s.
Proof.
  induction 1 as [|x t Hx Ht IH]; cbn [filter]; auto.
  unfold nz at 1. destruct (x =? 0) eqn:E; [lia|]. cbn [negb]. rewrite IH. reflexivity.
Qed.

Lemma filter_length_le' {T} (f : T -> bool) l : (length (filter f l) <= length l)%nat.
Proof. induction l as [|x t IH]; cbn [filter length]; auto. destruct (f x); cbn [length]; lia. Qed.

(** soundness: every state is the sorted load vector of a feasible packing without empty bin *)
Lemma pack_sound C vs : Forall (fun v => 0 < v <= C) vs ->
  forall s, In s (pack_states C vs) ->
  zsorted s /\ Forall (fun x => 0 < x <= C) s /\
  exists s', Attainable (length s) vs s' /\ Permutation s' s.
Proof.
  induction vs as [|v vs IH] using rev_ind; intros HF s Hs.
  - cbn [pack_states fold_left In] in Hs. destruct Hs as [<-|[]].
    split; [constructor|]. split; [constructor|].
    exists []. split; [apply Attainable_nil; reflexivity|constructor].
  - apply Forall_app in HF. destruct HF as [HF Hv]. inversion Hv as [|? ? Hv' _]; subst.
    rewrite pack_states_snoc, pack_step_In in Hs. destruct Hs as (st & Hst & Hs).
    destruct (IH HF st Hst) as (Sst & Fst & s0 & HA & HP).
    pose proof (Permutation_length HP) as HLen.
    destruct Hs as [->|Hs].
    + split; [apply ins_sorted; exact Sst|]. split.
      * eapply Permutation_Forall; [symmetry; apply ins_perm|]. constructor; auto.
      * exists (s0 ++ [v]). split.
        -- rewrite (Permutation_length (ins_perm v st)). cbn [length].
           apply Attainable_snoc. exists (s0 ++ [0]), (length st). split.
           ++ apply Attainable_extend. exact HA.
           ++ split; [lia|]. rewrite <- HLen, update_app_r. rewrite Z.add_0_l. reflexivity.
        -- rewrite ins_perm. rewrite <- Permutation_cons_append. constructor. exact HP.
    + apply add_each_cap_spec in Hs; [|exact Sst]. destruct Hs as (j & Hj & Hc & ->).
      cbn [app].
      assert (Hpos : 0 < nth j st 0).
      { pose proof (nth_In st 0 Hj) as Hin. rewrite Forall_forall in Fst. apply Fst in Hin. lia. }
      split; [apply sort_asc_sorted|]. split.
      * apply Forall_srt. apply (Forall_update_nth _ _ 0); auto. lia.
      * rewrite sort_asc_length, update_length.
        destruct (perm_update (fun x => x + v) 0 _ _ (Permutation_sym HP) j Hj)
          as (i & Hi & _ & HP').
        exists (update i (fun x => x + v) s0). split.
        -- apply Attainable_snoc. exists s0, i. split; auto. split; [lia|reflexivity].
        -- rewrite sort_asc_perm. symmetry. exact HP'.
Qed.

(** completeness: the non-empty bins of any feasible packing form a state *)
Lemma pack_complete C vs : Forall (fun v => 0 < v <= C) vs ->
  forall k s', Attainable k vs s' -> Forall (fun x => x <= C) s' ->
  In (srt (filter nz s')) (pack_states C vs).
Proof.
  induction vs as [|v vs IH] using rev_ind; intros HF k s' HA HC.
  - apply Attainable_nil in HA. subst s'. rewrite filter_nz_repeat0. left. reflexivity.
  - apply Forall_app in HF. destruct HF as [HF Hv]. inversion Hv as [|? ? Hv' _]; subst.
    apply Attainable_snoc in HA. destruct HA as (L & i & HA & Hi & ->).
    assert (Hnn : Forall (fun x => 0 <= x) L).
    { apply (Attainable_nonneg k vs); auto. eapply Forall_impl; [|exact HF].
      cbn beta. intros x Hx. lia. }
    rewrite <- (Attainable_length _ _ _ HA) in Hi.
    destruct (update_split i (fun x => x + v) L Hi) as (l1 & x & l2 & EL & Hl1 & EU).
    rewrite EU in *. clear EU.
    apply Forall_app in HC. destruct HC as [HC1 HC2].
    inversion HC2 as [|? ? Hxv HC2']; subst x0 l.
    assert (Hx0 : 0 <= x).
    { rewrite EL in Hnn. apply Forall_app in Hnn. destruct Hnn as [_ Hnn].
      inversion Hnn; subst; auto. }
    assert (HCL : Forall (fun x => x <= C) L).
    { rewrite EL. apply Forall_app. split; auto. constructor; auto. lia. }
    specialize (IH HF k L HA HCL).
    rewrite pack_states_snoc, pack_step_In. exists (srt (filter nz L)). split; [exact IH|].
    rewrite EL, !filter_app. cbn [filter].
    assert (Hnzv : nz (x + v) = true) by (unfold nz; destruct (x + v =? 0) eqn:E; [lia|reflexivity]).
    rewrite Hnzv.
    destruct (nz x) eqn:Enz.
    + right. apply add_each_cap_spec; [apply sort_asc_sorted|]. cbn [app].
      set (A := filter nz l1) in *. set (B := filter nz l2) in *.
      assert (P : Permutation (A ++ x :: B) (srt (A ++ x :: B))) by (symmetry; apply sort_asc_perm).
      assert (Hlt : (length A < length (A ++ x :: B))%nat)
        by (rewrite app_length; cbn [length]; lia).
      destruct (perm_update (fun y => y + v) 0 _ _ P (length A) Hlt) as (j & Hj & Hn & HP).
      rewrite nth_middle in Hn. rewrite update_app_r in HP.
      exists j. split; [exact Hj|]. split; [lia|]. apply sort_asc_perm_eq. exact HP.
    + left. assert (x = 0) by (unfold nz in Enz; destruct (x =? 0) eqn:E; [lia|discriminate]).
      subst x. rewrite Z.add_0_l. rewrite ins_srt_cons.
      apply sort_asc_perm_eq. symmetry. apply Permutation_middle.
Qed.

Theorem pack_states_spec : forall C vs s, 0 <= C -> Forall (fun v => 0 < v <= C) vs ->
  (In s (pack_states C vs) <->
   StronglySorted Z.le s /\ Forall (fun x => 0 < x <= C) s /\
   exists s', Attainable (length s) vs s' /\ Permutation s' s).
Proof.
  intros C vs s _ HF. split; [apply pack_sound; exact HF|].
  intros (Hs & HFs & s' & HA & HP).
  assert (HFs' : Forall (fun x => 0 < x <= C) s') by (eapply Permutation_Forall; [symmetry; exact HP|exact HFs]).
  assert (E : srt (filter nz s') = s).
  { rewrite filter_nz_all.
    - apply sorted_perm_sort_asc; auto. symmetry; exact HP.
    - eapply Forall_impl; [|exact HFs']. cbn beta. intros x Hx. lia. }
  rewrite <- E. apply (pack_complete C vs HF (length s) s' HA).
  eapply Forall_impl; [|exact HFs']. cbn beta. intros x Hx. lia.
Qed.

Lemma pack_states_nonempty C vs : pack_states C vs <> [].
Proof.
  induction vs as [|v vs IH] using rev_ind; [discriminate|].
  rewrite pack_states_snoc. destruct (pack_states C vs) as [|s t]; [congruence|].
  intros E. assert (H : In (ins v s) (pack_step C v (s :: t))).
  { apply pack_step_In. exists s. split; [left; reflexivity|left; reflexivity]. }
  rewrite E in H. exact H.
Qed.

Lemma min_len_over l : forall best,
  Z.of_nat (min_len best l) = min_over (fun s => Z.of_nat (length s)) (Z.of_nat best) l.
Proof.
  induction l as [|s t IH]; intros best; cbn [min_len min_over]; auto.
  rewrite IH, Nat2Z.inj_min. reflexivity.
Qed.

Lemma min_len_spec s0 t : exists s, In s (s0 :: t) /\ min_len (length s0) t = length s /\
  forall s', In s' (s0 :: t) -> (length s <= length s')%nat.
Proof.
  destruct (min_over_spec (fun s => Z.of_nat (length s)) s0 t) as (s & Hs & E & L).
  rewrite <- min_len_over in E. exists s. split; [exact Hs|]. split; [lia|].
  intros s' Hs'. apply L in Hs'. lia.
Qed.

(** the hypothesis [0 < C] is not needed *)
Theorem min_bins_spec_strong : forall C vs, Forall (fun v => 0 <= v <= C) vs ->
  MinBins C (filter (fun v => negb (v =? 0)) vs) (min_bins C vs).
Proof.
  intros C vs HF. unfold min_bins. fold nz.
  set (vs' := filter nz vs).
  assert (HF' : Forall (fun v => 0 < v <= C) vs').
  { apply Forall_forall. intros x Hx. apply filter_In in Hx. destruct Hx as [Hx Hn].
    rewrite Forall_forall in HF. apply HF in Hx. unfold nz in Hn.
    destruct (x =? 0) eqn:E; [discriminate|]. lia. }
  pose proof (pack_states_nonempty C vs') as Hne.
  destruct (pack_states C vs') as [|s0 t] eqn:E; [congruence|].
  destruct (min_len_spec s0 t) as (s & Hs & -> & Hmin). rewrite <- E in Hs, Hmin.
  split.
  - destruct (pack_sound C vs' HF' s Hs) as (_ & HFs & s' & HA & HP).
    exists s'. split; auto. eapply Permutation_Forall; [symmetry; exact HP|].
    eapply Forall_impl; [|exact HFs]. cbn beta. intros x Hx. lia.
  - intros m (s' & HA & HC).
    apply (pack_complete C vs' HF' m s' HA), Hmin in HC.
    rewrite sort_asc_length in HC. pose proof (filter_length_le' nz s') as Hfl.
    rewrite (Attainable_length _ _ _ HA) in Hfl. lia.
Qed.

Theorem min_bins_spec : forall C vs, 0 < C -> Forall (fun v => 0 <= v <= C) vs ->
  MinBins C (filter (fun v => negb (v =? 0)) vs) (min_bins C vs).
Proof. intros C vs _ HF. apply min_bins_spec_strong; exact HF. Qed.

Print Assumptions normalize_In.
Print Assumptions reach_spec.
Print Assumptions value_sorted_perm.
Print Assumptions opt_value_spec.
Print Assumptions pack_states_spec.
Print Assumptions min_bins_spec.
Print Assumptions max_cover_spec.
Print Assumptions opt_balanced2_spec.
Print Assumptions side_states_spec.
Print Assumptions coverable_b_spec.
