(** Asymptotic bounds for first-fit-decreasing below 3/2 (Model/Packing.v).

    Proved here (b = bins returned by first_fit_decreasing, n = any number of bins of capacity C
    into which the values can be packed; hypotheses: items <> [], values >= 0, nothing else):

      ffd_ratio_43_partial   :  3 * length b <= 4 * n + 2      (FFD <= 4/3 OPT + 2/3)
      ffd_ratio_54_partial   :  4 * length b <= 5 * n + 4      (FFD <= 5/4 OPT + 1)
      ffd_ratio_11_9_partial :  9 * length b <= 11 * n + 8     (FFD <= 11/9 OPT + 8/9)
                                provided no value lies in (2C/11, C/4]
      ffd_ratio_76_large     :  6 * length b <= 7 * n + 5      provided every value exceeds C/4
      ffd_119_ranges         :  the last two bounds in terms of x = first item of the last bin
                                (11 x <= 2 C gives 11/9, C < 4 x gives 7/6)

    Method.  An invariant of first-fit on a descending list, [sfit2] (stronger than [sfit] of
    FFDRatioProofs): an item y of a later bin does not fit into an earlier bin even if only the
    items of that bin that are >= y are counted (these include everything that was in the bin when
    y was placed).  Let x be the first item of the last bin.
    - If K x <= C: by [sfit2] every other bin is filled above C - x >= (K-1) C / K:
      volume argument, (K-1) (m-1) < K n  ([volume_case_q], K = P/Q).
    - Otherwise give weight 0 to the values below x ([sel]: the others exceed C/K, so a feasible set
      holds at most K-1 of them) and a weight depending on C, x and the size class to the others,
      so that a feasible set weighs <= R ([light43], [light54], [light76]) and every bin but the
      last, restricted to the values >= x, weighs >= 1 with a bounded total deficiency
      ([heavy43], [heavy54], [heavy76_chain]): a deficient bin type forbids, by [sfit2], a class of
      values in all later bins ([nofollow], [sfit2_chain]), after which that type cannot occur again.
      In sections 4 to 9 first-fit enters only through [closed] and [nf_chain]; BFD54Proofs.v derives
      [nf_chain] for every any-fit-decreasing rule and reuses [last_ratio_43], [last_ratio_54],
      [last_119_ranges].
      4/3 (x > C/4), scale 12:  12 above C-x, 8 in (C/2, C-x], 6 in (C/3, C/2], 4 in [x, C/3];
           feasible <= 16; deficient {M,S} = 10 once.
      5/4 (x > C/5), scale 8:   8 above C-x, 6 in (max(C/2, 2(C-x)/3), C-x], 5 in (C/2, 2(C-x)/3],
           4 in ((C-x)/2, C/2] (L), 3 in ((C-x)/3, (C-x)/2] (m), 2 in [x, (C-x)/3] (t);
           feasible <= 10; deficient {L,m} = 7, {L,t} = 6 (then no L follows), {m,t,t} = 7 (then no
           m or L follows): total deficiency <= 3.
      7/6 (x > C/4), scale 6:   6 above C-x, 4 in (C/2, C-x], 3 in ((C-x)/2, C/2], 2 in [x, (C-x)/2];
           feasible <= 7; deficient {L,s} = 5 once.
    All class facts are closed by lia on lists of at most 5 values.

    A [_partial] in a name marks a constant weaker than the published one, not an incomplete proof.

    For x in (2C/11, C/4] weights that depend only on C, x and the size of the value cannot give
    11/9: for C = 44, x = 10 the runs (25,10)^k, (24,11)^k and (19,19)^k are each legal
    first-fit-decreasing outputs ([ffd_mix_runs]), and their values repack as (25,19), (24,10,10),
    (11,11,11,11), so any such weights need 16/13 > 11/9.  FFD119MidProofs.v weights a value by the
    bin that holds it and proves 11/9 for that range except x in (8C/41, C/5], which is OPEN. *)
From Prtpy Require Import Base.Prelude Model.Binner Model.Packing Spec.Partition
  Proofs.BaseLemmas Proofs.BinnerLemmas Proofs.PackingProofs Proofs.FFDRatioProofs
  Proofs.BCOptimalProofs Oracle.Reach Proofs.OracleSpec.
From Coq Require Import ZifyBool Sorting.Sorted.

(** ---- 1. the values of a list that are at least x ---- *)
Definition sel (x : Z) (l : list Z) : list Z := filter (fun a => x <=? a) l.

Lemma sel_nil x : sel x [] = [].
Proof. reflexivity. Qed.

Lemma sel_cons x a l : sel x (a :: l) = if x <=? a then a :: sel x l else sel x l.
Proof. reflexivity. Qed.

Lemma sel_app x l1 l2 : sel x (l1 ++ l2) = sel x l1 ++ sel x l2.
Proof. unfold sel. apply filter_app. Qed.

Lemma sel_ge x l : Forall (fun a => x <= a) (sel x l).
Proof.
  apply Forall_forall. intros a Ha. unfold sel in Ha. apply filter_In in Ha. destruct Ha as [_ Ha]. lia.
Qed.

Lemma sel_incl x l (P : Z -> Prop) : Forall P l -> Forall P (sel x l).
Proof.
  intros H. apply Forall_forall. intros a Ha. unfold sel in Ha. apply filter_In in Ha.
  destruct Ha as [Ha _]. rewrite Forall_forall in H. apply H. exact Ha.
Qed.

Lemma sel_all x l : Forall (fun a => x <= a) l -> sel x l = l.
Proof.
  intros H. induction H as [|a l Ha Hl IH]; [reflexivity|].
  rewrite sel_cons, IH. destruct (x <=? a) eqn:E; [reflexivity|lia].
Qed.

Lemma sel_sel x y l : x <= y -> sel y (sel x l) = sel y l.
Proof.
  intros Hxy. induction l as [|a l IH]; [reflexivity|].
  rewrite !sel_cons. destruct (x <=? a) eqn:E1.
  - rewrite sel_cons, IH. reflexivity.
  - rewrite IH. destruct (y <=? a) eqn:E2; [lia|reflexivity].
Qed.

Lemma zsum_sel_le x l : Forall (fun a => 0 <= a) l -> 0 <= zsum (sel x l) <= zsum l.
Proof.
  intros H. induction H as [|a l Ha Hl IH]; [rewrite sel_nil, zsum_nil; lia|].
  rewrite sel_cons. destruct (x <=? a); rewrite ?zsum_cons; lia.
Qed.

(** ---- 2. the invariant of first-fit on a descending list ---- *)
Section SFit2.
  Context {A : Type} (valueof : A -> Z).
  Notation add := (add_to_bin valueof true).
  Notation vals bn := (map valueof (snd bn)).

  Fixpoint sfit2 (C : Z) (b : bins A) : Prop :=
    match b with
    | [] => True
    | bn :: t =>
        Forall (fun y => C < zsum (sel (valueof y) (vals bn)) + valueof y) (contents t) /\ sfit2 C t
    end.

  Lemma ff_place_sfit2 C x b : 0 <= valueof x ->
    Forall (fun z => valueof x <= valueof z) (contents b) -> wf valueof b ->
    sfit2 C b -> sfit2 C (ff_place valueof true C x b).
  Proof.
    intros Hx. induction b as [|bn t IH]; cbn [ff_place].
    - intros _ _ _. cbn [sfit2]. split; [apply Forall_nil|exact I].
    - intros Hge Hw. rewrite contents_cons in Hge. apply Forall_app in Hge. destruct Hge as [Hge1 Hge2].
      unfold wf in Hw. apply Forall_cons_iff in Hw. destruct Hw as [Hwb Hw].
      destruct (fst bn + valueof x <=? C) eqn:E; cbn [sfit2]; intros [H1 H2].
      + split; [|exact H2]. eapply Forall_impl; [|exact H1]. intros y Hy. cbv beta in Hy.
        unfold add_to_bin. cbn [snd]. rewrite map_app, sel_app, zsum_app. cbn [map].
        assert (H0 : 0 <= zsum (sel (valueof y) [valueof x])).
        { apply zsum_sel_le. constructor; [exact Hx|constructor]. }
        lia.
      + split; [|apply IH; assumption].
        eapply Permutation_Forall; [symmetry; apply ff_place_contents|].
        apply Forall_app. split; [exact H1|]. constructor; [|constructor].
        rewrite sel_all; [|rewrite Forall_map; exact Hge1].
        unfold wf_bin in Hwb. lia.
  Qed.

  Notation desc_sorted := (StronglySorted (fun a c : A => valueof c <= valueof a)).

  Lemma ff_loop_sfit2 C : forall items b b', desc_sorted items ->
    Forall (fun x => 0 <= valueof x) items ->
    Forall (fun z => Forall (fun x => valueof x <= valueof z) items) (contents b) ->
    wf valueof b -> sfit2 C b -> ff_loop valueof true C items b = Ok b' -> sfit2 C b'.
  Proof.
    induction items as [|x t IH]; intros b b' Hs Hnn Hd Hw Hh; cbn [ff_loop].
    - intros H. injection H as H. subst b'. exact Hh.
    - destruct (valueof x >? C); [intros H; discriminate H|]. intros H.
      inversion Hs as [|x' t' Hst Hxt]; subst.
      apply Forall_cons_iff in Hnn. destruct Hnn as [Hx Hnn].
      apply (IH (ff_place valueof true C x b) b'); [exact Hst|exact Hnn| | | |exact H].
      + eapply Permutation_Forall; [symmetry; apply ff_place_contents|]. apply Forall_app. split.
        * eapply Forall_impl; [|exact Hd]. intros z Hz. cbv beta in Hz.
          apply Forall_cons_iff in Hz. destruct Hz as [_ Hz]. exact Hz.
        * constructor; [exact Hxt|constructor].
      + apply (step_wf valueof C x b); [apply ff_place_step|exact Hw].
      + apply ff_place_sfit2; [exact Hx| |exact Hw|exact Hh].
        eapply Forall_impl; [|exact Hd]. intros z Hz. cbv beta in Hz.
        apply Forall_cons_iff in Hz. destruct Hz as [Hz _]. exact Hz.
  Qed.

  Lemma ffd_sfit2 C items b : Forall (fun x => 0 <= valueof x) items ->
    first_fit_decreasing valueof true C items = Ok b -> sfit2 C b.
  Proof.
    intros Hnn H. unfold first_fit_decreasing, first_fit in H.
    apply (ff_loop_sfit2 C (sort_desc valueof items) (new_bins 1) b); [apply sort_desc_sorted| | | | |exact H].
    - apply sort_desc_nonneg. exact Hnn.
    - rewrite new_bins_contents. constructor.
    - apply new_bins_wf.
    - unfold new_bins. cbn [repeat sfit2]. split; [apply Forall_nil|exact I].
  Qed.

  (** splitting at a position *)
  Lemma sfit2_app C (b1 b2 : bins A) : sfit2 C (b1 ++ b2) ->
    Forall (fun c => Forall (fun y => C < zsum (sel (valueof y) (vals c)) + valueof y) (contents b2)) b1 /\
    sfit2 C b1.
  Proof.
    induction b1 as [|c b1 IH]; cbn [app sfit2].
    - intros _. split; [constructor|exact I].
    - intros [H1 H2]. destruct (IH H2) as [I1 I2]. rewrite contents_app in H1.
      apply Forall_app in H1. destruct H1 as [H1a H1b].
      split; [constructor; [exact H1b|exact I1]|split; [exact H1a|exact I2]].
  Qed.
End SFit2.

(** ---- 3. weights lifted to a packing ---- *)
Section GenWeights.
  Variable w : Z -> Z.
  Definition gws (l : list Z) : Z := zsum (map w l).

  Lemma gws_nil : gws [] = 0.
  Proof. reflexivity. Qed.

  Lemma gws_cons a l : gws (a :: l) = w a + gws l.
  Proof. reflexivity. Qed.

  Lemma gws_app l1 l2 : gws (l1 ++ l2) = gws l1 + gws l2.
  Proof. unfold gws. rewrite map_app. apply zsum_app. Qed.

  Lemma gws_perm l1 l2 : Permutation l1 l2 -> gws l1 = gws l2.
  Proof. intros P. unfold gws. apply zsum_perm. apply Permutation_map. exact P. Qed.

  Lemma gws_nonneg l : (forall a, 0 <= w a) -> 0 <= gws l.
  Proof.
    intros Hw. induction l as [|a l IH]; [rewrite gws_nil; lia|].
    rewrite gws_cons. specialize (Hw a). lia.
  Qed.

  (** values below x weigh nothing *)
  Lemma gws_sel x l : (forall a, a < x -> w a = 0) -> gws (sel x l) = gws l.
  Proof.
    intros H0. induction l as [|a l IH]; [reflexivity|].
    rewrite sel_cons. destruct (x <=? a) eqn:E; rewrite !gws_cons, ?IH; [reflexivity|].
    rewrite (H0 a); lia.
  Qed.

  Lemma gws_concat_le K (G : list (list Z)) :
    Forall (fun g => gws g <= K) G -> gws (concat G) <= K * Z.of_nat (length G).
  Proof.
    intros H. induction H as [|g G Hg HG IH]; [cbn [concat length Z.of_nat]; rewrite gws_nil; lia|].
    cbn [concat length]. rewrite gws_app, Nat2Z.inj_succ. lia.
  Qed.

  Lemma packable_gws C K vs n :
    (forall g, Forall (fun a => 0 <= a) g -> zsum g <= C -> gws g <= K) ->
    Forall (fun a => 0 <= a) vs -> Packable C vs n -> gws vs <= K * Z.of_nat n.
  Proof.
    intros HK Hnn Hp. apply packable_gpack in Hp. destruct Hp as (G & HL & HP & HF).
    rewrite <- (gws_perm _ _ HP), <- HL. apply gws_concat_le.
    assert (Hnn' : Forall (Forall (fun a => 0 <= a)) G).
    { apply Forall_concat. eapply Permutation_Forall; [symmetry; exact HP|exact Hnn]. }
    clear HL HP. induction HF as [|g G Hg HG IH]; [constructor|].
    apply Forall_cons_iff in Hnn'. destruct Hnn' as [Hg0 HG0].
    constructor; [apply HK; assumption|apply IH; exact HG0].
  Qed.
End GenWeights.

(** ---- 4. closed bins, and what a deficient bin forbids in the later bins ---- *)
Section Chain.
  Context {A : Type} (valueof : A -> Z).
  Notation vals bn := (map valueof (snd bn)).

  (** every bin is closed for x, counting only the values >= x *)
  Definition closed (C x : Z) (t : bins A) : Prop :=
    Forall (fun bn => C < zsum (sel x (vals bn)) + x) t.

  (** P is a class of values in [x, C/2], upward closed there, and every value of P fits next to
      the values >= it of [bn]: then no value of P lies in [t].  First-fit-decreasing has this for
      every bin ([sfit2_chain]); any-fit-decreasing has it when the values >= x of [bn] are at most
      C/2 ([hfit_chain] in BFD54Proofs.v), which is the case for the deficient bins. *)
  Definition nofollow (C x : Z) (bn : bin A) (t : bins A) : Prop :=
    forall P : Z -> Prop,
      (forall y y', P y -> y <= y' -> 2 * y' <= C -> P y') -> (forall y, P y -> x <= y) ->
      Forall (fun a => 2 * a <= C) (sel x (vals bn)) ->
      (forall y, P y -> zsum (sel y (sel x (vals bn))) + y <= C) ->
      Forall (fun y => ~ P (valueof y)) (contents t).

  Fixpoint nf_chain (C x : Z) (t : bins A) : Prop :=
    match t with
    | [] => True
    | bn :: t' => nofollow C x bn t' /\ nf_chain C x t'
    end.

  Lemma sfit2_chain C x : forall t : bins A, sfit2 valueof C t -> nf_chain C x t.
  Proof.
    induction t as [|bn t IH]; cbn [sfit2 nf_chain]; [auto|]. intros [Hs Hsf]. split; [|apply IH; exact Hsf].
    intros P _ HP _ HM. rewrite Forall_forall in *. intros y Hy HPy. specialize (Hs y Hy). cbv beta in Hs.
    specialize (HM (valueof y) HPy). rewrite sel_sel in HM; [|apply HP; exact HPy]. lia.
  Qed.

  Variable w : Z -> Z.
  Notation cw b := (gws w (map valueof (contents b))).

  Lemma cw_nil : cw (@nil (bin A)) = 0.
  Proof. unfold contents, lists. cbn [map concat]. apply gws_nil. Qed.

  Lemma cw_cons x bn (t : bins A) : (forall a, a < x -> w a = 0) ->
    cw (bn :: t) = gws w (sel x (vals bn)) + cw t.
  Proof. intros H0. rewrite contents_cons, map_app, gws_app, (gws_sel w x _ H0). reflexivity. Qed.

  Lemma heavy_no C x K (P : Z -> Prop) : (forall a, a < x -> w a = 0) ->
    (forall l, Forall (fun a => x <= a) l -> C < zsum l + x -> Forall (fun a => ~ P a) l -> K <= gws w l) ->
    forall t : bins A, closed C x t -> Forall (fun y => ~ P (valueof y)) (contents t) ->
    K * Z.of_nat (length t) <= cw t.
  Proof.
    intros H0 Hbin. induction t as [|bn t IH]; intros Hcl HnP.
    - rewrite cw_nil. cbn [length Z.of_nat]. lia.
    - unfold closed in Hcl. apply Forall_cons_iff in Hcl. destruct Hcl as [Hc Hcl].
      rewrite contents_cons in HnP. apply Forall_app in HnP. destruct HnP as [HnP1 HnP2].
      specialize (IH Hcl HnP2). rewrite (cw_cons x _ _ H0). cbn [length]. rewrite Nat2Z.inj_succ.
      assert (HnPv : Forall (fun a => ~ P a) (sel x (vals bn))) by (apply sel_incl; rewrite Forall_map; exact HnP1).
      pose proof (Hbin _ (sel_ge x _) Hc HnPv). lia.
  Qed.
End Chain.

(** splits the head (as Ha) off a hypothesis H : Forall P (a :: l) *)
Ltac split_ge H Ha := apply Forall_cons_iff in H; destruct H as [Ha H].

(** for a goal about sums of [sel y] of explicit lists [a; c; ...]: splits on every comparison
    y <=? a that [sel] makes, then lia *)
Ltac sel_cases y :=
  rewrite ?sel_cons, ?sel_nil;
  repeat match goal with |- context [y <=? ?a] => destruct (y <=? a) eqn:? end;
  rewrite ?zsum_cons, ?zsum_nil; lia.

(** ---- 5. the weights for 4/3 ---- *)
Definition w43 (C x a : Z) : Z :=
  if a <? x then 0
  else if C - x <? a then 12
  else if C <? 2 * a then 8
  else if C <? 3 * a then 6
  else 4.

Lemma w43_spec C x a :
  (a < x /\ w43 C x a = 0) \/
  (x <= a /\ C - x < a /\ w43 C x a = 12) \/
  (x <= a /\ a <= C - x /\ C < 2 * a /\ w43 C x a = 8) \/
  (x <= a /\ a <= C - x /\ 2 * a <= C /\ C < 3 * a /\ w43 C x a = 6) \/
  (x <= a /\ a <= C - x /\ 3 * a <= C /\ w43 C x a = 4).
Proof.
  unfold w43. destruct (a <? x) eqn:E0; [left; lia|].
  destruct (C - x <? a) eqn:E1; [right; left; lia|].
  destruct (C <? 2 * a) eqn:E2; [right; right; left; lia|].
  destruct (C <? 3 * a) eqn:E3; [right; right; right; left; lia|].
  right; right; right; right; lia.
Qed.

Notation ws43 C x := (gws (w43 C x)).

Lemma w43_nonneg C x a : 0 <= w43 C x a.
Proof. pose proof (w43_spec C x a). lia. Qed.

Lemma w43_small C x a : a < x -> w43 C x a = 0.
Proof. intros H. pose proof (w43_spec C x a). lia. Qed.

(** a feasible set weighs at most 16 *)
Lemma light43 C x g : C < 4 * x ->
  Forall (fun a => 0 <= a) g -> zsum g <= C -> ws43 C x g <= 16.
Proof.
  intros Hx Hnn HS. rewrite <- (gws_sel (w43 C x) x g (w43_small C x)).
  pose proof (zsum_sel_le x g Hnn) as Hle. pose proof (sel_ge x g) as Hge.
  destruct (sel x g) as [|a [|c [|d [|e r]]]].
  - rewrite gws_nil. lia.
  - rewrite gws_cons, gws_nil. pose proof (w43_spec C x a). lia.
  - rewrite !gws_cons, gws_nil. rewrite !zsum_cons, zsum_nil in Hle.
    apply Forall_cons_iff in Hge. destruct Hge as [Ha Hge].
    apply Forall_cons_iff in Hge. destruct Hge as [Hc _].
    pose proof (w43_spec C x a). pose proof (w43_spec C x c). lia.
  - rewrite !gws_cons, gws_nil. rewrite !zsum_cons, zsum_nil in Hle.
    apply Forall_cons_iff in Hge. destruct Hge as [Ha Hge].
    apply Forall_cons_iff in Hge. destruct Hge as [Hc Hge].
    apply Forall_cons_iff in Hge. destruct Hge as [Hd _].
    pose proof (w43_spec C x a). pose proof (w43_spec C x c). pose proof (w43_spec C x d). lia.
  - exfalso. rewrite !zsum_cons in Hle.
    apply Forall_cons_iff in Hge. destruct Hge as [Ha Hge].
    apply Forall_cons_iff in Hge. destruct Hge as [Hc Hge].
    apply Forall_cons_iff in Hge. destruct Hge as [Hd Hge].
    apply Forall_cons_iff in Hge. destruct Hge as [He Hge].
    assert (0 <= zsum r).
    { apply zsum_nonneg. eapply Forall_impl; [|exact Hge]. intros z Hz. cbv beta in Hz. lia. }
    lia.
Qed.

(** a value in (C/3, C/2] *)
Definition isM (C a : Z) : Prop := C < 3 * a /\ 2 * a <= C.

Lemma isM_up C y y' : isM C y -> y <= y' -> 2 * y' <= C -> isM C y'.
Proof. unfold isM. lia. Qed.

(** a set of values >= x that x does not fit with weighs at least 12, except {M, S} (10: both at
    most C/2, and no value of class M fits) *)
Lemma bin43_cases C x l : C < 4 * x -> x <= C ->
  Forall (fun a => x <= a) l -> C < zsum l + x ->
  12 <= ws43 C x l \/
  (10 <= ws43 C x l /\ 3 * x <= C /\ Forall (fun a => 2 * a <= C) l /\ Exists (isM C) l /\
   forall y, isM C y -> zsum (sel y l) + y <= C).
Proof.
  intros Hx HxC Hge Hcl. destruct l as [|a [|c [|d r]]].
  - rewrite zsum_nil in Hcl. lia.
  - left. rewrite zsum_cons, zsum_nil in Hcl. rewrite gws_cons, gws_nil.
    split_ge Hge Ha. pose proof (w43_spec C x a). lia.
  - rewrite !zsum_cons, zsum_nil in Hcl. rewrite !gws_cons, gws_nil.
    split_ge Hge Ha. split_ge Hge Hc.
    assert (F : 12 <= w43 C x a + (w43 C x c + 0) \/
                (10 <= w43 C x a + (w43 C x c + 0) /\ 3 * x <= C /\ 2 * a <= C /\ 2 * c <= C /\
                 ((C < 3 * a /\ 3 * c <= C) \/ (C < 3 * c /\ 3 * a <= C)))).
    { pose proof (w43_spec C x a). pose proof (w43_spec C x c). lia. }
    destruct F as [H12|(H10 & H3x & Ha2 & Hc2 & HM)]; [left; exact H12|right].
    split; [exact H10|]. split; [exact H3x|].
    split; [constructor; [exact Ha2|constructor; [exact Hc2|constructor]]|]. split.
    + unfold isM. destruct HM as [HM|HM]; [left|right; left]; lia.
    + intros y [Hy1 Hy2]. sel_cases y.
  - left. rewrite !gws_cons.
    split_ge Hge Ha. split_ge Hge Hc. split_ge Hge Hd.
    pose proof (gws_nonneg (w43 C x) r (w43_nonneg C x)).
    pose proof (w43_spec C x a). pose proof (w43_spec C x c). pose proof (w43_spec C x d). lia.
Qed.

Lemma bin43_noM C x l : C < 4 * x -> x <= C ->
  Forall (fun a => x <= a) l -> C < zsum l + x -> Forall (fun a => ~ isM C a) l ->
  12 <= ws43 C x l.
Proof.
  intros Hx HxC Hge Hcl HnM.
  destruct (bin43_cases C x l Hx HxC Hge Hcl) as [H12|(_ & _ & _ & HM & _)]; [exact H12|].
  apply Forall_Exists_neg in HnM. contradiction.
Qed.

(** ---- 6. the weights for 5/4 ---- *)
Definition w54 (C x a : Z) : Z :=
  if a <? x then 0
  else if C - x <? a then 8
  else if C <? 2 * a then (if 2 * C - 2 * x <? 3 * a then 6 else 5)
  else if C - x <? 2 * a then 4
  else if C - x <? 3 * a then 3
  else 2.

Lemma w54_spec C x a :
  (a < x /\ w54 C x a = 0) \/
  (x <= a /\ C - x < a /\ w54 C x a = 8) \/
  (x <= a /\ a <= C - x /\ C < 2 * a /\ 2 * C - 2 * x < 3 * a /\ w54 C x a = 6) \/
  (x <= a /\ a <= C - x /\ C < 2 * a /\ 3 * a <= 2 * C - 2 * x /\ w54 C x a = 5) \/
  (x <= a /\ a <= C - x /\ 2 * a <= C /\ C - x < 2 * a /\ w54 C x a = 4) \/
  (x <= a /\ a <= C - x /\ 2 * a <= C - x /\ C - x < 3 * a /\ w54 C x a = 3) \/
  (x <= a /\ a <= C - x /\ 3 * a <= C - x /\ w54 C x a = 2).
Proof.
  unfold w54. destruct (a <? x) eqn:E0; [left; lia|].
  destruct (C - x <? a) eqn:E1; [right; left; lia|].
  destruct (C <? 2 * a) eqn:E2.
  - destruct (2 * C - 2 * x <? 3 * a) eqn:E3; [right; right; left; lia|right; right; right; left; lia].
  - destruct (C - x <? 2 * a) eqn:E4; [right; right; right; right; left; lia|].
    destruct (C - x <? 3 * a) eqn:E5; [right; right; right; right; right; left; lia|].
    right; right; right; right; right; right; lia.
Qed.

Notation ws54 C x := (gws (w54 C x)).

Lemma w54_nonneg C x a : 0 <= w54 C x a.
Proof. pose proof (w54_spec C x a). lia. Qed.

Lemma w54_small C x a : a < x -> w54 C x a = 0.
Proof. intros H. pose proof (w54_spec C x a). lia. Qed.

Lemma w54_ge2 C x a : x <= a -> 2 <= w54 C x a.
Proof. intros H. pose proof (w54_spec C x a). lia. Qed.

Lemma w54_classes C x a : 0 <= x <= a ->
  (C - x < 2 * a /\ 4 <= w54 C x a) \/
  (2 * a <= C - x /\ ((3 * a <= C - x /\ w54 C x a = 2) \/ (C - x < 3 * a /\ w54 C x a = 3))).
Proof. intros Hx. pose proof (w54_spec C x a). lia. Qed.

(** a feasible set weighs at most 10 *)
Lemma light54 C x g : C < 5 * x ->
  Forall (fun a => 0 <= a) g -> zsum g <= C -> ws54 C x g <= 10.
Proof.
  intros Hx Hnn HS. rewrite <- (gws_sel (w54 C x) x g (w54_small C x)).
  pose proof (zsum_sel_le x g Hnn) as Hle. pose proof (sel_ge x g) as Hge.
  destruct (sel x g) as [|a [|c [|d [|e [|f r]]]]].
  - rewrite gws_nil. lia.
  - rewrite gws_cons, gws_nil. pose proof (w54_spec C x a). lia.
  - rewrite !gws_cons, gws_nil. rewrite !zsum_cons, zsum_nil in Hle.
    split_ge Hge Ha. split_ge Hge Hc.
    pose proof (w54_spec C x a). pose proof (w54_spec C x c). lia.
  - rewrite !gws_cons, gws_nil. rewrite !zsum_cons, zsum_nil in Hle.
    split_ge Hge Ha. split_ge Hge Hc. split_ge Hge Hd.
    pose proof (w54_spec C x a). pose proof (w54_spec C x c). pose proof (w54_spec C x d). lia.
  - (* four values >= x: each is at most C - 3 x <= (C-x)/2, and at most two exceed (C-x)/3 *)
    rewrite !gws_cons, gws_nil. rewrite !zsum_cons, zsum_nil in Hle.
    split_ge Hge Ha. split_ge Hge Hc. split_ge Hge Hd. split_ge Hge He.
    pose proof (w54_classes C x a ltac:(lia)). pose proof (w54_classes C x c ltac:(lia)).
    pose proof (w54_classes C x d ltac:(lia)). pose proof (w54_classes C x e ltac:(lia)). lia.
  - exfalso. rewrite !zsum_cons in Hle.
    split_ge Hge Ha. split_ge Hge Hc. split_ge Hge Hd. split_ge Hge He. split_ge Hge Hf.
    assert (0 <= zsum r).
    { apply zsum_nonneg. eapply Forall_impl; [|exact Hge]. intros z Hz. cbv beta in Hz. lia. }
    lia.
Qed.

(** classes of values >= x: L = ((C-x)/2, C/2], ML = ((C-x)/3, C/2] *)
Definition isL (C x y : Z) : Prop := x <= y /\ C - x < 2 * y /\ 2 * y <= C.
Definition isML (C x y : Z) : Prop := x <= y /\ C - x < 3 * y /\ 2 * y <= C.

Lemma isL_up C x y y' : isL C x y -> y <= y' -> 2 * y' <= C -> isL C x y'.
Proof. unfold isL. lia. Qed.

Lemma isML_up C x y y' : isML C x y -> y <= y' -> 2 * y' <= C -> isML C x y'.
Proof. unfold isML. lia. Qed.

(** a set of values >= x that x does not fit with weighs at least 8, except {m,t,t} (7, no value
    of class ML fits) and {L,m} (7), {L,t} (6) (no value of class L fits); in the exceptions all
    values are at most C/2 *)
Lemma bin54_cases C x l : C < 5 * x -> x <= C ->
  Forall (fun a => x <= a) l -> C < zsum l + x ->
  8 <= ws54 C x l \/
  (Forall (fun a => 2 * a <= C) l /\
   ((7 <= ws54 C x l /\ Exists (isML C x) l /\ forall y, isML C x y -> zsum (sel y l) + y <= C) \/
    (6 <= ws54 C x l /\ Exists (isL C x) l /\ forall y, isL C x y -> zsum (sel y l) + y <= C))).
Proof.
  intros Hx HxC Hge Hcl. destruct l as [|a [|c [|d [|e r]]]].
  - rewrite zsum_nil in Hcl. lia.
  - left. rewrite zsum_cons, zsum_nil in Hcl. rewrite gws_cons, gws_nil.
    split_ge Hge Ha. pose proof (w54_spec C x a). lia.
  - (* short of 8: exactly one value of class L, the other at most (C-x)/2 *)
    rewrite !zsum_cons, zsum_nil in Hcl. rewrite !gws_cons, gws_nil.
    split_ge Hge Ha. split_ge Hge Hc.
    assert (F : 8 <= w54 C x a + (w54 C x c + 0) \/
                (6 <= w54 C x a + (w54 C x c + 0) /\ 2 * a <= C /\ 2 * c <= C /\
                 ((C - x < 2 * a /\ 2 * c <= C - x) \/ (C - x < 2 * c /\ 2 * a <= C - x)))).
    { pose proof (w54_spec C x a). pose proof (w54_spec C x c). lia. }
    destruct F as [H8|(H6 & Ha2 & Hc2 & HL)]; [left; exact H8|right].
    split; [constructor; [exact Ha2|constructor; [exact Hc2|constructor]]|]. right.
    split; [exact H6|]. split.
    + unfold isL. destruct HL as [HL|HL]; [left|right; left]; lia.
    + intros y (Hy0 & Hy1 & Hy2). sel_cases y.
  - (* short of 8: all at most (C-x)/2, exactly one above (C-x)/3 *)
    rewrite !zsum_cons, zsum_nil in Hcl. rewrite !gws_cons, gws_nil.
    split_ge Hge Ha. split_ge Hge Hc. split_ge Hge Hd.
    pose proof (w54_classes C x a ltac:(lia)) as Ka. pose proof (w54_classes C x c ltac:(lia)) as Kc.
    pose proof (w54_classes C x d ltac:(lia)) as Kd.
    assert (F : 8 <= w54 C x a + (w54 C x c + (w54 C x d + 0)) \/
                (7 <= w54 C x a + (w54 C x c + (w54 C x d + 0)) <= 7 /\
                 2 * a <= C - x /\ 2 * c <= C - x /\ 2 * d <= C - x)) by lia.
    destruct F as [H8|(H7 & Ha2 & Hc2 & Hd2)]; [left; exact H8|right].
    split; [constructor; [lia|constructor; [lia|constructor; [lia|constructor]]]|]. left.
    split; [lia|]. split.
    + destruct Ka as [Ka|(_ & [Ka|Ka])]; [exfalso; lia| |left; unfold isML; lia].
      destruct Kc as [Kc|(_ & [Kc|Kc])]; [exfalso; lia| |right; left; unfold isML; lia].
      destruct Kd as [Kd|(_ & [Kd|Kd])]; [exfalso; lia|exfalso; lia|right; right; left; unfold isML; lia].
    + intros y (Hy0 & Hy1 & Hy2). sel_cases y.
  - left. rewrite !gws_cons.
    split_ge Hge Ha. split_ge Hge Hc. split_ge Hge Hd. split_ge Hge He.
    pose proof (gws_nonneg (w54 C x) r (w54_nonneg C x)).
    pose proof (w54_ge2 C x a Ha). pose proof (w54_ge2 C x c Hc).
    pose proof (w54_ge2 C x d Hd). pose proof (w54_ge2 C x e He). lia.
Qed.

Lemma bin54_noL C x l : C < 5 * x -> x <= C ->
  Forall (fun a => x <= a) l -> C < zsum l + x -> Forall (fun a => ~ isL C x a) l ->
  8 <= ws54 C x l \/
  (7 <= ws54 C x l /\ Forall (fun a => 2 * a <= C) l /\ forall y, isML C x y -> zsum (sel y l) + y <= C).
Proof.
  intros Hx HxC Hge Hcl HnL.
  destruct (bin54_cases C x l Hx HxC Hge Hcl) as [H8|(Hsm & [(H7 & _ & HM)|(_ & HL & _)])];
    [left; exact H8|right; auto|].
  apply Forall_Exists_neg in HnL. contradiction.
Qed.

Lemma bin54_noML C x l : C < 5 * x -> x <= C ->
  Forall (fun a => x <= a) l -> C < zsum l + x -> Forall (fun a => ~ isML C x a) l ->
  8 <= ws54 C x l.
Proof.
  intros Hx HxC Hge Hcl HnM. apply Forall_Exists_neg in HnM.
  destruct (bin54_cases C x l Hx HxC Hge Hcl) as [H8|(_ & [(_ & HM & _)|(_ & HL & _)])];
    [exact H8|contradiction|].
  exfalso. apply HnM. eapply Exists_impl; [|exact HL]. unfold isL, isML. intros y Hy. lia.
Qed.

(** ---- 7. the weights for 7/6 ---- *)
Definition w76 (C x a : Z) : Z :=
  if a <? x then 0
  else if C - x <? a then 6
  else if C <? 2 * a then 4
  else if C - x <? 2 * a then 3
  else 2.

Lemma w76_spec C x a :
  (a < x /\ w76 C x a = 0) \/
  (x <= a /\ C - x < a /\ w76 C x a = 6) \/
  (x <= a /\ a <= C - x /\ C < 2 * a /\ w76 C x a = 4) \/
  (x <= a /\ a <= C - x /\ 2 * a <= C /\ C - x < 2 * a /\ w76 C x a = 3) \/
  (x <= a /\ a <= C - x /\ 2 * a <= C - x /\ w76 C x a = 2).
Proof.
  unfold w76. destruct (a <? x) eqn:E0; [left; lia|].
  destruct (C - x <? a) eqn:E1; [right; left; lia|].
  destruct (C <? 2 * a) eqn:E2; [right; right; left; lia|].
  destruct (C - x <? 2 * a) eqn:E3; [right; right; right; left; lia|].
  right; right; right; right; lia.
Qed.

Notation ws76 C x := (gws (w76 C x)).

Lemma w76_nonneg C x a : 0 <= w76 C x a.
Proof. pose proof (w76_spec C x a). lia. Qed.

Lemma w76_small C x a : a < x -> w76 C x a = 0.
Proof. intros H. pose proof (w76_spec C x a). lia. Qed.

Lemma w76_ge2 C x a : x <= a -> 2 <= w76 C x a.
Proof. intros H. pose proof (w76_spec C x a). lia. Qed.

(** a feasible set weighs at most 7 *)
Lemma light76 C x g : C < 4 * x ->
  Forall (fun a => 0 <= a) g -> zsum g <= C -> ws76 C x g <= 7.
Proof.
  intros Hx Hnn HS. rewrite <- (gws_sel (w76 C x) x g (w76_small C x)).
  pose proof (zsum_sel_le x g Hnn) as Hle. pose proof (sel_ge x g) as Hge.
  destruct (sel x g) as [|a [|c [|d [|e r]]]].
  - rewrite gws_nil. lia.
  - rewrite gws_cons, gws_nil. pose proof (w76_spec C x a). lia.
  - rewrite !gws_cons, gws_nil. rewrite !zsum_cons, zsum_nil in Hle.
    split_ge Hge Ha. split_ge Hge Hc.
    pose proof (w76_spec C x a). pose proof (w76_spec C x c). lia.
  - rewrite !gws_cons, gws_nil. rewrite !zsum_cons, zsum_nil in Hle.
    split_ge Hge Ha. split_ge Hge Hc. split_ge Hge Hd.
    pose proof (w76_spec C x a). pose proof (w76_spec C x c). pose proof (w76_spec C x d). lia.
  - exfalso. rewrite !zsum_cons in Hle.
    split_ge Hge Ha. split_ge Hge Hc. split_ge Hge Hd. split_ge Hge He.
    assert (0 <= zsum r).
    { apply zsum_nonneg. eapply Forall_impl; [|exact Hge]. intros z Hz. cbv beta in Hz. lia. }
    lia.
Qed.

(** at least 6, except {L,s} (5: both at most C/2, and no value of class L fits) *)
Lemma bin76_cases C x l : C < 4 * x -> x <= C ->
  Forall (fun a => x <= a) l -> C < zsum l + x ->
  6 <= ws76 C x l \/
  (5 <= ws76 C x l /\ Forall (fun a => 2 * a <= C) l /\ Exists (isL C x) l /\
   forall y, isL C x y -> zsum (sel y l) + y <= C).
Proof.
  intros Hx HxC Hge Hcl. destruct l as [|a [|c [|d r]]].
  - rewrite zsum_nil in Hcl. lia.
  - left. rewrite zsum_cons, zsum_nil in Hcl. rewrite gws_cons, gws_nil.
    split_ge Hge Ha. pose proof (w76_spec C x a). lia.
  - rewrite !zsum_cons, zsum_nil in Hcl. rewrite !gws_cons, gws_nil.
    split_ge Hge Ha. split_ge Hge Hc.
    assert (F : 6 <= w76 C x a + (w76 C x c + 0) \/
                (5 <= w76 C x a + (w76 C x c + 0) /\ 2 * a <= C /\ 2 * c <= C /\
                 ((C - x < 2 * a /\ 2 * c <= C - x) \/ (C - x < 2 * c /\ 2 * a <= C - x)))).
    { pose proof (w76_spec C x a). pose proof (w76_spec C x c). lia. }
    destruct F as [H6|(H5 & Ha2 & Hc2 & HL)]; [left; exact H6|right].
    split; [exact H5|]. split; [constructor; [exact Ha2|constructor; [exact Hc2|constructor]]|]. split.
    + unfold isL. destruct HL as [HL|HL]; [left|right; left]; lia.
    + intros y (Hy0 & Hy1 & Hy2). sel_cases y.
  - left. rewrite !gws_cons.
    split_ge Hge Ha. split_ge Hge Hc. split_ge Hge Hd.
    pose proof (gws_nonneg (w76 C x) r (w76_nonneg C x)).
    pose proof (w76_ge2 C x a Ha). pose proof (w76_ge2 C x c Hc). pose proof (w76_ge2 C x d Hd). lia.
Qed.

Lemma bin76_noL C x l : C < 4 * x -> x <= C ->
  Forall (fun a => x <= a) l -> C < zsum l + x -> Forall (fun a => ~ isL C x a) l ->
  6 <= ws76 C x l.
Proof.
  intros Hx HxC Hge Hcl HnL.
  destruct (bin76_cases C x l Hx HxC Hge Hcl) as [H6|(_ & _ & HL & _)]; [exact H6|].
  apply Forall_Exists_neg in HnL. contradiction.
Qed.

(** ---- 8. closed bins are heavy, up to a bounded total deficiency ---- *)
Section Heavy.
  Context {A : Type} (valueof : A -> Z).
  Notation vals bn := (map valueof (snd bn)).
  Notation cw w b := (gws w (map valueof (contents b))).

  Lemma heavy43 C x : C < 4 * x -> x <= C -> forall t : bins A, closed valueof C x t ->
    nf_chain valueof C x t -> 12 * Z.of_nat (length t) <= cw (w43 C x) t + 2.
  Proof.
    intros Hx HxC. induction t as [|bn t IH]; intros Hcl Hch.
    - rewrite cw_nil. cbn [length Z.of_nat]. lia.
    - unfold closed in Hcl. apply Forall_cons_iff in Hcl. destruct Hcl as [Hc Hcl].
      cbn [nf_chain] in Hch. destruct Hch as [Hnf Hch].
      rewrite (cw_cons valueof (w43 C x) x _ _ (w43_small C x)). cbn [length]. rewrite Nat2Z.inj_succ.
      destruct (bin43_cases C x (sel x (vals bn)) Hx HxC (sel_ge x _) Hc) as [H12|(H10 & H3x & Hsm & _ & HM)].
      + specialize (IH Hcl Hch). lia.
      + assert (HMx : forall y, isM C y -> x <= y) by (unfold isM; intros y Hy; lia).
        pose proof (heavy_no valueof (w43 C x) C x 12 (isM C) (w43_small C x) (fun l => bin43_noM C x l Hx HxC) t Hcl
                      (Hnf (isM C) (isM_up C) HMx Hsm HM)). lia.
  Qed.

  Lemma heavy54_noL C x : C < 5 * x -> x <= C -> forall t : bins A, closed valueof C x t ->
    nf_chain valueof C x t -> Forall (fun y => ~ isL C x (valueof y)) (contents t) ->
    8 * Z.of_nat (length t) <= cw (w54 C x) t + 1.
  Proof.
    intros Hx HxC. induction t as [|bn t IH]; intros Hcl Hch HnL.
    - rewrite cw_nil. cbn [length Z.of_nat]. lia.
    - unfold closed in Hcl. apply Forall_cons_iff in Hcl. destruct Hcl as [Hc Hcl].
      cbn [nf_chain] in Hch. destruct Hch as [Hnf Hch].
      rewrite contents_cons in HnL. apply Forall_app in HnL. destruct HnL as [HnL1 HnL2].
      rewrite (cw_cons valueof (w54 C x) x _ _ (w54_small C x)). cbn [length]. rewrite Nat2Z.inj_succ.
      assert (HnLv : Forall (fun a => ~ isL C x a) (sel x (vals bn))).
      { apply sel_incl. rewrite Forall_map. exact HnL1. }
      destruct (bin54_noL C x (sel x (vals bn)) Hx HxC (sel_ge x _) Hc HnLv) as [H8|(H7 & Hsm & HM)].
      + specialize (IH Hcl Hch HnL2). lia.
      + pose proof (heavy_no valueof (w54 C x) C x 8 (isML C x) (w54_small C x) (fun l => bin54_noML C x l Hx HxC) t Hcl
                      (Hnf (isML C x) (isML_up C x) (fun y Hy => proj1 Hy) Hsm HM)). lia.
  Qed.

  Lemma heavy54 C x : C < 5 * x -> x <= C -> forall t : bins A, closed valueof C x t ->
    nf_chain valueof C x t -> 8 * Z.of_nat (length t) <= cw (w54 C x) t + 3.
  Proof.
    intros Hx HxC. induction t as [|bn t IH]; intros Hcl Hch.
    - rewrite cw_nil. cbn [length Z.of_nat]. lia.
    - unfold closed in Hcl. apply Forall_cons_iff in Hcl. destruct Hcl as [Hc Hcl].
      cbn [nf_chain] in Hch. destruct Hch as [Hnf Hch].
      rewrite (cw_cons valueof (w54 C x) x _ _ (w54_small C x)). cbn [length]. rewrite Nat2Z.inj_succ.
      destruct (bin54_cases C x (sel x (vals bn)) Hx HxC (sel_ge x _) Hc)
        as [H8|(Hsm & [(H7 & _ & HM)|(H6 & _ & HL)])].
      + specialize (IH Hcl Hch). lia.
      + pose proof (heavy_no valueof (w54 C x) C x 8 (isML C x) (w54_small C x) (fun l => bin54_noML C x l Hx HxC) t Hcl
                      (Hnf (isML C x) (isML_up C x) (fun y Hy => proj1 Hy) Hsm HM)). lia.
      + pose proof (heavy54_noL C x Hx HxC t Hcl Hch
                      (Hnf (isL C x) (isL_up C x) (fun y Hy => proj1 Hy) Hsm HL)). lia.
  Qed.

  Lemma heavy76_chain C x : C < 4 * x -> x <= C -> forall t : bins A, closed valueof C x t ->
    nf_chain valueof C x t -> 6 * Z.of_nat (length t) <= cw (w76 C x) t + 1.
  Proof.
    intros Hx HxC. induction t as [|bn t IH]; intros Hcl Hch.
    - rewrite cw_nil. cbn [length Z.of_nat]. lia.
    - unfold closed in Hcl. apply Forall_cons_iff in Hcl. destruct Hcl as [Hc Hcl].
      cbn [nf_chain] in Hch. destruct Hch as [Hnf Hch].
      rewrite (cw_cons valueof (w76 C x) x _ _ (w76_small C x)). cbn [length]. rewrite Nat2Z.inj_succ.
      destruct (bin76_cases C x (sel x (vals bn)) Hx HxC (sel_ge x _) Hc) as [H6|(H5 & Hsm & _ & HL)].
      + specialize (IH Hcl Hch). lia.
      + pose proof (heavy_no valueof (w76 C x) C x 6 (isL C x) (w76_small C x) (fun l => bin76_noL C x l Hx HxC) t Hcl
                      (Hnf (isL C x) (isL_up C x) (fun y Hy => proj1 Hy) Hsm HL)). lia.
  Qed.

End Heavy.

(** ---- 9. the bounds, given that all bins but the last are closed for an item x0 of the last ---- *)

(** T bins filled above C - x and one holding x, within N C in total, where x <= (Q/P) C *)
Lemma vol_arith P Q C x T N : 0 < Q <= P -> 0 <= C -> 0 <= x -> P * x <= Q * C -> 1 <= T -> 0 <= N ->
  T * (C - x + 1) + x <= N * C -> (P - Q) * T < P * N.
Proof.
  intros HK HC Hx HKx HT HN H0.
  assert (H1 : T * (P * x) <= T * (Q * C)) by (apply Z.mul_le_mono_nonneg_l; lia).
  assert (H2 : P * (T * (C - x + 1) + x) <= P * (N * C)) by (apply Z.mul_le_mono_nonneg_l; lia).
  assert (H3 : 0 <= P * x) by nia.
  assert (H4 : 0 < P * T) by nia.
  destruct (Z_lt_le_dec ((P - Q) * T) (P * N)) as [Hlt|Hge]; [exact Hlt|exfalso].
  assert (H5 : (P * N - (P - Q) * T) * C <= 0) by (apply Z.mul_nonpos_nonneg; lia).
  lia.
Qed.

Section Last.
  Context {A : Type} (valueof : A -> Z).
  Notation vals bn := (map valueof (snd bn)).

  (** the volume case with a rational threshold: P x <= Q C *)
  Lemma volume_case_q C P Q (t : bins A) (last : bin A) x0 items n : 0 < Q <= P -> 0 <= C ->
    In x0 (snd last) -> 0 <= valueof x0 -> P * valueof x0 <= Q * C ->
    closed valueof C (valueof x0) t -> wf valueof (t ++ [last]) ->
    Forall (fun y => 0 <= valueof y) (contents (t ++ [last])) ->
    Permutation (contents (t ++ [last])) items -> Packable C (map valueof items) n ->
    t <> [] -> (P - Q) * Z.of_nat (length t) < P * Z.of_nat n.
  Proof.
    intros HK HC Hin Hx0 HKx Hcl Hw Hnn Hp Hpack Ht.
    pose proof (packable_total C _ n Hpack) as Htot.
    rewrite <- (zsum_perm _ _ (Permutation_map valueof Hp)), <- (wf_total valueof _ Hw) in Htot.
    assert (Esums : sums (t ++ [last]) = sums t ++ [fst last]) by (unfold sums; apply map_app).
    rewrite Esums, zsum_app, zsum_cons, zsum_nil in Htot.
    unfold wf in Hw. apply Forall_app in Hw. destruct Hw as [Hwt Hwl].
    apply Forall_cons_iff in Hwl. destruct Hwl as [Hwl _].
    rewrite contents_app in Hnn. apply Forall_app in Hnn. destruct Hnn as [Hnnt Hnnl].
    assert (Hlast : valueof x0 <= fst last).
    { unfold wf_bin in Hwl. rewrite Hwl. rewrite contents_cons in Hnnl.
      apply Forall_app in Hnnl. destruct Hnnl as [Hnnl _].
      apply in_split in Hin. destruct Hin as (l1 & l2 & E). rewrite E in *.
      rewrite map_app, zsum_app. cbn [map]. rewrite zsum_cons.
      apply Forall_app in Hnnl. destruct Hnnl as [N1 N2]. apply Forall_cons_iff in N2. destruct N2 as [_ N2].
      assert (0 <= zsum (map valueof l1)) by (apply zsum_nonneg; rewrite Forall_map; exact N1).
      assert (0 <= zsum (map valueof l2)) by (apply zsum_nonneg; rewrite Forall_map; exact N2).
      lia. }
    assert (Hlow : Forall (fun bn => C - valueof x0 + 1 <= fst bn) t).
    { unfold closed in Hcl. rewrite Forall_forall in *. intros bn Hbn.
      specialize (Hcl bn Hbn). specialize (Hwt bn Hbn). unfold wf_bin in Hwt.
      assert (Hv : Forall (fun a => 0 <= a) (map valueof (snd bn))).
      { rewrite Forall_map. apply Forall_forall. intros y Hy. apply Hnnt.
        unfold contents, lists. apply in_concat. exists (snd bn). split; [|exact Hy].
        apply in_map. exact Hbn. }
      pose proof (zsum_sel_le (valueof x0) (map valueof (snd bn)) Hv). lia. }
    pose proof (sums_ge_bound _ t Hlow) as Hsum.
    apply (vol_arith P Q C (valueof x0)); try assumption; try lia.
    destruct t; [congruence|cbn [length]; lia].
  Qed.

  (** ... also when the last bin is the only one *)
  Lemma volume_bound C P Q (t : bins A) (last : bin A) x0 items n : 0 < Q <= P -> 0 <= C ->
    In x0 (snd last) -> 0 <= valueof x0 -> P * valueof x0 <= Q * C ->
    closed valueof C (valueof x0) t -> wf valueof (t ++ [last]) ->
    Forall (fun y => 0 <= valueof y) (contents (t ++ [last])) ->
    Permutation (contents (t ++ [last])) items -> Packable C (map valueof items) n ->
    (P - Q) * Z.of_nat (length t) < P * Z.of_nat n.
  Proof.
    intros HK HC Hin Hx0 HKx Hcl Hw Hnn Hp Hpack.
    destruct t as [|bn t']; [|apply (volume_case_q C P Q (bn :: t') last x0 items n); auto; discriminate].
    destruct n as [|n]; [exfalso|cbn [length]; nia].
    apply packable_zero in Hpack. apply map_eq_nil in Hpack. subst items.
    apply Permutation_sym, Permutation_nil in Hp.
    cbn [app] in Hp. rewrite contents_cons in Hp. apply app_eq_nil in Hp. destruct Hp as [Hp _].
    rewrite Hp in Hin. destruct Hin.
  Qed.

  (** the weight of the last bin is at least the weight of x0 *)
  Lemma last_weight (w : Z -> Z) (last : bin A) x0 : (forall a, 0 <= w a) -> In x0 (snd last) ->
    w (valueof x0) <= gws w (map valueof (contents [last])).
  Proof.
    intros Hw Hin. rewrite contents_cons. apply in_split in Hin. destruct Hin as (l1 & l2 & El). rewrite El.
    rewrite !map_app, !gws_app. cbn [map]. rewrite gws_cons.
    pose proof (gws_nonneg w (map valueof l1) Hw). pose proof (gws_nonneg w (map valueof l2) Hw).
    pose proof (gws_nonneg w (map valueof (contents [])) Hw). lia.
  Qed.

  Lemma weight_case (w : Z -> Z) C K R d (t : bins A) (last : bin A) x0 items n :
    (forall a, 0 <= w a) ->
    (forall g, Forall (fun a => 0 <= a) g -> zsum g <= C -> gws w g <= R) ->
    K * Z.of_nat (length t) <= gws w (map valueof (contents t)) + d ->
    In x0 (snd last) -> Forall (fun y => 0 <= valueof y) (contents (t ++ [last])) ->
    Permutation (contents (t ++ [last])) items -> Packable C (map valueof items) n ->
    K * Z.of_nat (length t) + w (valueof x0) <= R * Z.of_nat n + d.
  Proof.
    intros Hw Hlight Hheavy Hin Hnn Hp Hpack.
    assert (Hnn' : Forall (fun a => 0 <= a) (map valueof items)).
    { rewrite Forall_map. eapply Permutation_Forall; [exact Hp|exact Hnn]. }
    pose proof (packable_gws w C R _ n Hlight Hnn' Hpack) as Hl.
    rewrite <- (gws_perm _ _ _ (Permutation_map valueof Hp)), contents_app, map_app, gws_app in Hl.
    pose proof (last_weight w last x0 Hw Hin). lia.
  Qed.

  Variables (C : Z) (t : bins A) (last : bin A) (x0 : A) (items : list A) (n : nat).
  Hypotheses (Hin : In x0 (snd last)) (Hx0 : 0 <= valueof x0 <= C)
    (Hcl : closed valueof C (valueof x0) t) (Hch : nf_chain valueof C (valueof x0) t)
    (Hw : wf valueof (t ++ [last])) (Hnn : Forall (fun y => 0 <= valueof y) (contents (t ++ [last])))
    (Hp : Permutation (contents (t ++ [last])) items) (Hpack : Packable C (map valueof items) n).

  Theorem last_ratio_43 : (3 * length (t ++ [last]) <= 4 * n + 2)%nat.
  Proof.
    rewrite app_length. cbn [length]. destruct (Z_lt_le_dec C (4 * valueof x0)) as [Hbig|Hsmall].
    - pose proof (weight_case (w43 C (valueof x0)) C 12 16 2 t last x0 items n (w43_nonneg _ _)
                    (fun g Hg0 Hg => light43 C _ g Hbig Hg0 Hg)
                    (heavy43 valueof C _ Hbig (proj2 Hx0) t Hcl Hch) Hin Hnn Hp Hpack).
      pose proof (w43_spec C (valueof x0) (valueof x0)). lia.
    - pose proof (volume_bound C 4 1 t last x0 items n ltac:(lia) ltac:(lia) Hin (proj1 Hx0) ltac:(lia)
                    Hcl Hw Hnn Hp Hpack). lia.
  Qed.

  Theorem last_ratio_54 : (4 * length (t ++ [last]) <= 5 * n + 4)%nat.
  Proof.
    rewrite app_length. cbn [length]. destruct (Z_lt_le_dec C (5 * valueof x0)) as [Hbig|Hsmall].
    - pose proof (weight_case (w54 C (valueof x0)) C 8 10 3 t last x0 items n (w54_nonneg _ _)
                    (fun g Hg0 Hg => light54 C _ g Hbig Hg0 Hg)
                    (heavy54 valueof C _ Hbig (proj2 Hx0) t Hcl Hch) Hin Hnn Hp Hpack).
      pose proof (w54_ge2 C (valueof x0) (valueof x0) ltac:(lia)). lia.
    - pose proof (volume_bound C 5 1 t last x0 items n ltac:(lia) ltac:(lia) Hin (proj1 Hx0) ltac:(lia)
                    Hcl Hw Hnn Hp Hpack). lia.
  Qed.

  Lemma last_119_ranges :
    In x0 items /\
    (11 * valueof x0 <= 2 * C -> (9 * length (t ++ [last]) <= 11 * n + 8)%nat) /\
    (C < 4 * valueof x0 -> (6 * length (t ++ [last]) <= 7 * n + 5)%nat).
  Proof.
    rewrite app_length. cbn [length]. split; [|split].
    - eapply Permutation_in; [exact Hp|]. rewrite contents_app, contents_cons.
      apply in_or_app. right. apply in_or_app. left. exact Hin.
    - intros Hsmall.
      pose proof (volume_bound C 11 2 t last x0 items n ltac:(lia) ltac:(lia) Hin (proj1 Hx0) Hsmall
                    Hcl Hw Hnn Hp Hpack). lia.
    - intros Hbig.
      pose proof (weight_case (w76 C (valueof x0)) C 6 7 1 t last x0 items n (w76_nonneg _ _)
                    (fun g Hg0 Hg => light76 C _ g Hbig Hg0 Hg)
                    (heavy76_chain valueof C _ Hbig (proj2 Hx0) t Hcl Hch) Hin Hnn Hp Hpack).
      pose proof (w76_ge2 C (valueof x0) (valueof x0) ltac:(lia)). lia.
  Qed.
End Last.

Section Ranges.
  Context {A : Type} (valueof : A -> Z).
  Variables (C : Z) (items : list A) (m n : nat).
  Hypothesis Hr : exists x0, In x0 items /\
    (11 * valueof x0 <= 2 * C -> (9 * m <= 11 * n + 8)%nat) /\
    (C < 4 * valueof x0 -> (6 * m <= 7 * n + 5)%nat).

  Lemma ranges_11_9 : Forall (fun x : A => 11 * valueof x <= 2 * C \/ C < 4 * valueof x) items ->
    (9 * m <= 11 * n + 8)%nat.
  Proof.
    intros Hgap. destruct Hr as (x0 & Hin & H1 & H2).
    rewrite Forall_forall in Hgap. destruct (Hgap x0 Hin) as [Hs|Hb]; [exact (H1 Hs)|]. specialize (H2 Hb). lia.
  Qed.

  Lemma ranges_76 : Forall (fun x : A => C < 4 * valueof x) items -> (6 * m <= 7 * n + 5)%nat.
  Proof.
    intros Hbig. destruct Hr as (x0 & Hin & _ & H2). rewrite Forall_forall in Hbig. exact (H2 (Hbig x0 Hin)).
  Qed.
End Ranges.

Lemma large_nonneg {A} (valueof : A -> Z) C (items : list A) :
  Forall (fun x => C < 4 * valueof x) items -> Forall (fun x => valueof x <= C) items ->
  Forall (fun x => 0 <= valueof x) items.
Proof.
  intros Hbig Hle. rewrite Forall_forall in *. intros y Hy. specialize (Hbig y Hy). specialize (Hle y Hy). lia.
Qed.

(** ---- 10. first-fit-decreasing ---- *)
Section FFD119.
  Context {A : Type} (valueof : A -> Z).
  Notation vals bn := (map valueof (snd bn)).

  Lemma inv_last C items (b : bins A) : items <> [] -> Forall (fun x => 0 <= valueof x) items ->
    Inv valueof C b items ->
    exists (t : bins A) (last : bin A) (x0 : A) (r : list A),
      b = t ++ [last] /\ snd last = x0 :: r /\ 0 <= valueof x0 <= C /\
      Forall (fun y => 0 <= valueof y) (contents b).
  Proof.
    intros Hne Hnn (Hw & Hf & Hp & Hnem & _).
    assert (Hnnb : Forall (fun y => 0 <= valueof y) (contents b))
      by (eapply Permutation_Forall; [symmetry; exact Hp|exact Hnn]).
    assert (Hb : b <> []).
    { intros E. subst b. apply Permutation_nil in Hp. congruence. }
    destruct (exists_last Hb) as (t & last & E). subst b.
    unfold all_nonempty in Hnem. apply Forall_app in Hnem. destruct Hnem as [_ Hl].
    apply Forall_cons_iff in Hl. destruct Hl as [Hl _].
    destruct (snd last) as [|x0 r] eqn:El; [congruence|].
    exists t, last, x0, r. split; [reflexivity|]. split; [exact El|]. split; [|exact Hnnb].
    unfold feasible in Hf. apply Forall_app in Hf. destruct Hf as [_ Hf].
    apply Forall_cons_iff in Hf. destruct Hf as [Hf _].
    unfold wf in Hw. apply Forall_app in Hw. destruct Hw as [_ Hwl].
    apply Forall_cons_iff in Hwl. destruct Hwl as [Hwl _]. unfold wf_bin in Hwl.
    rewrite El in Hwl. cbn [map] in Hwl. rewrite zsum_cons in Hwl.
    rewrite contents_app, contents_cons, El in Hnnb.
    apply Forall_app in Hnnb. destruct Hnnb as [_ Hnnb]. apply Forall_app in Hnnb.
    destruct Hnnb as [Hnnb _]. apply Forall_cons_iff in Hnnb. destruct Hnnb as [Hx0 Hnnb].
    assert (0 <= zsum (map valueof r)) by (apply zsum_nonneg; rewrite Forall_map; exact Hnnb).
    lia.
  Qed.

  (** what the proofs use of the result of first-fit-decreasing: all bins but the last are closed
      for an item x0 of the last bin *)
  Lemma ffd_last C items b : items <> [] -> Forall (fun x => 0 <= valueof x) items ->
    first_fit_decreasing valueof true C items = Ok b ->
    exists (t : bins A) (last : bin A) (x0 : A),
      b = t ++ [last] /\ In x0 (snd last) /\ 0 <= valueof x0 <= C /\
      closed valueof C (valueof x0) t /\ sfit2 valueof C t /\ wf valueof b /\
      Forall (fun y => 0 <= valueof y) (contents b) /\ Permutation (contents b) items.
  Proof.
    intros Hne Hnn H. pose proof (ffd_Inv valueof C items b Hne Hnn H) as HI.
    pose proof (ffd_sfit2 valueof C items b Hnn H) as Hsf.
    destruct (inv_last C items b Hne Hnn HI) as (t & last & x0 & r & E & El & Hx0 & Hnnb). subst b.
    destruct HI as (Hw & _ & Hp & _). destruct (sfit2_app valueof C t [last] Hsf) as [Hcl Hsft].
    exists t, last, x0. rewrite El. split; [reflexivity|]. split; [left; reflexivity|]. split; [exact Hx0|].
    split; [|auto]. unfold closed. eapply Forall_impl; [|exact Hcl]. intros c Hc. cbv beta in Hc.
    rewrite Forall_forall in Hc. apply Hc. rewrite contents_cons, El. left. reflexivity.
  Qed.

  Theorem ffd_ratio_43_partial C (items : list A) (b : bins A) (n : nat) :
    items <> [] -> Forall (fun x : A => 0 <= valueof x) items ->
    first_fit_decreasing valueof true C items = Ok b -> Packable C (map valueof items) n ->
    (3 * length b <= 4 * n + 2)%nat.
  Proof.
    intros Hne Hnn H Hpack.
    destruct (ffd_last C items b Hne Hnn H) as (t & last & x0 & E & Hin & Hx0 & Hcl & Hsf & Hw & Hnnb & Hp).
    subst b. apply (last_ratio_43 valueof C t last x0 items n); auto. apply sfit2_chain. exact Hsf.
  Qed.

  Theorem ffd_ratio_54_partial C (items : list A) (b : bins A) (n : nat) :
    items <> [] -> Forall (fun x : A => 0 <= valueof x) items ->
    first_fit_decreasing valueof true C items = Ok b -> Packable C (map valueof items) n ->
    (4 * length b <= 5 * n + 4)%nat.
  Proof.
    intros Hne Hnn H Hpack.
    destruct (ffd_last C items b Hne Hnn H) as (t & last & x0 & E & Hin & Hx0 & Hcl & Hsf & Hw & Hnnb & Hp).
    subst b. apply (last_ratio_54 valueof C t last x0 items n); auto. apply sfit2_chain. exact Hsf.
  Qed.

  (** the two easy ranges of x = the first item of the last bin *)
  Lemma ffd_119_ranges C (items : list A) (b : bins A) (n : nat) :
    items <> [] -> Forall (fun x : A => 0 <= valueof x) items ->
    first_fit_decreasing valueof true C items = Ok b -> Packable C (map valueof items) n ->
    exists x0, In x0 items /\
      (11 * valueof x0 <= 2 * C -> (9 * length b <= 11 * n + 8)%nat) /\
      (C < 4 * valueof x0 -> (6 * length b <= 7 * n + 5)%nat).
  Proof.
    intros Hne Hnn H Hpack.
    destruct (ffd_last C items b Hne Hnn H) as (t & last & x0 & E & Hin & Hx0 & Hcl & Hsf & Hw & Hnnb & Hp).
    subst b. exists x0. apply (last_119_ranges valueof C t last x0 items n); auto. apply sfit2_chain. exact Hsf.
  Qed.

  (** 11/9 when no value lies in (2C/11, C/4] *)
  Theorem ffd_ratio_11_9_partial C (items : list A) (b : bins A) (n : nat) :
    items <> [] -> Forall (fun x : A => 0 <= valueof x) items ->
    Forall (fun x : A => 11 * valueof x <= 2 * C \/ C < 4 * valueof x) items ->
    first_fit_decreasing valueof true C items = Ok b -> Packable C (map valueof items) n ->
    (9 * length b <= 11 * n + 8)%nat.
  Proof.
    intros Hne Hnn Hgap H Hpack.
    exact (ranges_11_9 valueof C items _ n (ffd_119_ranges C items b n Hne Hnn H Hpack) Hgap).
  Qed.

  (** 7/6 when every value exceeds C/4 *)
  Theorem ffd_ratio_76_large C (items : list A) (b : bins A) (n : nat) :
    items <> [] -> Forall (fun x : A => C < 4 * valueof x) items ->
    first_fit_decreasing valueof true C items = Ok b -> Packable C (map valueof items) n ->
    (6 * length b <= 7 * n + 5)%nat.
  Proof.
    intros Hne Hbig H Hpack.
    pose proof (large_nonneg valueof C items Hbig
                  (ok_values_le valueof C items _ b (ffd_error_iff valueof C items) H)) as Hnn.
    exact (ranges_76 valueof C items _ n (ffd_119_ranges C items b n Hne Hnn H Hpack) Hbig).
  Qed.
End FFD119.

(** ---- 11. examples ---- *)
(** one third of the smallest member of Johnson's 11/9 family (C = 60: 31, 17, 16, 13, the last
    above C/5): FFD uses 4 bins, the optimum is 3 *)
Lemma johnson_60_packable : Packable 60 (repeat 31 2 ++ repeat 17 2 ++ repeat 16 2 ++ repeat 13 4) 3.
Proof. apply (packable_by _ _ _ asg_2_2_2_4); [reflexivity|repeat constructor|cbn; repeat constructor; lia]. Qed.

Example ffd_54_johnson_thm b :
  first_fit_decreasing idZ true 60 (repeat 31 2 ++ repeat 17 2 ++ repeat 16 2 ++ repeat 13 4) = Ok b ->
  (4 * length b <= 5 * 3 + 4)%nat.
Proof.
  intros H. set (L := repeat 31 2 ++ repeat 17 2 ++ repeat 16 2 ++ repeat 13 4) in *.
  apply (ffd_ratio_54_partial idZ 60 L b 3); [discriminate| |exact H|].
  - repeat constructor; lia.
  - rewrite map_id. apply johnson_60_packable.
Qed.

Example ffd_54_johnson_run :
  ffd_count_ex 60 (repeat 31 6 ++ repeat 17 6 ++ repeat 16 6 ++ repeat 13 12) = Some 11%nat.
Proof. vm_compute. reflexivity. Qed.

(** all values above C/4: FFD 3 bins, optimum 2, 6 * 3 <= 7 * 2 + 5 *)
Example ffd_76_tight_thm b :
  first_fit_decreasing idZ true 10 [4; 4; 3; 3; 3; 3] = Ok b -> (6 * length b <= 7 * 2 + 5)%nat.
Proof.
  intros H. apply (ffd_ratio_76_large idZ 10 [4; 4; 3; 3; 3; 3] b 2); [discriminate| |exact H|].
  - repeat constructor; lia.
  - apply (min_bins_MinBins 10 [4; 4; 3; 3; 3; 3]). repeat constructor; lia.
Qed.

(** the three runs that defeat size-only weights for C = 44, x = 10 (head comment) *)
Example ffd_mix_runs :
  first_fit_decreasing idZ true 44 [25; 25; 10; 10; 10] = Ok [(35, [25; 10]); (35, [25; 10]); (10, [10])] /\
  first_fit_decreasing idZ true 44 [24; 24; 11; 11; 10] = Ok [(35, [24; 11]); (35, [24; 11]); (10, [10])] /\
  first_fit_decreasing idZ true 44 [19; 19; 19; 19; 10] = Ok [(38, [19; 19]); (38, [19; 19]); (10, [10])].
Proof. vm_compute. repeat split. Qed.

Check ffd_sfit2.

Print Assumptions ffd_ratio_43_partial.
Print Assumptions ffd_ratio_54_partial.
Print Assumptions ffd_ratio_11_9_partial.
Print Assumptions ffd_ratio_76_large.
Print Assumptions ffd_119_ranges.
Print Assumptions ffd_54_johnson_thm.
