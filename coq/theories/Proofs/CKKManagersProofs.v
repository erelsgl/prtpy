(** Complete Karmarkar-Karp: the contents manager (keep = true, combinations de-duplicated by
    item NAMES) and the sums manager (keep = false, de-duplicated by SUMS) return the same
    vector of bin sums, and so do two presentations of the same values (named items / plain
    numbers), for EVERY number of bins.

    History.  Before the repair "complete Karmarkar-Karp explored different trees with the two
    bins-managers" this was FALSE for four and five bins:
        items = [4; 5; 7; 9; 10; 10; 12; 14; 15],  4 bins
        contents manager : sums [20; 21; 22; 23]      sums manager : sums [20; 20; 23; 23]
    (both optimal: difference 3; same behaviour of the Python library: choosing the cheaper
    output type changed the answer, property C06 failed for ckk, k = 4).  The reason: both runs
    return the first leaf, in their DFS order, whose difference is optimal; children of a node are
    sorted by topdiff (stable) and explored from the END of that list, and the contents manager
    yielded a sums-class again whenever the names differed, so inside a group of children with
    tied keys the classes were explored by LAST occurrence in [perms k] under keep = true and by
    FIRST occurrence under keep = false.
    The repair: the loop over binner.all_combinations skips a combination whose tuple of
    ascending sums was already seen at this node (Model/KK.v: [dedup_sums], [ckk_children]), so
    the search tree depends on the sums only.

    Now (model after the repair):
      - [ckk_managers_agree] (= EraseProofs.ckk_erase): rmap erase (ckk true k items) = ckk false k items
        whenever names determine values ([names_ok]); [ckk_managers_sums] is statement (S) below;
      - the old witnesses now give equal sums: [ckk_managers_sums_agree_4],
        [ckk_managers_sums_agree_named], [ckk_managers_sums_agree_5], [C06_ckk_sums_holds];
      - the sums manager is presentation-independent, with no hypothesis:
        [ckk_sums_manager_names], [ckk_sums_output_names], [ckk_generator_sums_manager_names];
      - presentation (C07) for the contents manager: [ckk_names_sums_gen], [ckk_names_sums],
        [ckk_generator_names_sums]: equal sums for any two presentations of the same values whose
        names determine the values. *)
From Prtpy Require Import Base.Prelude Base.Perms Model.Binner Model.KK Model.Output
  Proofs.BaseLemmas Proofs.EraseLemmas Proofs.KKProofs Proofs.CKKOptimal Proofs.NamesProofs Proofs.EraseProofs.

Definition zid (x : Z) : Z := x.
Local Notation idv := (fun v : Z => v).

(** * The full statement (S) *)
Definition ckk_managers_sums_statement : Prop :=
  forall (A : Type) (valueof nameof : A -> Z) (k : nat) (items : list A) (bt bf : bins A),
    (1 <= k)%nat -> items <> [] -> Forall (fun x => 0 <= valueof x) items ->
    names_ok valueof nameof items ->
    ckk valueof nameof true k items = Ok bt ->
    ckk valueof nameof false k items = Ok bf ->
    sums bt = sums bf.

(** the general agreement theorem (re-exported from EraseProofs) *)
Theorem ckk_managers_agree {A : Type} (valueof nameof : A -> Z) (k : nat) (items : list A) :
  names_ok valueof nameof items ->
  rmap erase (ckk valueof nameof true k items) = ckk valueof nameof false k items.
Proof. apply ckk_erase. Qed.

Lemma rmap_sums_ok {T U} (r : result (bins T)) (r' : result (bins U)) b b' :
  rmap sums r = rmap sums r' -> r = Ok b -> r' = Ok b' -> sums b = sums b'.
Proof. intros E -> ->. injection E as E. exact E. Qed.

Theorem ckk_managers_sums : ckk_managers_sums_statement.
Proof.
  intros A valueof nameof k items bt bf _ _ _ HN. apply rmap_sums_ok, ckk_erase_sums. exact HN.
Qed.

(** * The run of the SUMS manager does not read the names at all, so every sums-family output of
      ckk is the same for named items and for their plain values (C07 for the sums-family output
      types, any k, no hypothesis). *)
Section SumsNames.
  Context {A : Type} (valueof nameof : A -> Z) (nameof' : Z -> Z).
  Local Notation mb := (map_bins valueof).
  Local Notation pb := (pbin valueof).

  Lemma mb_combo_of_perm (b1 b2 : bins A) (perm : list nat) :
    mb (combo_of_perm nameof false b1 b2 perm) = combo_of_perm nameof' false (mb b1) (mb b2) perm.
  Proof. apply (map_combo_of_perm pb); [reflexivity|reflexivity|exact (pbin_combine valueof)|reflexivity]. Qed.

  Lemma mb_ckk_children (b1 b2 : bins A) :
    map mb (ckk_children nameof false b1 b2) = ckk_children nameof' false (mb b1) (mb b2).
  Proof.
    rewrite !ckk_children_false, <- (dedup_sums_map mb (map_bins_sums valueof)), map_map, (mb_length valueof).
    f_equal. apply map_ext. intros p. apply mb_combo_of_perm.
  Qed.

  (** the search on the values is the image of the search on the items ([KKProofs.ckk_run_map]
      with g := [map_bins valueof], on all heaps) *)
  Lemma ph_run (mode : bool) (init : option Z) (k : nat) (items : list A) :
    map_state mb (ckk_run valueof nameof false mode init k items) =
    ckk_run idv nameof' false mode init k (map valueof items).
  Proof.
    apply (ckk_run_map mb (map_bins_sums valueof) (mb_sort_bins valueof) valueof idv valueof false false
             (fun _ => eq_refl) (mb_singleton_bins valueof false) nameof nameof' (fun _ => True));
      [|intros; exact I|exact I].
    intros e1 e2 _ _. symmetry. apply mb_ckk_children.
  Qed.

  Theorem ckk_sums_manager_names (k : nat) (items : list A) :
    rmap (map_bins valueof) (ckk valueof nameof false k items) =
    ckk idv nameof' false k (map valueof items).
  Proof. apply ckk_of_run; [exact (mb_sort_bins valueof)|apply ph_run]. Qed.

  Theorem ckk_generator_sums_manager_names (k : nat) (items : list A) (init : option Z) :
    map (map_bins valueof) (ckk_generator valueof nameof false k items init) =
    ckk_generator idv nameof' false k (map valueof items) init.
  Proof. apply ckk_generator_of_run. intros mode. apply ph_run. Qed.
End SumsNames.

Lemma rmap_sums_mb {A} (valueof : A -> Z) (r : result (bins A)) :
  rmap sums (rmap (map_bins valueof) r) = rmap sums r.
Proof. destruct r as [b|e]; cbn [rmap]; [|reflexivity]. rewrite (map_bins_sums valueof). reflexivity. Qed.

Corollary ckk_sums_output_names {A : Type} (valueof nameof : A -> Z) (k : nat) (items : list A) :
  rmap sums (ckk valueof nameof false k items) = rmap sums (ckk zid zid false k (map valueof items)).
Proof.
  unfold zid. rewrite <- (ckk_sums_manager_names valueof nameof idv k items). symmetry. apply rmap_sums_mb.
Qed.

Corollary ckk_generator_sums_output_names {A : Type} (valueof nameof : A -> Z) (k : nat) (items : list A)
    (init : option Z) :
  map sums (ckk_generator valueof nameof false k items init) =
  map sums (ckk_generator zid zid false k (map valueof items) init).
Proof.
  unfold zid. rewrite <- (ckk_generator_sums_manager_names valueof nameof (fun x : Z => x) k items init).
  rewrite map_map. apply map_ext. intros b. rewrite (map_bins_sums valueof). reflexivity.
Qed.

(** An algorithm for which the two lock-step equations hold gives equal sums on any two
    presentations of the same values, with either manager: both runs have the sums of the sums
    manager on the plain values.  (ckk below; snp and rnp in Proofs/SNPNamesProofs.v.) *)
Section TwoPresentations.
  Variable alg : forall T : Type, (T -> Z) -> (T -> Z) -> bool -> nat -> list T -> result (bins T).
  Hypothesis alg_erase : forall T (v n : T -> Z) k items, names_ok v n items ->
    rmap erase (alg T v n true k items) = alg T v n false k items.
  Hypothesis alg_values : forall T (v n : T -> Z) k items, names_ok v n items ->
    rmap (map_bins v) (alg T v n false k items) = alg Z idv idv false k (map v items).

  Lemma sums_to_values {T} (v n : T -> Z) (keep : bool) (k : nat) (items : list T) :
    names_ok v n items ->
    rmap sums (alg T v n keep k items) = rmap sums (alg Z idv idv false k (map v items)).
  Proof.
    intros HN. rewrite <- (alg_values T v n k items HN), rmap_sums_mb.
    destruct keep; [|reflexivity].
    rewrite <- (alg_erase T v n k items HN). symmetry. apply rmap_sums_erase.
  Qed.

  Lemma names_sums_any {A B} (valueof nameof : A -> Z) (valueof' nameof' : B -> Z) (keep : bool) (k : nat)
        (items : list A) (items' : list B) :
    map valueof items = map valueof' items' ->
    names_ok valueof nameof items -> names_ok valueof' nameof' items' ->
    rmap sums (alg A valueof nameof keep k items) = rmap sums (alg B valueof' nameof' keep k items').
  Proof.
    intros EV HN HN'.
    rewrite (sums_to_values valueof nameof keep k items HN), (sums_to_values valueof' nameof' keep k items' HN'), EV.
    reflexivity.
  Qed.
End TwoPresentations.

(** * Presentation (property C07) for the CONTENTS manager: the sums returned depend on the
      values only, as long as the names determine the values.  (The contents of the bins do
      depend on the names: NamesProofs.ckk_names_exact_false.) *)
Section NamesSums.
  Context {A B : Type} (valueof nameof : A -> Z) (valueof' nameof' : B -> Z).

  (** two presentations of the same list of values *)
  Theorem ckk_names_sums_gen (k : nat) (items : list A) (items' : list B) :
    map valueof items = map valueof' items' ->
    names_ok valueof nameof items -> names_ok valueof' nameof' items' ->
    rmap sums (ckk valueof nameof true k items) = rmap sums (ckk valueof' nameof' true k items').
  Proof.
    exact (names_sums_any (@ckk) (@ckk_erase)
             (fun T v n k items _ => ckk_sums_manager_names v n idv k items)
             valueof nameof valueof' nameof' true k items items').
  Qed.

  Theorem ckk_generator_names_sums_gen (k : nat) (items : list A) (items' : list B) (init : option Z) :
    map valueof items = map valueof' items' ->
    names_ok valueof nameof items -> names_ok valueof' nameof' items' ->
    map sums (ckk_generator valueof nameof true k items init) =
    map sums (ckk_generator valueof' nameof' true k items' init).
  Proof.
    intros EV HN HN'.
    assert (E : forall T (l : list (bins T)), map sums (map erase l) = map sums l).
    { intros T l. rewrite map_map. apply map_ext. intros b. apply sums_erase. }
    rewrite <- (E A), <- (E B).
    rewrite (ckk_generator_erase valueof nameof k items init HN),
            (ckk_generator_erase valueof' nameof' k items' init HN').
    rewrite (ckk_generator_sums_output_names valueof nameof),
            (ckk_generator_sums_output_names valueof' nameof'), EV.
    reflexivity.
  Qed.
End NamesSums.

(** named items against their plain values (a Python dict against the list of its values) *)
Theorem ckk_names_sums {A : Type} (valueof nameof : A -> Z) (k : nat) (items : list A) :
  names_ok valueof nameof items ->
  rmap sums (ckk valueof nameof true k items) =
  rmap sums (ckk (fun v : Z => v) (fun v : Z => v) true k (map valueof items)).
Proof.
  intros HN. apply ckk_names_sums_gen; [|exact HN|apply names_ok_values].
  rewrite map_id. reflexivity.
Qed.

Theorem ckk_generator_names_sums {A : Type} (valueof nameof : A -> Z) (k : nat) (items : list A)
    (init : option Z) :
  names_ok valueof nameof items ->
  map sums (ckk_generator valueof nameof true k items init) =
  map sums (ckk_generator (fun v : Z => v) (fun v : Z => v) true k (map valueof items) init).
Proof.
  intros HN. apply ckk_generator_names_sums_gen; [|exact HN|apply names_ok_values].
  rewrite map_id. reflexivity.
Qed.

(** the statement left open before the repair *)
Definition ckk_names_sums_statement : Prop :=
  forall (A : Type) (valueof nameof : A -> Z) (k : nat) (items : list A) (b : bins A) (b' : bins Z),
    (1 <= k)%nat -> items <> [] -> Forall (fun x => 0 <= valueof x) items ->
    names_ok valueof nameof items ->
    ckk valueof nameof true k items = Ok b ->
    ckk zid zid true k (map valueof items) = Ok b' ->
    sums b = sums b'.

Theorem ckk_names_sums_holds : ckk_names_sums_statement.
Proof.
  intros A valueof nameof k items b b' _ _ _ HN. apply rmap_sums_ok, ckk_names_sums. exact HN.
Qed.

(** * The witnesses of the head comment.  Each run is evaluated once (the contents run on [w4] in
      EraseProofs.ckk_contents_w4, otherwise the run of the sums manager); whatever relates the
      two managers or two presentations is an instance of the theorems above. *)

(** plain values (names = values, as for a Python list of numbers) *)
Definition w4 : list Z := [4; 5; 7; 9; 10; 10; 12; 14; 15].

Example ckk_managers_sums_agree_4 :
  ckk zid zid true 4 w4 = Ok [(20, [5; 15]); (20, [10; 10]); (23, [4; 7; 12]); (23, [9; 14])] /\
  ckk zid zid false 4 w4 = Ok [(20, []); (20, []); (23, []); (23, [])] /\
  rmap erase (ckk zid zid true 4 w4) = ckk zid zid false 4 w4.
Proof.
  pose proof (ckk_managers_agree zid zid 4 w4 (names_ok_values zid w4)) as E.
  split; [exact ckk_contents_w4|]. split; [|exact E].
  rewrite <- E. exact (f_equal (rmap erase) ckk_contents_w4).
Qed.

(** * Property C06 at the output level on the witness *)
Example C06_ckk_sums_holds :
  run_output_r OSums (fun keep => ckk zid zid keep 4 w4) = Ok (OutSums [20; 20; 23; 23]) /\
  rmap (fun b => derive (A:=Z) OSums (sums b)) (ckk zid zid true 4 w4) = Ok (OutSums [20; 20; 23; 23]) /\
  run_output_r OSorted (fun keep => ckk zid zid keep 4 w4) =
  rmap (fun b => derive (A:=Z) OSorted (sums b)) (ckk zid zid true 4 w4).
Proof.
  pose proof (names_ok_values zid w4) as HN. destruct ckk_managers_sums_agree_4 as (Et & _).
  split; [|split].
  - rewrite (C06_ckk zid zid OSums 4 w4 eq_refl HN), Et. reflexivity.
  - rewrite Et. reflexivity.
  - apply C06_ckk; [reflexivity|exact HN].
Qed.

(** * Named items with pairwise distinct values and names given in the order opposite to the
      values (a Python dict {'i':4,'h':5,...}).  item = (name, value) *)
Definition w4n : list (Z * Z) :=
  [(9, 4); (8, 5); (7, 7); (6, 9); (5, 10); (4, 11); (3, 13); (2, 15); (1, 16)].

Example ckk_managers_sums_agree_named :
  rmap sums (ckk (@snd Z Z) (@fst Z Z) true 4 w4n) = Ok [21; 21; 24; 24] /\
  rmap sums (ckk (@snd Z Z) (@fst Z Z) false 4 w4n) = Ok [21; 21; 24; 24] /\
  rmap sums (ckk zid zid true 4 (map snd w4n)) = Ok [21; 21; 24; 24].
Proof.
  assert (HN : names_ok (@snd Z Z) (@fst Z Z) w4n).
  { apply names_ok_nodup. unfold w4n. cbn [map fst]. repeat constructor; cbn [In]; intuition discriminate. }
  assert (Ef : rmap sums (ckk (@snd Z Z) (@fst Z Z) false 4 w4n) = Ok [21; 21; 24; 24])
    by (vm_compute; reflexivity).
  unfold zid. rewrite <- (ckk_names_sums snd fst 4 w4n HN), (ckk_erase_sums snd fst 4 w4n HN).
  split; [exact Ef|]. split; exact Ef.
Qed.

(** * Five bins *)
Definition w5 : list Z := [3; 4; 5; 6; 7; 8; 9; 11; 12; 13; 13].

Example ckk_managers_sums_agree_5 :
  rmap sums (ckk zid zid true 5 w5) = Ok [17; 17; 19; 19; 19] /\
  rmap sums (ckk zid zid false 5 w5) = Ok [17; 17; 19; 19; 19].
Proof.
  rewrite (ckk_erase_sums zid zid 5 w5 (names_ok_values zid w5)).
  assert (Ef : rmap sums (ckk zid zid false 5 w5) = Ok [17; 17; 19; 19; 19]) by (vm_compute; reflexivity).
  split; exact Ef.
Qed.

(** [names_ok] cannot be dropped (all names equal: the contents manager misses the optimum) *)
Example ckk_names_sums_needs_names_ok :
  rmap sums (ckk zid (fun _ => 0) true 2 [4; 5; 6; 7; 8]) = Ok [12; 18] /\
  rmap sums (ckk zid zid true 2 [4; 5; 6; 7; 8]) = Ok [15; 15].
Proof. vm_compute. split; reflexivity. Qed.

Check @ckk_managers_agree.
Check ckk_managers_sums.
Check @ckk_sums_manager_names.
Check @ckk_names_sums_gen.
Print Assumptions ckk_managers_agree.
Print Assumptions ckk_managers_sums.
Print Assumptions ckk_managers_sums_agree_4.
Print Assumptions C06_ckk_sums_holds.
Print Assumptions ckk_managers_sums_agree_named.
Print Assumptions ckk_managers_sums_agree_5.
Print Assumptions ckk_sums_manager_names.
Print Assumptions ckk_generator_sums_manager_names.
Print Assumptions ckk_sums_output_names.
Print Assumptions ckk_generator_sums_output_names.
Print Assumptions ckk_names_sums_gen.
Print Assumptions ckk_generator_names_sums_gen.
Print Assumptions ckk_names_sums.
Print Assumptions ckk_generator_names_sums.
Print Assumptions ckk_names_sums_holds.
