(** The 17/10 bound for best-fit (Johnson, Demers, Ullman, Garey, Graham 1974), by the weight
    function and Lemma 2 ([heavy2]) of FF17Proofs.v.

    Main result (b = bins returned by best_fit, n = any number of bins of capacity C into which
    the values can be packed, in particular the optimum):

      bf_ratio_17_strong :  10 * length b <= 17 * n + 9     (BF <= ceil(17/10 OPT))
      bf_ratio_17        :  10 * length b <= 17 * n + 20    (the form of property C09)

    The invariant [sfit] of first-fit (NO item fits into an earlier bin) is false for best-fit
    (Example [bf_no_sfit_order] in FF17Proofs.v), but best-fit keeps the two properties that
    [heavy2] needs:
      - [anyfit] (Spec/Partition.v): the first item of a bin fits into no earlier bin;
      - [bf2] (BFDRatioProofs.v): the second item y of a bin whose first item x is at most C/2
        fits into no earlier bin (when y was placed its bin held only x; an earlier bin of sum s
        into which y fits has s <= x since best-fit prefers the fullest bin, and C < s + x by
        any-fit, so C < 2 x).
    Both hold at the sums of the time of placement, hence at the final (larger) sums.
    [bf_inv2] establishes Inv /\ bf2 for every input (BFDRatioProofs.v has it for sorted inputs
    only). *)
From Prtpy Require Import Base.Prelude Model.Binner Model.Packing Spec.Partition
  Proofs.BaseLemmas Proofs.BinnerLemmas Proofs.PackingProofs Proofs.FFDRatioProofs
  Proofs.BFDRatioProofs Proofs.FF17Proofs.
From Coq Require Import ZifyBool.

Section BFInv2.
  Context {A : Type} (valueof : A -> Z).
  Notation add := (add_to_bin valueof true).

  Lemma bf_inv2 C (items : list A) (b : bins A) :
    items <> [] -> Forall (fun x => 0 <= valueof x) items ->
    best_fit valueof true C items = Ok b -> Inv valueof C b items /\ bf2 valueof C b.
  Proof.
    intros Hne Hnn H. unfold best_fit in H. rewrite bf_loop_gloop in H.
    apply (gloop_af_first valueof (bf_place valueof true) C (bf_is_step valueof C) (bf2 valueof C));
      try assumption.
    - intros x b0 acc Hx (Hw & _ & _ & _ & Hsn & Ha) _ H2. apply bf_place_bf2; auto. lia.
    - intros x. cbn [bf2]. split; constructor.
  Qed.
End BFInv2.

Section BF17.
  Context {A : Type} (valueof : A -> Z).

  Lemma bf_facts C (items : list A) (b : bins A) (n : nat) :
    items <> [] -> Forall (fun x : A => 0 <= valueof x) items ->
    best_fit valueof true C items = Ok b -> Packable C (map valueof items) n ->
    Inv valueof C b items /\ bf2 valueof C b /\ 0 <= C /\ (1 <= n)%nat /\
    Forall (fun y => 0 <= valueof y) (contents b).
  Proof.
    intros Hne Hnn Hbf Hpack. destruct (bf_inv2 valueof C items b Hne Hnn Hbf) as [HI Hb2].
    split; [exact HI|]. split; [exact Hb2|exact (Inv_facts valueof C items b n Hne Hnn HI Hpack)].
  Qed.

  Theorem bf_ratio_17_strong C (items : list A) (b : bins A) (n : nat) :
    items <> [] -> Forall (fun x : A => 0 <= valueof x) items ->
    best_fit valueof true C items = Ok b -> Packable C (map valueof items) n ->
    (10 * length b <= 17 * n + 9)%nat.
  Proof.
    intros Hne Hnn Hbf Hpack.
    destruct (bf_facts C items b n Hne Hnn Hbf Hpack) as (HI & Hb2 & HC & Hn & Hnnb).
    apply (ratio_17_core valueof C items b n); assumption.
  Qed.

  (** the form of property C09 *)
  Theorem bf_ratio_17 C (items : list A) (b : bins A) (n : nat) :
    items <> [] -> Forall (fun x : A => 0 <= valueof x) items ->
    best_fit valueof true C items = Ok b -> Packable C (map valueof items) n ->
    (10 * length b <= 17 * n + 20)%nat.
  Proof.
    intros Hne Hnn Hbf Hpack. pose proof (bf_ratio_17_strong C items b n Hne Hnn Hbf Hpack). lia.
  Qed.

  (** against the optimum *)
  Corollary bf_ratio_17_minbins C (items : list A) (b : bins A) (n : nat) :
    items <> [] -> Forall (fun x : A => 0 <= valueof x) items ->
    best_fit valueof true C items = Ok b -> MinBins C (map valueof items) n ->
    (10 * length b <= 17 * n + 9)%nat.
  Proof. intros Hne Hnn Hbf [Hpack _]. apply (bf_ratio_17_strong C items b n); assumption. Qed.
End BF17.

(** the run of FF17Proofs.bf_no_sfit_order: [sfit] fails, [anyfit] and [bf2] are what remains *)
Example bf17_run_example :
  best_fit (fun v : Z => v) true 100 [20; 81; 5; 70; 4] = Ok [(94, [20; 70; 4]); (86, [81; 5])] /\
  wsum 100 [20; 81; 5; 70; 4] = 2368.
Proof. vm_compute. repeat split. Qed.

Print Assumptions bf_ratio_17_strong.
Print Assumptions bf_ratio_17.
Print Assumptions bf_ratio_17_minbins.
