(** Frame, independence and consistency facts about the documented effects of the bins-manager
    operations (Spec/AbsBins.v).  Together with Proofs/HeapProofs.v (the object-heap model shows
    exactly these effects) they give C16 and the aliasing part of C15. *)
From Prtpy Require Import Base.Prelude Model.Binner Model.BinnerHeap Spec.AbsBins Proofs.BaseLemmas Proofs.BinnerLemmas
  Proofs.HeapProofs.
From Coq Require Import Sorting.Sorted.

Section Purity.
  Context {A : Type} (valueof : A -> Z).
  Notation pstate := (@pstate A).
  Notation op := (@op A).

  (** the arrays an operation is documented to change or consume *)
  Definition targets (o : op) : list nat :=
    match o with
    | OpNew _ _ | OpCopy _ => []
    | OpAdd h _ _ | OpSort h | OpAddEmpty h _ | OpRemove h _ => [h]
    | OpConcat h1 h2 => [h1; h2]
    | OpCombine h1 _ _ _ => [h1]
    end.

  (** FRAME: an operation changes only the arrays it names *)
  Theorem pure_step_frame : forall (st : pstate) (o : op) (h : nat) (e : bool * bins A),
    plive st h = Some e -> ~ In h (targets o) -> plive (pure_step valueof st o) h = Some e.
  Proof.
    intros st o h e Hl Hn.
    destruct o as [keep n|h0 x i|h0|h0|h0 n|h0 n|h1 h2|h1 i1 h2 i2]; cbn [pure_step targets] in *.
    - apply (plive_kills_snoc st []); assumption.
    - destruct (plive st h0) as [[k b]|]; [|exact Hl]. rewrite plive_update_other by (cbn [In] in Hn; tauto). exact Hl.
    - destruct (plive st h0) as [e0|]; [|exact Hl]. apply (plive_kills_snoc st []); assumption.
    - destruct (plive st h0) as [[k b]|]; [|exact Hl]. rewrite plive_update_other by (cbn [In] in Hn; tauto). exact Hl.
    - destruct (plive st h0) as [[k b]|]; [|exact Hl]. apply (plive_kills_snoc st [h0]); assumption.
    - destruct (plive st h0) as [[k b]|]; [|exact Hl]. apply (plive_kills_snoc st [h0]); assumption.
    - destruct (plive st h1) as [[k b1]|]; [|exact Hl]. destruct (plive st h2) as [[k2 b2]|]; [|exact Hl].
      apply (plive_kills_snoc st [h2; h1]); [exact Hl|cbn [In] in *; tauto].
    - destruct (plive st h1) as [[k b1]|]; [|exact Hl]. destruct (plive st h2) as [[k2 b2]|]; [|exact Hl].
      rewrite plive_update_other by (cbn [In] in Hn; tauto). exact Hl.
  Qed.

  (** in particular the second argument of combine_bins and the argument of copy_bins are never altered *)
  Corollary combine_source_untouched : forall (st : pstate) h1 i1 h2 i2 e, h1 <> h2 ->
    plive st h2 = Some e -> plive (pure_step valueof st (OpCombine h1 i1 h2 i2)) h2 = Some e.
  Proof. intros st h1 i1 h2 i2 e Hd Hl. apply pure_step_frame; [exact Hl|]. cbn. intros [E|[]]. apply Hd. exact E. Qed.

  (** COPY: the new array equals the original, and the original is unchanged; by the frame theorem
      every later operation on one of them leaves the other untouched (independence both ways) *)
  Theorem pure_copy_independent : forall (st : pstate) (h : nat) (e : bool * bins A),
    plive st h = Some e ->
    plive (pure_step valueof st (OpCopy h)) h = Some e /\
    plive (pure_step valueof st (OpCopy h)) (length st) = Some e /\
    length st <> h.
  Proof.
    intros st h e Hl. pose proof (plive_lt st h e Hl) as Hlt. cbn [pure_step]. rewrite Hl.
    split; [rewrite plive_app_l by exact Hlt; exact Hl|]. split; [apply plive_snoc_last|lia].
  Qed.

  (** SORT: sums and contents are permuted together into non-decreasing order of sum *)
  Theorem pure_sort_sorted : forall (st : pstate) (h : nat) (k : bool) (b : bins A),
    plive st h = Some (k, b) ->
    plive (pure_step valueof st (OpSort h)) h = Some (k, sort_bins b) /\
    StronglySorted Z.le (sums (sort_bins b)) /\ Permutation (sort_bins b) b.
  Proof.
    intros st h k b Hl. cbn [pure_step]. rewrite Hl. split; [|split; [apply sort_bins_sorted|apply sort_bins_perm]].
    apply plive_update_same. eapply plive_lt. exact Hl.
  Qed.

  (** CONSISTENCY: in every state reached by documented effects, each bin sum of a contents-keeping
      array is the total value of its recorded items *)
  Definition pstate_wf (st : pstate) : Prop :=
    forall h b, plive st h = Some (true, b) -> wf valueof b.

  Lemma pstate_wf_snoc (st : pstate) k b : pstate_wf st -> (k = true -> wf valueof b) -> pstate_wf (st ++ [Some (k, b)]).
  Proof.
    intros Hw Hb h b' Hl. apply plive_app_cases in Hl. destruct Hl as [[_ Hl]|[_ [= -> ->]]]; [eapply Hw; exact Hl|auto].
  Qed.

  Lemma pstate_wf_kill (st : pstate) h : pstate_wf st -> pstate_wf (kill h st).
  Proof. intros Hw g b Hl. apply plive_kill in Hl. eapply Hw. apply Hl. Qed.

  Lemma pstate_wf_update (st : pstate) h k b : pstate_wf st -> (k = true -> wf valueof b) ->
    pstate_wf (update h (fun _ => Some (k, b)) st).
  Proof.
    intros Hw Hb g b' Hl. destruct (Nat.eq_dec h g) as [<-|Hne].
    - rewrite plive_update_same in Hl by (apply plive_lt in Hl; rewrite update_length in Hl; exact Hl).
      injection Hl as -> ->. auto.
    - rewrite plive_update_other in Hl by exact Hne. eapply Hw. exact Hl.
  Qed.

  Lemma wf_firstn n (b : bins A) : wf valueof b -> wf valueof (firstn n b).
  Proof. unfold wf. rewrite !Forall_forall. intros H x Hx. apply H. eapply In_firstn. exact Hx. Qed.

  Lemma wf_update i f (b : bins A) : wf valueof b -> (forall x, wf_bin valueof x -> wf_bin valueof (f x)) -> wf valueof (update i f b).
  Proof.
    unfold wf. revert i. induction b as [|x t IH]; intros i H Hf; [destruct i; constructor|].
    inversion H as [|? ? Hx Ht]; subst. destruct i as [|j]; cbn [update]; constructor; auto.
  Qed.

  Lemma pure_step_wf (st : pstate) (o : op) : pstate_wf st -> disciplined st o -> pstate_wf (pure_step valueof st o).
  Proof.
    intros Hw Hd.
    destruct o as [keep n|h x i|h|h|h n|h n|h1 h2|h1 i1 h2 i2]; cbn [pure_step disciplined] in *.
    - apply pstate_wf_snoc; [exact Hw|]. intros _. apply new_bins_wf.
    - destruct Hd as (k & b & Hp & Hi). rewrite Hp. apply pstate_wf_update; [exact Hw|].
      intros ->. apply add_item_wf. eapply Hw. exact Hp.
    - destruct Hd as ([k b] & Hp). rewrite Hp. apply pstate_wf_snoc; [exact Hw|]. intros ->. eapply Hw. exact Hp.
    - destruct Hd as ([k b] & Hp). rewrite Hp. apply pstate_wf_update; [exact Hw|].
      intros ->. apply sort_bins_wf. eapply Hw. exact Hp.
    - destruct Hd as ([k b] & Hp). rewrite Hp. apply pstate_wf_snoc; [apply pstate_wf_kill; exact Hw|].
      intros ->. apply Forall_app. split; [eapply Hw; exact Hp|apply new_bins_wf].
    - destruct Hd as (k & b & Hp & Hn). rewrite Hp. apply pstate_wf_snoc; [apply pstate_wf_kill; exact Hw|].
      intros ->. apply wf_firstn. eapply Hw. exact Hp.
    - destruct Hd as (_ & k & b1 & b2 & Hp1 & Hp2). rewrite Hp1, Hp2.
      apply pstate_wf_snoc; [apply pstate_wf_kill, pstate_wf_kill; exact Hw|].
      intros ->. apply Forall_app. split; [eapply Hw; exact Hp1|eapply Hw; exact Hp2].
    - destruct Hd as (k & b1 & b2 & Hp1 & Hp2 & _). rewrite Hp1, Hp2. apply pstate_wf_update; [exact Hw|].
      intros ->. unfold combine_bins. destruct (nth_opt b2 i2) as [x|] eqn:E2; [|eapply Hw; exact Hp1].
      apply wf_update; [eapply Hw; exact Hp1|]. intros y Hy. apply combine_bin_wf; [exact Hy|].
      pose proof (Hw _ _ Hp2) as H2. unfold wf in H2. rewrite Forall_forall in H2. apply H2. eapply nth_opt_In. exact E2.
  Qed.

  Lemma pure_fold_wf (ops : list op) : forall st, pstate_wf st -> disciplined_run valueof st ops ->
    pstate_wf (fold_left (pure_step valueof) ops st).
  Proof.
    induction ops as [|o t IH]; intros st Hw Hd; cbn [fold_left]; [exact Hw|].
    destruct Hd as [Ho Ht]. apply IH; [apply pure_step_wf; assumption|exact Ht].
  Qed.

  Theorem pure_run_wf : forall (ops : list op), disciplined_run valueof [] ops ->
    forall h b, plive (pure_run valueof ops) h = Some (true, b) -> wf valueof b.
  Proof. intros ops Hd. apply pure_fold_wf; [|exact Hd]. intros h b Hl. destruct h; discriminate. Qed.
End Purity.

Print Assumptions pure_step_frame.
Print Assumptions pure_copy_independent.
Print Assumptions pure_sort_sorted.
Print Assumptions pure_run_wf.
