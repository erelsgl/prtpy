(** floor / ceil of a correctly rounded float division of integers.

    prtpy/objectives.py computes lower bounds with [np.floor(a / i)] and [np.ceil(a / k)] where
    [a] and [i] are Python numbers holding integers; the Gallina model (Model/Objectives.v) uses
    the exact integer quotients [a / i] (Z.div, floor) and [cdiv a i] (ceiling) instead.  This file
    discharges that modelling assumption ("floor_fl_div") relative to the dyadic model of IEEE
    binary64 of Model/Multifit.v: [rnd53 a i] is the correctly rounded (53 significant bits,
    round-to-nearest-even) quotient, see [rnd53_rounds] in Proofs/MultifitProofs.v.

      floor_fl_div : 0 <= a < 2^53 -> 1 <= i -> ffloor (rnd53 a i) = a / i
      ceil_fl_div  : 0 <= a < 2^53 -> 1 <= i -> fceil  (rnd53 a i) = cdiv a i

    Proof: let x = a/i, q = floor x, c = ceil x.  q and c are integers <= 2^53, hence
    representable, so by monotonicity of correct rounding  q <= fl(x) <= c.  The relative error of
    fl is at most 2^-53, so |fl(x) - x| <= x * 2^-53 < 1/i (because a < 2^53), while a non-integer
    x is at distance >= 1/i from both q + 1 and c - 1; hence fl(x) < q + 1 and fl(x) > c - 1.

    No bound on [i] is needed (for i > a the quotient is 0 and the ceiling 1 or 0). *)
From Prtpy Require Import Base.Prelude Model.Multifit Proofs.MultifitProofs.
From Coq Require Import QArith Qround Lqa ZifyBool.
Open Scope Z_scope.

(** smallest integer >= the dyadic value (numpy.ceil on a non-negative double) *)
Definition fceil (x : dyadic) : Z :=
  if 0 <=? snd x then fst x * 2 ^ snd x else cdiv (fst x) (2 ^ (- snd x)).

Lemma fceil_spec x : (inject_Z (fceil x - 1) < dval x)%Q /\ (dval x <= inject_Z (fceil x))%Q.
Proof.
  unfold fceil. destruct (0 <=? snd x) eqn:E.
  - unfold dval. rewrite p2_Z by lia. rewrite <- inject_Z_mult. split; [|apply Qle_refl].
    rewrite <- Zlt_Qlt. lia.
  - set (D := 2 ^ (- snd x)). assert (HD : 0 < D) by (apply pow2_pos; lia).
    pose proof (cdiv_spec (fst x) D HD) as B. set (c := cdiv (fst x) D) in *.
    assert (PD : (0 < inject_Z D)%Q) by (apply inject_Z_pos; exact HD).
    assert (X : (dval x * inject_Z D == inject_Z (fst x))%Q) by (apply dval_neg_exp; lia).
    split.
    + apply (Qmult_lt_r _ _ (inject_Z D) PD). rewrite X, <- inject_Z_mult, <- Zlt_Qlt. nia.
    + apply (Qcancel_r _ _ (inject_Z D) PD). rewrite X, <- inject_Z_mult, <- Zle_Qle. nia.
Qed.

(** an integer strictly below / at least the value bounds floor and ceiling *)
Lemma ffloor_lt z x : (dval x < inject_Z z)%Q -> ffloor x < z.
Proof.
  intros H. destruct (ffloor_spec x) as [H1 _].
  assert (H3 : (inject_Z (ffloor x) < inject_Z z)%Q) by (eapply Qle_lt_trans; eassumption).
  rewrite <- Zlt_Qlt in H3. exact H3.
Qed.

Lemma fceil_le z x : (dval x <= inject_Z z)%Q -> fceil x <= z.
Proof.
  intros H. destruct (fceil_spec x) as [H1 _].
  assert (H3 : (inject_Z (fceil x - 1) < inject_Z z)%Q) by (eapply Qlt_le_trans; eassumption).
  rewrite <- Zlt_Qlt in H3. lia.
Qed.

Lemma fceil_gt z x : (inject_Z z < dval x)%Q -> z < fceil x.
Proof.
  intros H. destruct (fceil_spec x) as [_ H2].
  assert (H3 : (inject_Z z < inject_Z (fceil x))%Q) by (eapply Qlt_le_trans; eassumption).
  rewrite <- Zlt_Qlt in H3. exact H3.
Qed.

(** the rounded quotient lies in  (ceil - 1, floor + 1)  and in  [floor, ceil] *)
Lemma fl_div_bounds a i : 0 <= a < 2 ^ 53 -> 1 <= i ->
  (inject_Z (a / i) <= dval (rnd53 a i))%Q /\ (dval (rnd53 a i) < inject_Z (a / i + 1))%Q /\
  (inject_Z (cdiv a i - 1) < dval (rnd53 a i))%Q /\ (dval (rnd53 a i) <= inject_Z (cdiv a i))%Q.
Proof.
  intros Ha Hi. assert (Hi0 : 0 < i) by lia.
  set (x := (inject_Z a / inject_Z i)%Q).
  assert (X : (x * inject_Z i == inject_Z a)%Q) by (apply Qdiv_Z_spec; exact Hi0).
  pose proof (rnd53_rounds a i x ltac:(lia) Hi0 X) as (_ & Hlo & Hhi & Elo & Ehi).
  set (r := rnd53 a i) in *.
  pose proof (Z.div_mod a i ltac:(lia)) as Dm. pose proof (Z.mod_pos_bound a i Hi0) as Mb.
  set (q := a / i) in *.
  pose proof (cdiv_spec a i Hi0) as Cb. set (c := cdiv a i) in *.
  assert (PI : (0 < inject_Z i)%Q) by (apply inject_Z_pos; exact Hi0).
  assert (T53 : (0 < inject_Z (2 ^ 53))%Q) by reflexivity.
  assert (Hq : 0 <= q <= 2 ^ 53) by nia.
  assert (Hc : 0 <= c <= 2 ^ 53) by nia.
  split; [|split; [|split]].
  - (* q <= x and q representable *)
    rewrite <- (dval_fof_Z q). apply Hlo; [apply fof_Z_repr; exact Hq|].
    rewrite dval_fof_Z. apply (Qcancel_r _ _ (inject_Z i) PI). rewrite X, <- inject_Z_mult, <- Zle_Qle. nia.
  - (* r * 2^53 * i <= a * (2^53 + 1) < (q + 1) * i * 2^53 *)
    apply (Qmult_lt_r _ _ (inject_Z (2 ^ 53) * inject_Z i)%Q); [nra|].
    assert (E1 : (dval r * inject_Z (2 ^ 53) * inject_Z i <= x * inject_Z (2 ^ 53 + 1) * inject_Z i)%Q)
      by (apply Qmult_le_compat_r; lra).
    assert (E2 : (x * inject_Z (2 ^ 53 + 1) * inject_Z i == inject_Z (a * (2 ^ 53 + 1)))%Q).
    { rewrite inject_Z_mult, <- X. ring. }
    assert (E3 : (inject_Z (a * (2 ^ 53 + 1)) < inject_Z ((q + 1) * (2 ^ 53 * i)))%Q) by (rewrite <- Zlt_Qlt; nia).
    rewrite !inject_Z_mult in E3. rewrite inject_Z_mult in E2. lra.
  - (* (c - 1) * i * 2^53 < a * (2^53 - 1) <= r * 2^53 * i *)
    apply (Qmult_lt_r _ _ (inject_Z (2 ^ 53) * inject_Z i)%Q); [nra|].
    assert (E1 : (x * inject_Z (2 ^ 53 - 1) * inject_Z i <= dval r * inject_Z (2 ^ 53) * inject_Z i)%Q)
      by (apply Qmult_le_compat_r; lra).
    assert (E2 : (x * inject_Z (2 ^ 53 - 1) * inject_Z i == inject_Z (a * (2 ^ 53 - 1)))%Q).
    { rewrite inject_Z_mult, <- X. ring. }
    assert (E3 : (inject_Z ((c - 1) * (2 ^ 53 * i)) < inject_Z (a * (2 ^ 53 - 1)))%Q) by (rewrite <- Zlt_Qlt; nia).
    rewrite !inject_Z_mult in E3. rewrite inject_Z_mult in E2. lra.
  - (* x <= c and c representable *)
    rewrite <- (dval_fof_Z c). apply Hhi; [apply fof_Z_repr; exact Hc|].
    rewrite dval_fof_Z. apply (Qcancel_r _ _ (inject_Z i) PI). rewrite X, <- inject_Z_mult, <- Zle_Qle. nia.
Qed.

(** np.floor(a / i) = a // i *)
Theorem floor_fl_div a i : 0 <= a < 2 ^ 53 -> 1 <= i -> ffloor (rnd53 a i) = a / i.
Proof.
  intros Ha Hi. destruct (fl_div_bounds a i Ha Hi) as (H1 & H2 & _ & _).
  apply ffloor_ge in H1. apply ffloor_lt in H2. lia.
Qed.

(** np.ceil(a / i) = -((-a) // i) *)
Theorem ceil_fl_div a i : 0 <= a < 2 ^ 53 -> 1 <= i -> fceil (rnd53 a i) = cdiv a i.
Proof.
  intros Ha Hi. destruct (fl_div_bounds a i Ha Hi) as (_ & _ & H3 & H4).
  apply fceil_gt in H3. apply fceil_le in H4. lia.
Qed.

(** [fdiv_int] is the model's name for Python's int / int *)
Corollary floor_fdiv_int a i : 0 <= a < 2 ^ 53 -> 1 <= i -> ffloor (fdiv_int a i) = a / i.
Proof. apply floor_fl_div. Qed.
Corollary ceil_fdiv_int a i : 0 <= a < 2 ^ 53 -> 1 <= i -> fceil (fdiv_int a i) = cdiv a i.
Proof. apply ceil_fl_div. Qed.

(** ---- examples ---- *)
Example floor_fl_div_big : ffloor (rnd53 (2 ^ 53 - 1) 3) = 3002399751580330 /\ (2 ^ 53 - 1) / 3 = 3002399751580330.
Proof. vm_compute. split; reflexivity. Qed.
Example ceil_fl_div_big : fceil (rnd53 (2 ^ 53 - 1) 3) = 3002399751580331 /\ cdiv (2 ^ 53 - 1) 3 = 3002399751580331.
Proof. vm_compute. split; reflexivity. Qed.
Example fl_div_10_3 : ffloor (rnd53 10 3) = 3 /\ fceil (rnd53 10 3) = 4.
Proof. vm_compute. split; reflexivity. Qed.
Example fl_div_exact : ffloor (rnd53 12 4) = 3 /\ fceil (rnd53 12 4) = 3.
Proof. vm_compute. split; reflexivity. Qed.
Example fl_div_small : ffloor (rnd53 3 10) = 0 /\ fceil (rnd53 3 10) = 1 /\ fceil (rnd53 0 10) = 0.
Proof. vm_compute. repeat split; reflexivity. Qed.
(** quotient just above 1: the nearest doubles are 1 and 1 + 2^-52 *)
Example fl_div_near_one :
  ffloor (rnd53 (2 ^ 53 - 1) (2 ^ 53 - 2)) = 1 /\ fceil (rnd53 (2 ^ 53 - 1) (2 ^ 53 - 2)) = 2.
Proof. vm_compute. split; reflexivity. Qed.
(** huge divisor: the quotient is tiny but positive, its ceiling is 1 *)
Example fl_div_huge_divisor : ffloor (rnd53 (2 ^ 53 - 1) (2 ^ 60)) = 0 /\ fceil (rnd53 (2 ^ 53 - 1) (2 ^ 60)) = 1.
Proof. vm_compute. split; reflexivity. Qed.

Check fceil_spec.
Check fl_div_bounds.
Check floor_fl_div.
Check ceil_fl_div.

Print Assumptions floor_fl_div.
Print Assumptions ceil_fl_div.
Print Assumptions fl_div_near_one.
