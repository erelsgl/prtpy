(** Property C07 (presentation independence) for sequential number partitioning [snp] and
    recursive number partitioning [rnp]: two presentations of the same list of values (named
    items / plain numbers / any two namings in which names determine values) give the same
    vector of bin sums.

    Route (every step is an exact lock-step simulation, proved once in [EraseProofs.snp_rnp_sim]
    for two runs on related inputs and instantiated twice):
      1. contents manager -> sums manager      [snp_erase'], [rnp_erase']  (EraseProofs.snp_rnp_erase;
         EraseProofs.snp_erase / rnp_erase carry a [nonneg] hypothesis that is not needed);
      2. sums manager on named items -> sums manager on the plain values
         [snp_sums_manager_names], [rnp_sums_manager_names].
    Step 2 is NOT a plain projection: find_diff (collections.Counter on the item names) returns
    the remaining items grouped by NAME, so with plain numbers equal values are grouped together
    while with distinct names they keep their places: the remaining items of the two runs are only
    PERMUTATIONS of each other by value.  The simulation therefore relates [items : list A] with
    any [itemsZ : list Z] such that [Permutation (map valueof items) itemsZ]; it goes through
    because every consumer sorts first (sort_desc is stable and, on plain numbers, a function of the
    multiset) or only adds up.
      3. rnp's even case feeds the CONTENTS of the partitions yielded by the 2-way generator
         (always a contents manager) back into the search: [ckk_generator_values] / [ckk_values]
         show that the contents run of ckk on named items, seen through the ascending list of
         VALUES of every bin, is the contents run on the plain values (any k).
    Results (all without [nonneg], for EVERY number of bins, errors included):
      [snp_names_sums_gen], [rnp_names_sums_gen]  two presentations with names_ok, contents manager
      [snp_names_sums_gen_false], [rnp_names_sums_gen_false]  the same for the sums manager
      [snp_names_sums], [rnp_names_sums]          named items against their plain values
    So C07 HOLDS for snp and rnp in the model; no counterexample exists (tests: all 3125 lists
    of length 5 over 0..4 with names in both orders, snp 3-4 bins, rnp 3-5 bins; 300 random runs
    of the Python library, dict against list, agree). *)
From Prtpy Require Import Base.Prelude Base.Perms Model.Binner Model.KK Model.InExTree Model.SNP
  Proofs.BaseLemmas Proofs.BinnerLemmas Proofs.EraseLemmas Proofs.EnumProofs Proofs.KKProofs Proofs.CKKOptimal
  Proofs.ObjectivesProofs Proofs.NamesProofs Proofs.SNPProofs Proofs.RNPProofs Proofs.EraseProofs
  Proofs.CKKManagersProofs.
From Coq Require Import Sorting.Sorted ZifyBool.

Local Notation idv := (fun v : Z => v).

(** ---------------------------------------------------------------------------------- *)
(** * plain numbers: everything that sorts first is a function of the multiset         *)
(** ---------------------------------------------------------------------------------- *)
Lemma map_opp_opp (l : list Z) : map Z.opp (map Z.opp l) = l.
Proof.
  rewrite map_map. induction l as [|x t IH]; cbn [map]; [reflexivity|].
  rewrite IH, Z.opp_involutive. reflexivity.
Qed.

Lemma sort_desc_idv_perm (l l' : list Z) : Permutation l l' -> sort_desc idv l = sort_desc idv l'.
Proof.
  intros P.
  assert (E : forall m : list Z, map Z.opp (sort_desc idv m) = sort_asc idv (map Z.opp m)).
  { intros m. unfold sort_desc. apply (sort_asc_map Z.opp (fun x : Z => - x) idv). intros y. reflexivity. }
  rewrite <- (map_opp_opp (sort_desc idv l)), <- (map_opp_opp (sort_desc idv l')), !E.
  f_equal. apply sort_asc_perm_eq. apply Permutation_map. exact P.
Qed.

Lemma vsum_idv (l : list Z) : vsum idv l = zsum l.
Proof. unfold vsum. rewrite map_id. reflexivity. Qed.

Lemma vsum_idv_perm (l l' : list Z) : Permutation l l' -> vsum idv l = vsum idv l'.
Proof. intros P. rewrite !vsum_idv. apply zsum_perm. exact P. Qed.

Lemma initial_heap_idv_perm (keep : bool) (k : nat) (l l' : list Z) : Permutation l l' ->
  initial_heap idv keep k l = initial_heap idv keep k l'.
Proof. intros P. unfold initial_heap. rewrite (sort_desc_idv_perm l l' P). reflexivity. Qed.

Lemma ckk_run_idv_perm (nm : Z -> Z) (keep mode : bool) (init : option Z) (k : nat) (l l' : list Z) :
  Permutation l l' -> ckk_run idv nm keep mode init k l = ckk_run idv nm keep mode init k l'.
Proof.
  intros P. unfold ckk_run. rewrite (initial_heap_idv_perm keep k l l' P), (Permutation_length P).
  reflexivity.
Qed.

Lemma ckk_idv_perm (nm : Z -> Z) (keep : bool) (k : nat) (l l' : list Z) :
  Permutation l l' -> ckk idv nm keep k l = ckk idv nm keep k l'.
Proof. intros P. unfold ckk. rewrite (ckk_run_idv_perm nm keep true None k l l' P). reflexivity. Qed.

Lemma ckk_generator_idv_perm (nm : Z -> Z) (keep : bool) (k : nat) (l l' : list Z) (init : option Z) :
  Permutation l l' -> ckk_generator idv nm keep k l init = ckk_generator idv nm keep k l' init.
Proof. intros P. unfold ckk_generator. rewrite (ckk_run_idv_perm nm keep _ init k l l' P). reflexivity. Qed.

(** ---------------------------------------------------------------------------------- *)
(** * find_diff at the level of values                                                 *)
(** ---------------------------------------------------------------------------------- *)
Section FindDiff.
  Context {A : Type} (valueof nameof : A -> Z).

  Lemma existsb_item_map (x : A) (seen : list A) :
    existsb (item_eqb idv (nameof x)) (map nameof seen) = existsb (item_eqb nameof x) seen.
  Proof. induction seen as [|y t IH]; cbn [map existsb]; [reflexivity|]. rewrite IH. reflexivity. Qed.

  Lemma distinct_in_order_map (l : list A) : forall seen,
    map nameof (distinct_in_order nameof l seen) = distinct_in_order idv (map nameof l) (map nameof seen).
  Proof.
    induction l as [|x t IH]; intros seen; cbn [map distinct_in_order]; [reflexivity|].
    rewrite existsb_item_map. destruct (existsb (item_eqb nameof x) seen); [apply IH|].
    cbn [map]. f_equal. apply (IH (x :: seen)).
  Qed.

  Lemma count_occ_b_map (x : A) (l : list A) :
    count_occ_b idv (nameof x) (map nameof l) = count_occ_b nameof x l.
  Proof.
    unfold count_occ_b. induction l as [|y t IH]; cbn [map filter]; [reflexivity|].
    change (item_eqb idv (nameof x) (nameof y)) with (item_eqb nameof x y).
    destruct (item_eqb nameof x y); cbn [length]; rewrite IH; reflexivity.
  Qed.

  Lemma find_diff_map_names (l1 l2 : list A) :
    map nameof (find_diff nameof l1 l2) = find_diff idv (map nameof l1) (map nameof l2).
  Proof.
    unfold find_diff. change (@nil Z) with (map nameof []). rewrite <- (distinct_in_order_map l1 []).
    generalize (distinct_in_order nameof l1 []) as d.
    induction d as [|x t IH]; cbn [map flat_map]; [reflexivity|].
    rewrite map_app, IH, map_repeat_eq, !count_occ_b_map. reflexivity.
  Qed.

  (** names: find_diff is the multiset difference *)
  Lemma find_diff_names_perm (items cur : list A) :
    (exists ex, Permutation (cur ++ ex) items) ->
    Permutation (map nameof (cur ++ find_diff nameof items cur)) (map nameof items).
  Proof.
    intros (ex & P). rewrite map_app, find_diff_map_names.
    apply (find_diff_perm idv); [intros x y E; exact E|].
    exists (map nameof ex). rewrite <- map_app. apply Permutation_map. exact P.
  Qed.

  (** the value carried by a name, read off a reference list *)
  Definition val_of (its : list A) (n : Z) : Z :=
    match find (fun x => nameof x =? n) its with Some x => valueof x | None => 0 end.

  Lemma val_of_name (its : list A) (x : A) :
    names_ok valueof nameof its -> In x its -> val_of its (nameof x) = valueof x.
  Proof.
    intros HN Hx. unfold val_of.
    destruct (find (fun y => nameof y =? nameof x) its) as [y|] eqn:E.
    - apply find_some in E. destruct E as [Hy E]. apply Z.eqb_eq in E. apply HN; assumption.
    - exfalso. apply (find_none _ _ E x) in Hx. rewrite Z.eqb_refl in Hx. discriminate Hx.
  Qed.

  Lemma map_val_of (its l : list A) :
    names_ok valueof nameof its -> incl l its -> map (val_of its) (map nameof l) = map valueof l.
  Proof.
    intros HN Hi. rewrite map_map. apply map_ext_in. intros x Hx. apply val_of_name; [exact HN|].
    apply Hi, Hx.
  Qed.

  (** values: under [names_ok] the values of find_diff are the multiset difference of the values *)
  Lemma find_diff_values_perm (its items cur : list A) :
    names_ok valueof nameof its -> incl items its ->
    (exists ex, Permutation (cur ++ ex) items) ->
    Permutation (map valueof (cur ++ find_diff nameof items cur)) (map valueof items).
  Proof.
    intros HN Hi Hsub. pose proof (find_diff_names_perm items cur Hsub) as P.
    apply (Permutation_map (val_of its)) in P.
    rewrite (map_val_of its items HN Hi) in P.
    rewrite (map_val_of its _ HN) in P; [exact P|].
    destruct Hsub as (ex & Pex). intros x Hx. apply in_app_or in Hx. destruct Hx as [Hx|Hx].
    - apply Hi. eapply Permutation_in; [exact Pex|]. apply in_or_app. left. exact Hx.
    - apply Hi. exact (find_diff_incl nameof items cur x Hx).
  Qed.

  (** the two presentations: the remaining items are permutations of each other by value *)
  Lemma find_diff_vperm (its items cur : list A) (itemsZ : list Z) :
    names_ok valueof nameof its -> incl items its ->
    Permutation (map valueof items) itemsZ ->
    (exists ex, Permutation (cur ++ ex) items) ->
    Permutation (map valueof (find_diff nameof items cur)) (find_diff idv itemsZ (map valueof cur)).
  Proof.
    intros HN Hi PZ Hsub. pose proof (find_diff_values_perm its items cur HN Hi Hsub) as P1.
    assert (P2 : Permutation (map valueof cur ++ find_diff idv itemsZ (map valueof cur)) itemsZ).
    { apply (find_diff_perm idv); [intros x y E; exact E|]. destruct Hsub as (ex & Pex).
      exists (map valueof ex). rewrite <- map_app, <- PZ. apply Permutation_map. exact Pex. }
    rewrite map_app in P1. apply (Permutation_app_inv_l (map valueof cur)).
    rewrite P1, P2. exact PZ.
  Qed.
End FindDiff.

(** ---------------------------------------------------------------------------------- *)
(** * totals and sorted lists of named items against plain values                      *)
(** ---------------------------------------------------------------------------------- *)
Section Proj.
  Context {A : Type} (valueof : A -> Z).

  Lemma vsum_map (l : list A) : vsum idv (map valueof l) = vsum valueof l.
  Proof. rewrite vsum_idv. reflexivity. Qed.

  Lemma vsum_vperm (l : list A) (lZ : list Z) : Permutation (map valueof l) lZ -> vsum valueof l = vsum idv lZ.
  Proof. intros P. rewrite <- vsum_map. apply vsum_idv_perm. exact P. Qed.

  Lemma sort_desc_vperm (l : list A) (lZ : list Z) : Permutation (map valueof l) lZ ->
    map valueof (sort_desc valueof l) = sort_desc idv lZ.
  Proof. intros P. rewrite sort_desc_names. apply sort_desc_idv_perm. exact P. Qed.
End Proj.

(** ---------------------------------------------------------------------------------- *)
(** * the contents run of complete Karmarkar-Karp, seen through the VALUES it holds    *)
(** ---------------------------------------------------------------------------------- *)
(** rnp feeds the CONTENTS of the two-way partitions yielded by the generator (contents
    manager) back into the search, so the sums alone are not enough: we need the multiset of
    values of every bin of every yielded partition.  [vb] maps a bins-array to (sum, ascending
    list of the values in the bin); the contents run on named items, seen through [vb], IS the
    contents run on the plain values (whose bins are sorted by name = value). *)
Definition canon (bn : bin Z) : bin Z := (fst bn, sort_asc idv (snd bn)).

Lemma canon_idem (x : bin Z) : canon (canon x) = canon x.
Proof. unfold canon. cbn [fst snd]. rewrite sort_asc_idem. reflexivity. Qed.

Lemma canon_combine (x y : bin Z) : canon (combine_bin (canon x) (canon y)) = canon (combine_bin x y).
Proof.
  unfold canon, combine_bin. cbn [fst snd]. f_equal. apply sort_asc_perm_eq.
  apply Permutation_app; apply sort_asc_perm.
Qed.

Lemma map_canon_idem (l : bins Z) : map canon (map canon l) = map canon l.
Proof. rewrite map_map. apply map_ext. intros x. apply canon_idem. Qed.

Lemma canon_zip : forall P Q : bins Z,
  map canon (zip_combine (map canon P) (map canon Q)) = map canon (zip_combine P Q).
Proof.
  induction P as [|x t IH]; intros [|y u]; cbn [map zip_combine]; try reflexivity.
  - rewrite canon_idem, map_canon_idem. reflexivity.
  - rewrite canon_combine, IH. reflexivity.
Qed.

Lemma sort_bins_canon (b : bins Z) : sort_bins (map canon b) = map canon (sort_bins b).
Proof. unfold sort_bins. symmetry. apply sort_asc_map. intros y. reflexivity. Qed.

Lemma sums_canon (b : bins Z) : sums (map canon b) = sums b.
Proof. unfold sums. rewrite map_map. apply map_ext. intros x. reflexivity. Qed.

Section VB.
  Context {A : Type} (valueof nameof : A -> Z).
  Local Notation mb := (map_bins valueof).

  Definition vb (b : bins A) : bins Z := map canon (mb b).

  Lemma vb_sums (b : bins A) : sums (vb b) = sums b.
  Proof. unfold vb. rewrite sums_canon. apply (map_bins_sums valueof). Qed.

  Lemma vb_length (b : bins A) : length (vb b) = length b.
  Proof. unfold vb. rewrite map_length. apply (mb_length valueof). Qed.

  Lemma vb_sort_bins (b : bins A) : vb (sort_bins b) = sort_bins (vb b).
  Proof. unfold vb. rewrite (mb_sort_bins valueof), sort_bins_canon. reflexivity. Qed.

  Lemma vb_wf (b : bins A) : wf valueof b -> wf idv (vb b).
  Proof.
    intros W. unfold vb, wf. rewrite (mb_map valueof), map_map. apply Forall_map.
    eapply Forall_impl; [|exact W]. intros bn Hb. unfold wf_bin, canon, pbin in *. cbn [fst snd].
    rewrite map_id, Hb. symmetry. apply zsum_perm. apply sort_asc_perm.
  Qed.

  (** ---- the initial heap ---- *)
  Lemma canon_update_repeat (f : bin Z -> bin Z) (e : bin Z) : canon e = e -> canon (f e) = f e ->
    forall k i, map canon (update i f (repeat e k)) = update i f (repeat e k).
  Proof.
    intros He Hf. induction k as [|n IH]; intros i; cbn [repeat]; [destruct i; reflexivity|].
    destruct i as [|j]; cbn [update map].
    - rewrite Hf. f_equal. clear IH. induction n as [|m IHm]; cbn [repeat map]; [reflexivity|].
      rewrite He, IHm. reflexivity.
    - rewrite He, IH. reflexivity.
  Qed.

  Lemma vb_singleton_bins (k : nat) (x : A) :
    vb (singleton_bins valueof true k x) = singleton_bins idv true k (valueof x).
  Proof.
    unfold vb. rewrite (mb_singleton_bins valueof true). unfold singleton_bins, add_item, new_bins.
    apply canon_update_repeat; reflexivity.
  Qed.

  (** ---- combinations ---- *)
  Lemma vb_name_sorted (raw : bins A) :
    vb (map (fun x => (fst x, sort_names nameof (snd x))) raw) = vb raw.
  Proof.
    unfold vb. rewrite !(mb_map valueof), !map_map. apply map_ext. intros x.
    unfold canon, pbin. cbn [fst snd]. f_equal. apply sort_asc_perm_eq. apply Permutation_map.
    unfold sort_names. apply sort_asc_perm.
  Qed.

  Lemma vb_picked (b1 : bins A) (p : list nat) :
    map (fun i => match nth_opt (vb b1) i with Some x => x | None => empty_bin end) p =
    vb (map (fun i => match nth_opt b1 i with Some x => x | None => empty_bin end) p).
  Proof.
    unfold vb. rewrite !(mb_map valueof), !map_map. apply map_ext. intros i.
    rewrite <- (map_map (pbin valueof) canon b1), !nth_opt_map.
    destruct (nth_opt b1 i) as [x|]; reflexivity.
  Qed.

  Lemma vb_combo_of_perm (b1 b2 : bins A) (p : list nat) :
    vb (combo_of_perm nameof true b1 b2 p) = combo_of_perm idv true (vb b1) (vb b2) p.
  Proof.
    unfold combo_of_perm. cbv zeta. rewrite vb_sort_bins, vb_name_sorted. f_equal.
    rewrite vb_picked.
    change (map (fun x : bin Z => (fst x, sort_names idv (snd x))) ?l) with (map canon l).
    unfold vb at 2 3. rewrite canon_zip. unfold vb. rewrite (mb_zip_combine valueof). reflexivity.
  Qed.

  Lemma vb_ckk_children k its (b1 b2 : bins A) : names_ok valueof nameof its ->
    length b1 = k -> length b2 = k -> wf valueof b1 -> wf valueof b2 ->
    Forall (fun x => In x its) (contents b1) -> Forall (fun x => In x its) (contents b2) ->
    map vb (ckk_children nameof true b1 b2) = ckk_children idv true (vb b1) (vb b2).
  Proof.
    intros HN L1 L2 W1 W2 I1 I2.
    rewrite (ckk_children_true_eq valueof nameof k its b1 b2 HN L1 L2 W1 W2 I1 I2).
    rewrite (ckk_children_true_eq idv idv k (contents (vb b1) ++ contents (vb b2)) (vb b1) (vb b2)).
    - rewrite <- (dedup_sums_map vb vb_sums), map_map, vb_length. f_equal. apply map_ext. intros p. apply vb_combo_of_perm.
    - apply names_ok_values.
    - rewrite vb_length. exact L1.
    - rewrite vb_length. exact L2.
    - apply vb_wf. exact W1.
    - apply vb_wf. exact W2.
    - apply Forall_forall. intros x Hx. apply in_or_app. left. exact Hx.
    - apply Forall_forall. intros x Hx. apply in_or_app. right. exact Hx.
  Qed.

  (** ---- the two runs are in lock step ([EraseProofs.ckk_contents_run_map] with g := [vb]) ---- *)
  Lemma vb_run (mode : bool) (init : option Z) (k : nat) (items : list A) :
    names_ok valueof nameof items ->
    map_state vb (ckk_run valueof nameof true mode init k items) =
    ckk_run idv idv true mode init k (map valueof items).
  Proof.
    intros HN. apply (ckk_contents_run_map valueof nameof vb idv idv true valueof).
    - exact vb_sums.
    - exact vb_sort_bins.
    - reflexivity.
    - exact vb_singleton_bins.
    - intros b1 b2 L1 L2 W1 W2 I1 I2. symmetry. apply (vb_ckk_children k items); assumption.
  Qed.

  (** the generator of the contents manager: the same partitions by value, in the same order *)
  Theorem ckk_generator_values (k : nat) (items : list A) (init : option Z) :
    names_ok valueof nameof items ->
    map vb (ckk_generator valueof nameof true k items init) =
    ckk_generator idv idv true k (map valueof items) init.
  Proof. intros HN. apply ckk_generator_of_run. intros mode. apply vb_run. exact HN. Qed.

  (** complete_karmarkar_karp.optimal: the same partition by value (strengthens ckk_names_sums) *)
  Theorem ckk_values (k : nat) (items : list A) :
    names_ok valueof nameof items ->
    rmap vb (ckk valueof nameof true k items) = ckk idv idv true k (map valueof items).
  Proof. intros HN. apply ckk_of_run; [exact vb_sort_bins|apply vb_run; exact HN]. Qed.
End VB.

Print Assumptions ckk_generator_values.
Print Assumptions ckk_values.

(** ---------------------------------------------------------------------------------- *)
(** * contents manager -> sums manager (no hypothesis on the sign of the values)       *)
(** ---------------------------------------------------------------------------------- *)
Theorem snp_erase' {A} (valueof nameof : A -> Z) : forall k items,
  names_ok valueof nameof items ->
  rmap erase (snp valueof nameof true k items) = snp valueof nameof false k items.
Proof. intros k items HN. exact (proj1 (snp_rnp_erase valueof nameof k items HN)). Qed.

Theorem rnp_erase' {A} (valueof nameof : A -> Z) : forall k items,
  names_ok valueof nameof items ->
  rmap erase (rnp valueof nameof true k items) = rnp valueof nameof false k items.
Proof. intros k items HN. exact (proj2 (snp_rnp_erase valueof nameof k items HN)). Qed.

(** ---------------------------------------------------------------------------------- *)
(** * the sums manager: named items against their plain values                         *)
(** ---------------------------------------------------------------------------------- *)
Section SumsManagerNames.
  Context {A : Type} (valueof nameof : A -> Z).
  Local Notation mb := (map_bins valueof).

  Lemma nth_vb_perm (part : bins A) (i : nat) :
    Permutation (map valueof (snd (nth i part empty_bin))) (snd (nth i (vb valueof part) empty_bin)).
  Proof.
    unfold vb. rewrite (mb_map valueof), map_map.
    change (@empty_bin Z) with (canon (pbin valueof (@empty_bin A))).
    rewrite (map_nth (fun x => canon (pbin valueof x))).
    unfold canon, pbin. cbn [snd]. symmetry. apply sort_asc_perm.
  Qed.

  Lemma snp_rnp_sums_manager_names (k : nat) (items : list A) :
    names_ok valueof nameof items ->
    rmap mb (snp valueof nameof false k items) = snp idv idv false k (map valueof items) /\
    rmap mb (rnp valueof nameof false k items) = rnp idv idv false k (map valueof items).
  Proof.
    intros HN.
    apply (snp_rnp_sim valueof nameof false idv idv false valueof (pbin valueof) (vb valueof)
             (fun l lZ => incl l items /\ Permutation (map valueof l) lZ)).
    - reflexivity.
    - reflexivity.
    - intros cur. rewrite !bin_of_keep, vsum_map. reflexivity.
    - intros l lZ [_ P]. apply vsum_vperm. exact P.
    - intros l lZ [_ P]. apply sort_desc_vperm. exact P.
    - intros l lZ cur [Hi P] Hsub. split.
      + eapply incl_tran; [apply find_diff_incl|exact Hi].
      + apply (find_diff_vperm valueof nameof items); assumption.
    - intros l lZ [_ P]. rewrite <- (ckk_idv_perm idv false 2 (map valueof l) lZ P).
      exact (ckk_sums_manager_names valueof nameof idv 2 l).
    - intros l lZ init [Hi P]. rewrite <- (ckk_generator_idv_perm idv true 2 (map valueof l) lZ _ P).
      symmetry. apply ckk_generator_values. exact (names_ok_incl valueof nameof items l HN Hi).
    - intros l lZ init part i [Hi _] Hp. split; [|apply nth_vb_perm].
      exact (generator_parts_incl valueof nameof items l init part Hi Hp i).
    - split; [apply incl_refl|apply Permutation_refl].
    - apply kk_names.
  Qed.
End SumsManagerNames.

(** the sums manager of snp: named items against their plain values *)
Theorem snp_sums_manager_names {A : Type} (valueof nameof : A -> Z) (k : nat) (items : list A) :
  names_ok valueof nameof items ->
  rmap (map_bins valueof) (snp valueof nameof false k items) = snp idv idv false k (map valueof items).
Proof. intros HN. exact (proj1 (snp_rnp_sums_manager_names valueof nameof k items HN)). Qed.

(** the sums manager of rnp: named items against their plain values (every number of bins) *)
Theorem rnp_sums_manager_names {A : Type} (valueof nameof : A -> Z) (k : nat) (items : list A) :
  names_ok valueof nameof items ->
  rmap (map_bins valueof) (rnp valueof nameof false k items) = rnp idv idv false k (map valueof items).
Proof. intros HN. exact (proj2 (snp_rnp_sums_manager_names valueof nameof k items HN)). Qed.

(** ---------------------------------------------------------------------------------- *)
(** * C07 for snp                                                                      *)
(** ---------------------------------------------------------------------------------- *)
Section SNPNamesSums.
  Context {A B : Type} (valueof nameof : A -> Z) (valueof' nameof' : B -> Z).

  (** two presentations of the same list of values, contents manager *)
  Theorem snp_names_sums_gen (k : nat) (items : list A) (items' : list B) :
    map valueof items = map valueof' items' ->
    names_ok valueof nameof items -> names_ok valueof' nameof' items' ->
    rmap sums (snp valueof nameof true k items) = rmap sums (snp valueof' nameof' true k items').
  Proof. exact (names_sums_any (@snp) (@snp_erase') (@snp_sums_manager_names) valueof nameof valueof' nameof' true k items items'). Qed.

  (** the same for the sums manager (every sums-family output type) *)
  Theorem snp_names_sums_gen_false (k : nat) (items : list A) (items' : list B) :
    map valueof items = map valueof' items' ->
    names_ok valueof nameof items -> names_ok valueof' nameof' items' ->
    rmap sums (snp valueof nameof false k items) = rmap sums (snp valueof' nameof' false k items').
  Proof. exact (names_sums_any (@snp) (@snp_erase') (@snp_sums_manager_names) valueof nameof valueof' nameof' false k items items'). Qed.
End SNPNamesSums.

(** named items against their plain values (a Python dict against the list of its values) *)
Theorem snp_names_sums {A : Type} (valueof nameof : A -> Z) (k : nat) (items : list A) :
  names_ok valueof nameof items ->
  rmap sums (snp valueof nameof true k items) = rmap sums (snp idv idv true k (map valueof items)).
Proof.
  intros HN. apply snp_names_sums_gen; [|exact HN|apply names_ok_values].
  rewrite map_id. reflexivity.
Qed.

Definition snp_names_sums_statement : Prop :=
  forall (A : Type) (valueof nameof : A -> Z) (k : nat) (items : list A) (b : bins A) (b' : bins Z),
    names_ok valueof nameof items ->
    snp valueof nameof true k items = Ok b ->
    snp idv idv true k (map valueof items) = Ok b' ->
    sums b = sums b'.

Theorem snp_names_sums_holds : snp_names_sums_statement.
Proof.
  intros A valueof nameof k items b b' HN. apply rmap_sums_ok, snp_names_sums. exact HN.
Qed.

(** the remaining items of the two runs really are in a different order (so the plain
    projection [map valueof] of the run is NOT the run on the values) *)
Example find_diff_groups_by_name :
  find_diff idv [3; 2; 3; 1] [1] = [3; 3; 2] /\
  map (@snd Z Z) (find_diff (@fst Z Z) [(1, 3); (2, 2); (3, 3); (4, 1)] [(4, 1)]) = [3; 2; 3].
Proof. vm_compute. split; reflexivity. Qed.

(** [names_ok] cannot be dropped *)
Example snp_names_sums_needs_names_ok :
  rmap sums (snp idv (fun _ => 0) true 2 [4; 5; 6; 7; 8]) = Ok [14; 16] /\
  rmap sums (snp idv idv true 2 [4; 5; 6; 7; 8]) = Ok [15; 15].
Proof. vm_compute. split; reflexivity. Qed.

(** ---------------------------------------------------------------------------------- *)
(** * C07 for rnp                                                                      *)
(** ---------------------------------------------------------------------------------- *)
Section RNPNamesSums.
  Context {A B : Type} (valueof nameof : A -> Z) (valueof' nameof' : B -> Z).

  (** two presentations of the same list of values, contents manager, EVERY number of bins
      (including the numbers of bins on which the pinned rnp raises: same error) *)
  Theorem rnp_names_sums_gen (k : nat) (items : list A) (items' : list B) :
    map valueof items = map valueof' items' ->
    names_ok valueof nameof items -> names_ok valueof' nameof' items' ->
    rmap sums (rnp valueof nameof true k items) = rmap sums (rnp valueof' nameof' true k items').
  Proof. exact (names_sums_any (@rnp) (@rnp_erase') (@rnp_sums_manager_names) valueof nameof valueof' nameof' true k items items'). Qed.

  Theorem rnp_names_sums_gen_false (k : nat) (items : list A) (items' : list B) :
    map valueof items = map valueof' items' ->
    names_ok valueof nameof items -> names_ok valueof' nameof' items' ->
    rmap sums (rnp valueof nameof false k items) = rmap sums (rnp valueof' nameof' false k items').
  Proof. exact (names_sums_any (@rnp) (@rnp_erase') (@rnp_sums_manager_names) valueof nameof valueof' nameof' false k items items'). Qed.
End RNPNamesSums.

Theorem rnp_names_sums {A : Type} (valueof nameof : A -> Z) (k : nat) (items : list A) :
  names_ok valueof nameof items ->
  rmap sums (rnp valueof nameof true k items) = rmap sums (rnp idv idv true k (map valueof items)).
Proof.
  intros HN. apply rnp_names_sums_gen; [|exact HN|apply names_ok_values].
  rewrite map_id. reflexivity.
Qed.

Definition rnp_names_sums_statement : Prop :=
  forall (A : Type) (valueof nameof : A -> Z) (k : nat) (items : list A) (b : bins A) (b' : bins Z),
    names_ok valueof nameof items ->
    rnp valueof nameof true k items = Ok b ->
    rnp idv idv true k (map valueof items) = Ok b' ->
    sums b = sums b'.

Theorem rnp_names_sums_holds : rnp_names_sums_statement.
Proof.
  intros A valueof nameof k items b b' HN. apply rmap_sums_ok, rnp_names_sums. exact HN.
Qed.

Example rnp_names_sums_needs_names_ok :
  rmap sums (rnp idv (fun _ => 0) true 2 [4; 5; 6; 7; 8]) = Ok [12; 18] /\
  rmap sums (rnp idv idv true 2 [4; 5; 6; 7; 8]) = Ok [15; 15].
Proof. vm_compute. split; reflexivity. Qed.

(** ---------------------------------------------------------------------------------- *)
(** * instances (vm_compute): equal values with names in opposite orders, layered      *)
(** values as in CKKManagersProofs, zeros, negative values                              *)
(** ---------------------------------------------------------------------------------- *)
(** item = (name, value) *)
Definition tied_up : list (Z * Z) := [(1, 3); (2, 2); (3, 3); (4, 1); (5, 5); (6, 4); (7, 3)].
Definition tied_dn : list (Z * Z) := [(7, 3); (6, 2); (5, 3); (4, 1); (3, 5); (2, 4); (1, 3)].

Example snp_rnp_tied_names :
  rmap sums (snp (@snd Z Z) (@fst Z Z) true 3 tied_up) = Ok [7; 7; 7] /\
  rmap sums (snp (@snd Z Z) (@fst Z Z) true 3 tied_dn) = Ok [7; 7; 7] /\
  rmap sums (snp idv idv true 3 (map snd tied_up)) = Ok [7; 7; 7] /\
  rmap sums (rnp (@snd Z Z) (@fst Z Z) true 4 tied_up) = rmap sums (rnp idv idv true 4 (map snd tied_up)) /\
  rmap sums (rnp (@snd Z Z) (@fst Z Z) true 4 tied_dn) = rmap sums (rnp idv idv true 4 (map snd tied_up)) /\
  rmap sums (rnp (@snd Z Z) (@fst Z Z) true 5 tied_dn) = rmap sums (rnp idv idv true 5 (map snd tied_up)).
Proof. vm_compute. repeat split; reflexivity. Qed.

(** the former four-bin witness of the ckk managers defect, plain and named *)
Example snp_rnp_layered :
  rmap sums (snp idv idv true 4 w4) = rmap sums (snp idv idv false 4 w4) /\
  rmap sums (rnp idv idv true 4 w4) = rmap sums (rnp idv idv false 4 w4) /\
  rmap sums (snp (@snd Z Z) (@fst Z Z) true 4 w4n) = rmap sums (snp idv idv true 4 (map snd w4n)) /\
  rmap sums (rnp (@snd Z Z) (@fst Z Z) true 4 w4n) = rmap sums (rnp idv idv true 4 (map snd w4n)).
Proof. vm_compute. repeat split; reflexivity. Qed.

(** zeros and negative values (no [nonneg] hypothesis anywhere in this file) *)
Example snp_rnp_zeros_negative :
  let items := [(1, 0); (2, -2); (3, 3); (4, 0); (5, -2); (6, 4); (7, 1)] in
  rmap sums (snp (@snd Z Z) (@fst Z Z) true 3 items) = rmap sums (snp idv idv true 3 (map snd items)) /\
  rmap sums (rnp (@snd Z Z) (@fst Z Z) true 4 items) = rmap sums (rnp idv idv true 4 (map snd items)) /\
  rmap erase (snp (@snd Z Z) (@fst Z Z) true 3 items) = snp (@snd Z Z) (@fst Z Z) false 3 items /\
  rmap erase (rnp (@snd Z Z) (@fst Z Z) true 5 items) = rnp (@snd Z Z) (@fst Z Z) false 5 items.
Proof. vm_compute. repeat split; reflexivity. Qed.

(** * Index *)
Check @snp_erase'.
Check @rnp_erase'.
Check @snp_sums_manager_names.
Check @rnp_sums_manager_names.
Check @ckk_generator_values.
Check @ckk_values.
Check @snp_names_sums_gen.
Check @rnp_names_sums_gen.
Check @snp_names_sums.
Check @rnp_names_sums.

Print Assumptions snp_sums_manager_names.
Print Assumptions snp_erase'.
Print Assumptions rnp_erase'.
Print Assumptions snp_names_sums_gen.
Print Assumptions snp_names_sums_gen_false.
Print Assumptions snp_names_sums.
Print Assumptions snp_names_sums_holds.
Print Assumptions rnp_sums_manager_names.
Print Assumptions rnp_names_sums_gen.
Print Assumptions rnp_names_sums_gen_false.
Print Assumptions rnp_names_sums.
Print Assumptions rnp_names_sums_holds.
