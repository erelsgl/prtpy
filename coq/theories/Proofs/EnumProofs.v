(** Property C13: the two enumerators are complete and duplicate-free.
    Part A: the inclusion/exclusion tree (Model/InExTree.v) yields exactly the
            sub-collections (by position) of the sorted items whose total lies in the
            window [lb, ub], each once, in depth-first include-first order.
    Part B: itertools.permutations(range(n)) (Base/Perms.v) lists exactly the permutations
            of range n without repetition, and all_combinations (Model/KK.v) represents
            every pairing of the bins by exactly one combination per canonical key. *)
From Prtpy Require Import Base.Prelude Base.Perms Model.Binner Model.InExTree Model.KK.
From Prtpy Require Import Proofs.BaseLemmas Proofs.BinnerLemmas.
From Coq Require Import ZifyBool.

(** ---- generic list helpers ---- *)
Lemma filter_all_false {T} (f : T -> bool) (l : list T) :
  (forall x, In x l -> f x = false) -> filter f l = [].
Proof.
  induction l as [|x t IH]; intros H; cbn [filter]; [reflexivity|].
  rewrite (H x (or_introl eq_refl)). apply IH. intros y Hy. apply H. right. exact Hy.
Qed.

Lemma NoDup_app_intro {T} (l1 l2 : list T) :
  NoDup l1 -> NoDup l2 -> (forall x, In x l1 -> In x l2 -> False) -> NoDup (l1 ++ l2).
Proof.
  induction l1 as [|x t IH]; intros H1 H2 Hd; cbn [app]; [exact H2|].
  inversion H1 as [|x' t' Hx Ht]; subst. constructor.
  - intros Hin. apply in_app_or in Hin. destruct Hin as [Hin|Hin]; [exact (Hx Hin)|].
    apply (Hd x); [left; reflexivity|exact Hin].
  - apply IH; [exact Ht|exact H2|]. intros y Hy1 Hy2. apply (Hd y); [right; exact Hy1|exact Hy2].
Qed.

Lemma NoDup_map_cons {T} (x : T) (L : list (list T)) : NoDup L -> NoDup (map (cons x) L).
Proof.
  induction 1 as [|q t Hq Ht IH]; cbn [map]; constructor; [|exact IH].
  intros Hin. apply in_map_iff in Hin. destruct Hin as (q' & E & Hq'). inversion E; subst. exact (Hq Hq').
Qed.

(** =================================================================== *)
(** Part A: the inclusion/exclusion enumerator                           *)
(** =================================================================== *)
Section InExComplete.
  Context {A : Type} (valueof : A -> Z).

  (** all sub-collections by position, in the DFS order (include first) *)
  Fixpoint sublists (l : list A) : list (list A) :=
    match l with
    | [] => [[]]
    | x :: t => map (cons x) (sublists t) ++ sublists t
    end.

  Definition in_window (lb ub : Z * Z) (c : list A) : bool :=
    negb (above (vsum valueof c) ub) && negb (below (vsum valueof c) lb).

  (** keep the positions marked true *)
  Fixpoint select (mask : list bool) (l : list A) : list A :=
    match mask, l with
    | b :: m, x :: t => if b then x :: select m t else select m t
    | _, _ => []
    end.

  (** all boolean vectors of length n, true first *)
  Fixpoint all_masks (n : nat) : list (list bool) :=
    match n with
    | O => [[]]
    | S m => map (cons true) (all_masks m) ++ map (cons false) (all_masks m)
    end.

  Lemma all_masks_spec n m : In m (all_masks n) <-> length m = n.
  Proof.
    revert m; induction n as [|n IH]; intros m; cbn [all_masks].
    - split.
      + intros [H|[]]. subst. reflexivity.
      + intros H. destruct m; [left; reflexivity|discriminate].
    - rewrite in_app_iff, !in_map_iff. split.
      + intros [(q & E & Hq)|(q & E & Hq)]; subst; cbn [length]; f_equal; apply IH; exact Hq.
      + intros H. destruct m as [|b q]; [discriminate|]. cbn [length] in H.
        assert (Hq : In q (all_masks n)) by (apply IH; lia).
        destruct b; [left|right]; exists q; split; auto.
  Qed.

  Lemma all_masks_nodup n : NoDup (all_masks n).
  Proof.
    induction n as [|n IH]; cbn [all_masks].
    - constructor; [intros []|constructor].
    - apply NoDup_app_intro; try (apply NoDup_map_cons; exact IH).
      intros m H1 H2. apply in_map_iff in H1. apply in_map_iff in H2.
      destruct H1 as (q1 & E1 & _). destruct H2 as (q2 & E2 & _). congruence.
  Qed.

  Lemma all_masks_length n : length (all_masks n) = (2 ^ n)%nat.
  Proof.
    induction n as [|n IH]; cbn [all_masks]; [reflexivity|].
    rewrite app_length, !map_length, IH. cbn [Nat.pow]. lia.
  Qed.

  (** [sublists l] is the image of the 2^n masks (each listed once) under [select] *)
  Lemma sublists_masks l : sublists l = map (fun m => select m l) (all_masks (length l)).
  Proof.
    induction l as [|x t IH]; [reflexivity|].
    cbn [sublists length all_masks]. rewrite map_app, !map_map, IH, map_map. reflexivity.
  Qed.

  Lemma sublists_length l : length (sublists l) = (2 ^ length l)%nat.
  Proof. rewrite sublists_masks, map_length. apply all_masks_length. Qed.

  Lemma sublists_spec l c :
    In c (sublists l) <-> exists mask : list bool, length mask = length l /\ c = select mask l.
  Proof.
    rewrite sublists_masks, in_map_iff. split.
    - intros (m & E & Hm). exists m. split; [apply all_masks_spec; exact Hm|symmetry; exact E].
    - intros (m & Hm & E). exists m. split; [symmetry; exact E|apply all_masks_spec; exact Hm].
  Qed.

  (** ---- sums ---- *)
  Lemma vsum_app l1 l2 : vsum valueof (l1 ++ l2) = vsum valueof l1 + vsum valueof l2.
  Proof. unfold vsum. rewrite map_app. apply zsum_app. Qed.

  Lemma vsum_cons x l : vsum valueof (x :: l) = valueof x + vsum valueof l.
  Proof. reflexivity. Qed.

  Lemma vsum_nil : vsum valueof [] = 0.
  Proof. reflexivity. Qed.

  Lemma sublists_vsum_bounds l s :
    Forall (fun x => 0 <= valueof x) l -> In s (sublists l) ->
    0 <= vsum valueof s <= vsum valueof l.
  Proof.
    intros Hl. revert s. induction Hl as [|x t Hx Ht IH]; intros s Hs; cbn [sublists] in Hs.
    - destruct Hs as [Hs|[]]. subst. rewrite vsum_nil. lia.
    - rewrite vsum_cons. apply in_app_or in Hs. destruct Hs as [Hs|Hs].
      + apply in_map_iff in Hs. destruct Hs as (q & E & Hq). subst s. rewrite vsum_cons.
        specialize (IH q Hq). lia.
      + specialize (IH s Hs). lia.
  Qed.

  (** ---- monotonicity of the fraction comparisons ---- *)
  Lemma above_mono s s' ub : 0 < snd ub -> s <= s' -> above s ub = true -> above s' ub = true.
  Proof. unfold above. intros Hd Hs H. apply Z.ltb_lt in H. apply Z.ltb_lt. nia. Qed.

  Lemma below_mono s s' lb : 0 < snd lb -> s' <= s -> below s lb = true -> below s' lb = true.
  Proof. unfold below. intros Hd Hs H. apply Z.ltb_lt in H. apply Z.ltb_lt. nia. Qed.

  Lemma inex_dfs_unfold lb ub rest cur :
    inex_dfs valueof lb ub rest cur =
    if above (vsum valueof cur) ub || below (vsum valueof cur + vsum valueof rest) lb then []
    else match rest with
         | [] => [cur]
         | x :: r => inex_dfs valueof lb ub r (cur ++ [x]) ++ inex_dfs valueof lb ub r cur
         end.
  Proof. destruct rest; reflexivity. Qed.

  (** the pruning test is sound: nothing below a pruned node lies in the window *)
  Lemma pruned_empty lb ub rest cur :
    0 < snd lb -> 0 < snd ub -> Forall (fun x => 0 <= valueof x) rest ->
    above (vsum valueof cur) ub || below (vsum valueof cur + vsum valueof rest) lb = true ->
    filter (in_window lb ub) (map (app cur) (sublists rest)) = [].
  Proof.
    intros Hlb Hub Hnn Hp. apply filter_all_false. intros c Hc.
    apply in_map_iff in Hc. destruct Hc as (s & E & Hs). subst c.
    pose proof (sublists_vsum_bounds rest s Hnn Hs) as Hb.
    unfold in_window. rewrite vsum_app.
    apply orb_true_iff in Hp. destruct Hp as [Hp|Hp].
    - assert (Ha : above (vsum valueof cur + vsum valueof s) ub = true).
      { apply (above_mono (vsum valueof cur)); [exact Hub|lia|exact Hp]. }
      rewrite Ha. reflexivity.
    - assert (Hbl : below (vsum valueof cur + vsum valueof s) lb = true).
      { apply (below_mono (vsum valueof cur + vsum valueof rest)); [exact Hlb|lia|exact Hp]. }
      rewrite Hbl. apply andb_false_r.
  Qed.

  Lemma inex_dfs_complete lb ub rest :
    0 < snd lb -> 0 < snd ub -> Forall (fun x => 0 <= valueof x) rest ->
    forall cur,
      inex_dfs valueof lb ub rest cur =
      filter (in_window lb ub) (map (app cur) (sublists rest)).
  Proof.
    intros Hlb Hub Hnn. induction Hnn as [|x r Hx Hr IH]; intros cur; rewrite inex_dfs_unfold.
    - destruct (above (vsum valueof cur) ub || below (vsum valueof cur + vsum valueof []) lb) eqn:Ep.
      + symmetry. apply pruned_empty; auto.
      + cbn [sublists map filter]. rewrite app_nil_r. unfold in_window.
        rewrite vsum_nil, Z.add_0_r in Ep. apply orb_false_iff in Ep. destruct Ep as [E1 E2].
        rewrite E1, E2. reflexivity.
    - destruct (above (vsum valueof cur) ub || below (vsum valueof cur + vsum valueof (x :: r)) lb) eqn:Ep.
      + symmetry. apply pruned_empty; auto.
      + rewrite !IH. cbn [sublists]. rewrite map_app, filter_app, map_map. f_equal.
        f_equal. apply map_ext. intros s. rewrite <- app_assoc. reflexivity.
  Qed.

  (** C13 (inclusion/exclusion tree): complete, duplicate-free, nothing else, DFS order.
      Needs positive denominators (the model's convention for bounds) and non-negative
      values (without which the pruning is unsound, see [inex_negative_value_counterexample]). *)
  Theorem inex_complete lb ub items :
    0 < snd lb -> 0 < snd ub -> Forall (fun x => 0 <= valueof x) items ->
    generate_tree valueof lb ub items =
    filter (in_window lb ub) (sublists (sort_desc valueof items)).
  Proof.
    intros Hlb Hub Hnn. unfold generate_tree.
    rewrite inex_dfs_complete; auto using Forall_sort_desc.
    f_equal. cbn [app]. apply map_id.
  Qed.

  (** position form: the output is the image under [select] of the duplicate-free list of
      those masks (one per sub-collection by position) whose selection lies in the window *)
  Corollary inex_complete_masks lb ub items :
    0 < snd lb -> 0 < snd ub -> Forall (fun x => 0 <= valueof x) items ->
    let sorted := sort_desc valueof items in
    let good := filter (fun m => in_window lb ub (select m sorted)) (all_masks (length items)) in
    generate_tree valueof lb ub items = map (fun m => select m sorted) good /\
    NoDup good /\
    (forall m, In m good <-> length m = length items /\ in_window lb ub (select m sorted) = true).
  Proof.
    intros Hlb Hub Hnn sorted good. split; [|split].
    - rewrite inex_complete by auto. fold sorted. rewrite sublists_masks.
      rewrite (filter_map_comm _ (fun m => in_window lb ub (select m sorted))) by reflexivity.
      unfold sorted at 3. rewrite sort_desc_length. reflexivity.
    - apply NoDup_filter. apply all_masks_nodup.
    - intros m. unfold good. rewrite filter_In, all_masks_spec. reflexivity.
  Qed.

  (** membership form: what is yielded is exactly the in-window positional sublists *)
  Corollary inex_complete_In lb ub items c :
    0 < snd lb -> 0 < snd ub -> Forall (fun x => 0 <= valueof x) items ->
    (In c (generate_tree valueof lb ub items) <->
     (exists mask, length mask = length items /\ c = select mask (sort_desc valueof items)) /\
     in_window lb ub c = true).
  Proof.
    intros Hlb Hub Hnn. rewrite inex_complete by auto. rewrite filter_In, sublists_spec.
    rewrite sort_desc_length. reflexivity.
  Qed.
End InExComplete.

(** non-vacuity: the Python doctest of generate_tree *)
Example inex_doctest :
  map (map (fun v : Z => v)) (generate_tree (fun v => v) (7, 1) (10, 1) [4; 5; 6; 7; 8])
  = [[8]; [7]; [6; 4]; [5; 4]].
Proof. vm_compute. reflexivity. Qed.

(** the non-negativity hypothesis of [inex_complete] is necessary: with a negative value
    the upper-bound pruning discards [5; -3] (total 2, inside [0, 4]) at the node [5], and the
    lower-bound pruning discards [] (total 0) at the node where only -3 remains. *)
Example inex_negative_value_counterexample :
  generate_tree (fun v : Z => v) (0, 1) (4, 1) [5; -3] = [] /\
  filter (in_window (fun v : Z => v) (0, 1) (4, 1)) (sublists (sort_desc (fun v : Z => v) [5; -3]))
  = [[5; -3]; []].
Proof. vm_compute. split; reflexivity. Qed.

(** =================================================================== *)
(** Part B: permutations and bin combinations                            *)
(** =================================================================== *)

(** ---- remove_nat ---- *)
Lemma remove_nat_perm x l : In x l -> Permutation l (x :: remove_nat x l).
Proof.
  induction l as [|y t IH]; intros H; [destruct H|]. cbn [remove_nat].
  destruct (Nat.eqb x y) eqn:E.
  - apply Nat.eqb_eq in E. subst. reflexivity.
  - apply Nat.eqb_neq in E. destruct H as [H|H]; [congruence|].
    rewrite perm_swap. apply perm_skip. apply IH. exact H.
Qed.

Lemma remove_nat_length x l : In x l -> S (length (remove_nat x l)) = length l.
Proof.
  intros H. apply remove_nat_perm in H. apply Permutation_length in H. cbn [length] in H. lia.
Qed.

Lemma remove_nat_nodup x l : In x l -> NoDup l -> NoDup (remove_nat x l).
Proof.
  intros H Hn. apply remove_nat_perm in H.
  apply (Permutation_NoDup H) in Hn. inversion Hn; assumption.
Qed.

(** ---- perms_fuel ---- *)
Lemma perms_fuel_S f l : length l = S f ->
  perms_fuel (S f) l = flat_map (fun x => map (cons x) (perms_fuel f (remove_nat x l))) l.
Proof. destruct l; [discriminate|reflexivity]. Qed.

Lemma perms_fuel_In f : forall l p, length l = f -> (In p (perms_fuel f l) <-> Permutation p l).
Proof.
  induction f as [|f IH]; intros l p Hl.
  - destruct l; [|discriminate]. cbn [perms_fuel]. split.
    + intros [H|[]]. subst. constructor.
    + intros H. apply Permutation_sym, Permutation_nil in H. left. symmetry. exact H.
  - assert (Hne : l <> []) by (intros ->; discriminate).
    rewrite (perms_fuel_S f l Hl), in_flat_map. split.
    + intros (x & Hx & Hp). apply in_map_iff in Hp. destruct Hp as (q & E & Hq). subst p.
      apply IH in Hq; [|pose proof (remove_nat_length x l Hx); lia].
      rewrite (remove_nat_perm x l Hx). apply perm_skip. exact Hq.
    + intros HP. destruct p as [|x q].
      { apply Permutation_nil in HP. contradiction. }
      assert (Hx : In x l) by (eapply Permutation_in; [exact HP|left; reflexivity]).
      exists x. split; [exact Hx|]. apply in_map. apply IH.
      * pose proof (remove_nat_length x l Hx). lia.
      * apply (Permutation_cons_inv (a := x)). rewrite HP. apply remove_nat_perm. exact Hx.
Qed.

Lemma NoDup_flat_map_heads (g : nat -> list (list nat)) (l : list nat) :
  NoDup l -> (forall x, In x l -> NoDup (g x)) ->
  NoDup (flat_map (fun x => map (cons x) (g x)) l).
Proof.
  induction 1 as [|x t Hx Ht IH]; intros Hg; cbn [flat_map]; [constructor|].
  apply NoDup_app_intro.
  - apply NoDup_map_cons. apply Hg. left. reflexivity.
  - apply IH. intros y Hy. apply Hg. right. exact Hy.
  - intros p H1 H2. apply in_map_iff in H1. destruct H1 as (q & E & _). subst p.
    apply in_flat_map in H2. destruct H2 as (y & Hy & H2).
    apply in_map_iff in H2. destruct H2 as (q' & E & _). inversion E; subst. exact (Hx Hy).
Qed.

Lemma perms_fuel_nodup f : forall l, length l = f -> NoDup l -> NoDup (perms_fuel f l).
Proof.
  induction f as [|f IH]; intros l Hl Hn.
  - cbn [perms_fuel]. constructor; [intros []|constructor].
  - rewrite (perms_fuel_S f l Hl).
    apply (NoDup_flat_map_heads (fun x => perms_fuel f (remove_nat x l))); [exact Hn|].
    intros x Hx. apply IH.
    + pose proof (remove_nat_length x l Hx). lia.
    + apply remove_nat_nodup; assumption.
Qed.

(** itertools.permutations(range(n)) lists exactly the permutations of range n ... *)
Theorem perms_spec n p : In p (perms n) <-> Permutation p (range n).
Proof. unfold perms. apply perms_fuel_In. apply range_length. Qed.

(** ... each exactly once *)
Theorem perms_nodup n : NoDup (perms n).
Proof. unfold perms. apply perms_fuel_nodup; [apply range_length|apply range_nodup]. Qed.

Lemma flat_map_length_const {T U} (g : T -> list U) c l :
  (forall x, In x l -> length (g x) = c) -> length (flat_map g l) = (length l * c)%nat.
Proof.
  induction l as [|x t IH]; intros H; cbn [flat_map length]; [reflexivity|].
  rewrite app_length, (H x (or_introl eq_refl)), IH; [reflexivity|].
  intros y Hy. apply H. right. exact Hy.
Qed.

Lemma perms_fuel_length f : forall l, length l = f -> length (perms_fuel f l) = fact f.
Proof.
  induction f as [|f IH]; intros l Hl; [reflexivity|].
  rewrite (perms_fuel_S f l Hl), (flat_map_length_const _ (fact f)), Hl; [reflexivity|].
  intros x Hx. rewrite map_length. apply IH. pose proof (remove_nat_length x l Hx). lia.
Qed.

Theorem perms_length n : length (perms n) = fact n.
Proof. unfold perms. apply perms_fuel_length, range_length. Qed.

(** ---- decidable equality on keys ---- *)
Lemma list_eqb_eq {T} (eqb : T -> T -> bool) :
  (forall x y, eqb x y = true <-> x = y) ->
  forall l1 l2, list_eqb eqb l1 l2 = true <-> l1 = l2.
Proof.
  intros He. induction l1 as [|x t IH]; intros [|y t2]; cbn [list_eqb]; split; intros H;
    try reflexivity; try discriminate.
  - apply andb_true_iff in H. destruct H as [H1 H2]. apply He in H1. apply IH in H2. subst. reflexivity.
  - inversion H; subst. apply andb_true_iff. split; [apply He|apply IH]; reflexivity.
Qed.

Lemma key_eqb_eq k1 k2 : key_eqb k1 k2 = true <-> k1 = k2.
Proof. unfold key_eqb. apply list_eqb_eq. apply list_eqb_eq. apply Z.eqb_eq. Qed.

Lemma existsb_key_In k seen : existsb (key_eqb k) seen = true <-> In k seen.
Proof.
  rewrite existsb_exists. split.
  - intros (k' & Hk & E). apply key_eqb_eq in E. subst. exact Hk.
  - intros H. exists k. split; [exact H|apply key_eqb_eq; reflexivity].
Qed.

(** ---- de-duplication by a key ----
    [dedup_combos] and [dedup_sums] scan their input once, keep an element iff its key has
    not been seen yet, and record the key.  Of any [d] that does so: the output is a
    sub-collection of the input with fresh keys, every input key is seen or represented,
    and no key is yielded twice. *)
Section DedupByKey.
  Context {T K : Type} (key : T -> K) (keqb : K -> K -> bool) (d : list K -> list T -> list T).
  Hypothesis keqb_In : forall k seen, existsb (keqb k) seen = true <-> In k seen.
  Hypothesis d_nil : forall seen, d seen [] = [].
  Hypothesis d_cons : forall seen b t, d seen (b :: t) =
    if existsb (keqb (key b)) seen then d seen t else b :: d (key b :: seen) t.

  Lemma dedup_by_spec l : forall seen,
    (forall c, In c (d seen l) -> In c l /\ ~ In (key c) seen) /\
    (forall c, In c l -> In (key c) seen \/ exists c', In c' (d seen l) /\ key c' = key c) /\
    NoDup (map key (d seen l)).
  Proof.
    induction l as [|b t IH]; intros seen.
    - rewrite d_nil. split; [intros c []|]. split; [intros c []|constructor].
    - rewrite d_cons. destruct (existsb (keqb (key b)) seen) eqn:E.
      + destruct (IH seen) as (S & C & N). split; [|split; [|exact N]].
        * intros c Hc. destruct (S c Hc). split; [right|]; assumption.
        * intros c [<-|Hc]; [left; apply keqb_In; exact E|apply C; exact Hc].
      + assert (Hb : ~ In (key b) seen) by (rewrite <- keqb_In, E; discriminate).
        destruct (IH (key b :: seen)) as (S & C & N). split; [|split].
        * intros c [<-|Hc]; [split; [left; reflexivity|exact Hb]|].
          destruct (S c Hc) as [Hin Hf]. split; [right; exact Hin|].
          intros H. apply Hf. right. exact H.
        * intros c [<-|Hc]; [right; exists b; split; [left|]; reflexivity|].
          destruct (C c Hc) as [[Hk|Hk]|(c' & Hc' & Ek)].
          -- right. exists b. split; [left; reflexivity|exact Hk].
          -- left. exact Hk.
          -- right. exists c'. split; [right; exact Hc'|exact Ek].
        * cbn [map]. constructor; [|exact N]. intros Hin. apply in_map_iff in Hin.
          destruct Hin as (c & Ek & Hc). apply S in Hc. apply (proj2 Hc). left. symmetry. exact Ek.
  Qed.
End DedupByKey.

Section Combos.
  Context {A : Type} (valueof nameof : A -> Z).
  Variable keep : bool.

  Notation ckey := (combo_key nameof keep).
  Notation dedup := (dedup_combos nameof keep).

  Lemma dedup_unfold seen b t :
    dedup seen (b :: t) =
    if existsb (key_eqb (ckey b)) seen then dedup seen t else b :: dedup (ckey b :: seen) t.
  Proof. reflexivity. Qed.

  Lemma dedup_spec l seen :
    (forall c, In c (dedup seen l) -> In c l /\ ~ In (ckey c) seen) /\
    (forall c, In c l -> In (ckey c) seen \/ exists c', In c' (dedup seen l) /\ ckey c' = ckey c) /\
    NoDup (map ckey (dedup seen l)).
  Proof. apply (dedup_by_spec ckey key_eqb dedup existsb_key_In (fun _ => eq_refl) dedup_unfold). Qed.

  (** the first representative of each key is the one kept: the output is the input with
      every element whose key occurred earlier (or in [seen]) removed *)
  Lemma dedup_first l : forall seen pre c post, l = pre ++ c :: post ->
    ~ In (ckey c) seen -> ~ In (ckey c) (map ckey pre) -> In c (dedup seen l).
  Proof.
    induction l as [|b t IH]; intros seen pre c post El Hs Hp.
    - destruct pre; discriminate.
    - rewrite dedup_unfold. destruct pre as [|b' pre'].
      + cbn [app] in El. inversion El; subst.
        destruct (existsb (key_eqb (ckey c)) seen) eqn:E.
        * apply existsb_key_In in E. contradiction.
        * left. reflexivity.
      + cbn [app] in El. inversion El; subst. cbn [map] in Hp.
        destruct (existsb (key_eqb (ckey b')) seen).
        * eapply IH; [reflexivity|exact Hs|]. intros H. apply Hp. right. exact H.
        * right. eapply IH; [reflexivity| |].
          -- intros [H|H]; [apply Hp; left; exact H|exact (Hs H)].
          -- intros H. apply Hp. right. exact H.
  Qed.

  (** ---- all_combinations ---- *)

  (** soundness: every yielded combination comes from a permutation of the bin indices *)
  Theorem all_combinations_sound b1 b2 c :
    In c (all_combinations nameof keep b1 b2) ->
    exists p, Permutation p (range (length b1)) /\ c = combo_of_perm nameof keep b1 b2 p.
  Proof.
    unfold all_combinations. intros H. apply dedup_spec in H.
    apply proj1, in_map_iff in H. destruct H as (p & E & Hp). exists p. split.
    - apply perms_spec. exact Hp.
    - symmetry. exact E.
  Qed.

  (** completeness: every pairing is represented (no length hypothesis needed) *)
  Theorem all_combinations_complete_gen b1 b2 p :
    Permutation p (range (length b1)) ->
    exists c, In c (all_combinations nameof keep b1 b2) /\
              ckey c = ckey (combo_of_perm nameof keep b1 b2 p).
  Proof.
    intros Hp. unfold all_combinations.
    destruct (dedup_spec (map (combo_of_perm nameof keep b1 b2) (perms (length b1))) [])
      as (_ & C & _).
    destruct (C (combo_of_perm nameof keep b1 b2 p)) as [[]|H]; [|exact H].
    apply in_map. apply perms_spec. exact Hp.
  Qed.

  (** the same with the (unused) hypothesis [length b1 = length b2] of C13 *)
  Theorem all_combinations_complete b1 b2 :
    length b1 = length b2 ->
    forall p, Permutation p (range (length b1)) ->
    exists c, In c (all_combinations nameof keep b1 b2) /\
              combo_key nameof keep c = combo_key nameof keep (combo_of_perm nameof keep b1 b2 p).
  Proof. intros _ p Hp. apply all_combinations_complete_gen. exact Hp. Qed.

  (** duplicate-freeness: no two yielded combinations share a canonical key *)
  Theorem all_combinations_nodup b1 b2 :
    NoDup (map (combo_key nameof keep) (all_combinations nameof keep b1 b2)).
  Proof. unfold all_combinations. apply dedup_spec. Qed.

  (** hence the yielded combinations themselves are pairwise distinct *)
  Corollary all_combinations_nodup_bins b1 b2 : NoDup (all_combinations nameof keep b1 b2).
  Proof. eapply NoDup_map_inv. apply all_combinations_nodup. Qed.

  (** combined: the keys yielded are exactly the keys of the pairings *)
  Corollary all_combinations_keys b1 b2 k :
    In k (map ckey (all_combinations nameof keep b1 b2)) <->
    exists p, Permutation p (range (length b1)) /\ k = ckey (combo_of_perm nameof keep b1 b2 p).
  Proof.
    rewrite in_map_iff. split.
    - intros (c & Ek & Hc). apply all_combinations_sound in Hc. destruct Hc as (p & Hp & Ec).
      exists p. split; [exact Hp|]. subst. reflexivity.
    - intros (p & Hp & Ek). destruct (all_combinations_complete_gen b1 b2 p Hp) as (c & Hc & E).
      exists c. split; [congruence|exact Hc].
  Qed.

  (** ---- ckk_children: the combinations de-duplicated once more by their sums ---- *)
  Lemma existsb_sums_In (k : list Z) seen : existsb (list_eqb Z.eqb k) seen = true <-> In k seen.
  Proof.
    rewrite existsb_exists. split.
    - intros (k' & Hk & E). apply (list_eqb_eq Z.eqb Z.eqb_eq) in E. subst. exact Hk.
    - intros H. exists k. split; [exact H|apply (list_eqb_eq Z.eqb Z.eqb_eq); reflexivity].
  Qed.

  Lemma dedup_sums_unfold seen (b : bins A) t :
    dedup_sums seen (b :: t) =
    if existsb (list_eqb Z.eqb (sums b)) seen then dedup_sums seen t
    else b :: dedup_sums (sums b :: seen) t.
  Proof. reflexivity. Qed.

  Lemma dedup_sums_spec (l : list (bins A)) seen :
    (forall c, In c (dedup_sums seen l) -> In c l /\ ~ In (sums c) seen) /\
    (forall c, In c l -> In (sums c) seen \/ exists c', In c' (dedup_sums seen l) /\ sums c' = sums c) /\
    NoDup (map sums (dedup_sums seen l)).
  Proof.
    apply (dedup_by_spec sums (list_eqb Z.eqb) dedup_sums existsb_sums_In (fun _ => eq_refl)
             dedup_sums_unfold).
  Qed.

  (** the children of a CKK node are combinations ... *)
  Theorem ckk_children_sound b1 b2 c :
    In c (ckk_children nameof keep b1 b2) -> In c (all_combinations nameof keep b1 b2).
  Proof. unfold ckk_children. intros H. apply dedup_sums_spec in H. apply H. Qed.

  (** ... every combination is represented, up to its sums ... *)
  Theorem ckk_children_complete b1 b2 c :
    In c (all_combinations nameof keep b1 b2) ->
    exists c', In c' (ckk_children nameof keep b1 b2) /\ sums c' = sums c.
  Proof.
    intros H. unfold ckk_children.
    destruct (dedup_sums_spec (all_combinations nameof keep b1 b2) []) as (_ & C & _).
    destruct (C c H) as [[]|H']. exact H'.
  Qed.

  (** ... and no two children have the same sums *)
  Theorem ckk_children_nodup b1 b2 : NoDup (map sums (ckk_children nameof keep b1 b2)).
  Proof. unfold ckk_children. apply dedup_sums_spec. Qed.

  Lemma ckk_children_nonempty b1 b2 :
    all_combinations nameof keep b1 b2 <> [] -> ckk_children nameof keep b1 b2 <> [].
  Proof.
    unfold ckk_children. destruct (all_combinations nameof keep b1 b2) as [|c t]; [congruence|].
    intros _. rewrite dedup_sums_unfold. cbn [existsb]. discriminate.
  Qed.
End Combos.

(** non-vacuity: the two Python doctests of all_combinations *)
Example all_combinations_sums_doctest :
  map (@sums Z)
      (all_combinations (fun v : Z => v) false [(1, []); (2, []); (3, [])] [(4, []); (5, []); (6, [])])
  = [[5; 7; 9]; [5; 8; 8]; [6; 6; 9]; [6; 7; 8]; [7; 7; 7]].
Proof. vm_compute. reflexivity. Qed.

Example all_combinations_sums_doctest2 :
  map (@sums Z)
      (all_combinations (fun v : Z => v) false [(1, []); (20, []); (300, [])] [(4, []); (50, []); (600, [])])
  = [[5; 70; 900]; [5; 350; 620]; [24; 51; 900]; [24; 350; 601]; [51; 304; 620]; [70; 304; 601]].
Proof. vm_compute. reflexivity. Qed.

Example all_combinations_contents_doctest :
  map (@lists Z)
      (all_combinations (fun v : Z => v) true
         [(1, [1]); (20, [20]); (300, [300])] [(4, [1; 3]); (50, [4; 46]); (600, [600])])
  = [ [[1; 1; 3]; [4; 20; 46]; [300; 600]];
      [[1; 1; 3]; [4; 46; 300]; [20; 600]];
      [[1; 3; 20]; [1; 4; 46]; [300; 600]];
      [[1; 3; 20]; [4; 46; 300]; [1; 600]];
      [[1; 4; 46]; [1; 3; 300]; [20; 600]];
      [[4; 20; 46]; [1; 3; 300]; [1; 600]] ].
Proof. vm_compute. reflexivity. Qed.

Print Assumptions inex_complete.
Print Assumptions inex_complete_In.
Print Assumptions inex_complete_masks.
Print Assumptions sublists_spec.
Print Assumptions sublists_length.
Print Assumptions sublists_masks.
Print Assumptions all_masks_nodup.
Print Assumptions perms_spec.
Print Assumptions perms_nodup.
Print Assumptions perms_length.
Print Assumptions key_eqb_eq.
Print Assumptions all_combinations_sound.
Print Assumptions all_combinations_complete.
Print Assumptions all_combinations_complete_gen.
Print Assumptions all_combinations_nodup.
Print Assumptions all_combinations_nodup_bins.
Print Assumptions all_combinations_keys.
Print Assumptions ckk_children_sound.
Print Assumptions ckk_children_complete.
Print Assumptions ckk_children_nodup.
