(** The 17/10 bound for first-fit (Ullman 1971; Garey, Graham, Johnson, Yao 1976), by the classical
    weight-function argument, in integer arithmetic.

    Main result (b = bins returned by first_fit, n = any number of bins of capacity C into which
    the values can be packed, in particular the optimum):

      ff_ratio_17_strong :  10 * length b <= 17 * n + 9    (FF < 17/10 OPT + 1, i.e. FF <= ceil(17/10 OPT),
                                                            the bound of GGJY 1976)
      ff_ratio_17        :  10 * length b <= 17 * n + 20   (the form of property C09, c = 2)

    Weights, scaled by 10 C (so that "weight 1" is 10 C):
      W(a) = 12 a        if 6 a <= C
           = 18 a - C    if C < 6 a and 3 a <= C
           = 12 a + C    if C < 3 a and 2 a <= C
           = 10 C        if C < 2 a.

    Lemma 1 ([light_bin], [light_bin_strict], [packable_wsum_strict]): values in [0,C] with sum <= C
      have weight <= 17 C (and <= 17 C - 1 when C > 0); hence total weight <= (17 C - 1) n for any
      packing into n bins.
      - no value above C/2: W(a) <= 15 a, so weight <= 15 C;
      - one value above C/2: the others sum to S < C/2 and for such lists
        weight <= 12 S + max(0, min(6 S - C, C)) < 6 C + C (induction on the list, [wsum_small]).
    Lemma 2 ([heavy2], [heavy]): 10 C m <= total weight + 10 C for m bins in any-fit order.
      Induction over the bins ([coarse_ind]) carrying the coarseness alpha (the largest free space
      of the earlier bins, plus 1), with potential 10 C - W(alpha):
        10 C |bins| <= weight(bins) + 10 C - W(alpha).
      The induction only ever looks at the FIRST TWO items of a bin, and only when the bin holds no
      item above C/2; it needs them to be at least alpha ([head2_ge]), i.e. to fit into no earlier
      bin:
      - [anyfit] (Spec/Partition.v): the first item of a bin fits into no earlier bin;
      - [bf2] (BFDRatioProofs.v): neither does the second item of a bin whose first item is at
        most C/2.
      First-fit has both, since NO item fits into an earlier bin ([sfit] of FFDRatioProofs.v);
      best-fit has them too (BF17Proofs.v), though [sfit] fails for it (see the end of this file).
      For the first remaining bin (sum s; the next coarseness is alpha' = max(alpha, C - s + 1)):
      - it holds a value above C/2: weight >= 10 C, and W is monotone;
      - one value v <= C/2 only: the first item of every later bin is above C/2, so every later
        bin weighs >= 10 C ([heavy_first_big]), and W(v) >= W(alpha);
      - two or more values v1, v2, ..., all <= C/2 ([common_two]):
        10 C + W(alpha) <= W(v1) + W(v2) + 12 (s - v1 - v2) + W(alpha'), a piecewise linear fact
        ([W_step]).

    Hypotheses: items <> [] and 0 <= valueof x (as for the other packing theorems).  [0 < C] is not
    needed: for C = 0 there is a single bin ([cap0_single]). *)
From Prtpy Require Import Base.Prelude Model.Binner Model.Packing Spec.Partition
  Proofs.BaseLemmas Proofs.BinnerLemmas Proofs.PackingProofs Proofs.FFDRatioProofs
  Proofs.BFDRatioProofs Proofs.BCOptimalProofs.
From Coq Require Import ZifyBool.

(** ---- 1. the weight function ---- *)
Definition W (C a : Z) : Z :=
  if 6 * a <=? C then 12 * a
  else if 3 * a <=? C then 18 * a - C
  else if 2 * a <=? C then 12 * a + C
  else 10 * C.

Definition wsum (C : Z) (l : list Z) : Z := zsum (map (W C) l).

Example W_examples :
  map (W 60) [0; 5; 10; 11; 20; 21; 30; 31; 60] = [0; 60; 120; 138; 300; 312; 420; 600; 600].
Proof. vm_compute. reflexivity. Qed.

Lemma W_spec C a :
  (6 * a <= C /\ W C a = 12 * a) \/
  (C < 6 * a /\ 3 * a <= C /\ W C a = 18 * a - C) \/
  (C < 3 * a /\ 2 * a <= C /\ W C a = 12 * a + C) \/
  (C < 2 * a /\ W C a = 10 * C).
Proof.
  unfold W. destruct (6 * a <=? C) eqn:E6; [left; lia|].
  destruct (3 * a <=? C) eqn:E3; [right; left; lia|].
  destruct (2 * a <=? C) eqn:E2; [right; right; left; lia|].
  right; right; right; lia.
Qed.

Lemma wsum_nil C : wsum C [] = 0.
Proof. reflexivity. Qed.

Lemma wsum_cons C a l : wsum C (a :: l) = W C a + wsum C l.
Proof. reflexivity. Qed.

Lemma wsum_app C l1 l2 : wsum C (l1 ++ l2) = wsum C l1 + wsum C l2.
Proof. unfold wsum. rewrite map_app. apply zsum_app. Qed.

Lemma wsum_perm C l1 l2 : Permutation l1 l2 -> wsum C l1 = wsum C l2.
Proof. intros P. unfold wsum. apply zsum_perm. apply Permutation_map. exact P. Qed.

Lemma W_nonneg C a : 0 <= C -> 0 <= a -> 0 <= W C a.
Proof. intros HC Ha. pose proof (W_spec C a) as HWa. lia. Qed.

Lemma W_mono C a a' : 0 <= C -> a <= a' -> W C a <= W C a'.
Proof. intros HC H. pose proof (W_spec C a). pose proof (W_spec C a'). lia. Qed.

Lemma wsum_nonneg C l : 0 <= C -> Forall (fun a => 0 <= a) l -> 0 <= wsum C l.
Proof.
  intros HC H. induction H as [|a l Ha Hl IH]; [rewrite wsum_nil; lia|].
  rewrite wsum_cons. pose proof (W_nonneg C a HC Ha). lia.
Qed.

(** a list containing a value above C/2 weighs at least 10 C *)
Lemma wsum_big C l : 0 <= C -> Forall (fun a => 0 <= a) l -> Exists (fun a => ~ 2 * a <= C) l ->
  10 * C <= wsum C l.
Proof.
  intros HC Hnn H. induction H as [a l Ha|a l Hl IH].
  - apply Forall_cons_iff in Hnn. destruct Hnn as [Ha0 Hl0].
    rewrite wsum_cons. pose proof (wsum_nonneg C l HC Hl0). pose proof (W_spec C a) as HWa. lia.
  - apply Forall_cons_iff in Hnn. destruct Hnn as [Ha0 Hl0].
    rewrite wsum_cons. pose proof (W_nonneg C a HC Ha0). specialize (IH Hl0). lia.
Qed.

(** values up to C/2 weigh between 12 and 15 times their size *)
Lemma wsum_ge_12 C l : Forall (fun a => 2 * a <= C) l -> 12 * zsum l <= wsum C l.
Proof.
  intros H. induction H as [|a l Ha Hl IH]; [rewrite wsum_nil, zsum_nil; lia|].
  rewrite wsum_cons, zsum_cons. pose proof (W_spec C a) as HWa. lia.
Qed.

Lemma wsum_le_15 C l : Forall (fun a => 0 <= a) l -> Forall (fun a => 2 * a <= C) l ->
  wsum C l <= 15 * zsum l.
Proof.
  intros Hnn H. induction H as [|a l Ha Hl IH]; [rewrite wsum_nil, zsum_nil; lia|].
  apply Forall_cons_iff in Hnn. destruct Hnn as [Ha0 Hl0]. specialize (IH Hl0).
  rewrite wsum_cons, zsum_cons. pose proof (W_spec C a) as HWa. lia.
Qed.

(** ---- 2. Lemma 1: a feasible bin is light ---- *)

(** values summing to less than C/2 *)
Lemma wsum_small C l : Forall (fun a => 0 <= a) l -> 2 * zsum l < C ->
  wsum C l <= 12 * zsum l + Z.max 0 (Z.min (6 * zsum l - C) C).
Proof.
  intros Hnn. induction Hnn as [|a l Ha Hl IH]; intros HS.
  - rewrite wsum_nil, zsum_nil. lia.
  - rewrite zsum_cons in HS. rewrite wsum_cons, zsum_cons.
    pose proof (zsum_nonneg l Hl) as H0. assert (HS' : 2 * zsum l < C) by lia.
    specialize (IH HS'). pose proof (W_spec C a) as HWa. lia.
Qed.

Lemma small_sum_nobig C l : Forall (fun a => 0 <= a) l -> 2 * zsum l < C ->
  Forall (fun a => 2 * a <= C) l.
Proof.
  intros Hnn. induction Hnn as [|a l Ha Hl IH]; intros HS; [constructor|].
  rewrite zsum_cons in HS. pose proof (zsum_nonneg l Hl). constructor; [lia|apply IH; lia].
Qed.

Lemma feasible_split C l : Forall (fun a => 0 <= a) l -> zsum l <= C ->
  Forall (fun a => 2 * a <= C) l \/
  exists x r, Permutation l (x :: r) /\ C < 2 * x /\ Forall (fun a => 0 <= a) r /\ 2 * zsum r < C.
Proof.
  intros Hnn HS.
  destruct (Forall_Exists_dec (fun a => 2 * a <= C) (fun a => Z_le_dec (2 * a) C) l) as [Hnb|Hbig];
    [left; exact Hnb|right].
  apply Exists_exists in Hbig. destruct Hbig as (x & Hin & Hx).
  apply in_split in Hin. destruct Hin as (l1 & l2 & E). subst l.
  assert (P : Permutation (l1 ++ x :: l2) (x :: l1 ++ l2)) by (symmetry; apply Permutation_middle).
  exists x, (l1 ++ l2). rewrite (zsum_perm _ _ P), zsum_cons in HS.
  apply (Permutation_Forall P) in Hnn. apply Forall_cons_iff in Hnn. destruct Hnn as [_ Hnn].
  repeat split; [exact P|lia|exact Hnn|lia].
Qed.

Lemma light_bin_gen C l d : 0 <= d <= 1 -> d <= C ->
  Forall (fun a => 0 <= a) l -> zsum l <= C -> wsum C l <= 17 * C - d.
Proof.
  intros Hd HdC Hnn HS. pose proof (zsum_nonneg l Hnn) as H0.
  destruct (feasible_split C l Hnn HS) as [Hnb|(x & r & P & Hx & Hr & Hs)].
  - pose proof (wsum_le_15 C l Hnn Hnb). lia.
  - rewrite (wsum_perm C _ _ P), wsum_cons. rewrite (zsum_perm _ _ P), zsum_cons in HS.
    pose proof (zsum_nonneg r Hr). pose proof (wsum_small C r Hr Hs). pose proof (W_spec C x). lia.
Qed.

(** Lemma 1 *)
Lemma light_bin C l : Forall (fun a => 0 <= a) l -> zsum l <= C -> wsum C l <= 17 * C.
Proof.
  intros Hnn HS. pose proof (zsum_nonneg l Hnn) as H0.
  assert (H : wsum C l <= 17 * C - 0) by (apply light_bin_gen; auto; lia). lia.
Qed.

(** ... with a strict inequality when the capacity is positive *)
Lemma light_bin_strict C l : 0 < C ->
  Forall (fun a => 0 <= a) l -> zsum l <= C -> wsum C l <= 17 * C - 1.
Proof. intros HC Hnn HS. apply light_bin_gen; auto; lia. Qed.

(** ---- 3. Lemma 1 lifted to a packing ---- *)
(** a weight function bounded by K on every feasible bin is bounded by K n on n bins *)
Lemma packable_weight (f : Z -> Z) C K vs n :
  (forall g, Forall (fun a => 0 <= a) g -> zsum g <= C -> zsum (map f g) <= K) ->
  Forall (fun a => 0 <= a) vs -> Packable C vs n -> zsum (map f vs) <= K * Z.of_nat n.
Proof.
  intros HK Hnn Hp. apply packable_gpack in Hp. destruct Hp as (G & HL & HP & HF).
  rewrite <- (zsum_perm _ _ (Permutation_map f HP)), <- HL.
  assert (Hnn' : Forall (Forall (fun a => 0 <= a)) G).
  { apply Forall_concat. eapply Permutation_Forall; [symmetry; exact HP|exact Hnn]. }
  clear HL HP. induction HF as [|g G Hg HG IH].
  - cbn [concat map length Z.of_nat]. rewrite zsum_nil. lia.
  - apply Forall_cons_iff in Hnn'. destruct Hnn' as [Hg0 HG0].
    cbn [concat length]. rewrite map_app, zsum_app, Nat2Z.inj_succ.
    specialize (HK g Hg0 Hg). specialize (IH HG0). lia.
Qed.

Lemma packable_wsum C vs n : Forall (fun a => 0 <= a) vs -> Packable C vs n ->
  wsum C vs <= 17 * C * Z.of_nat n.
Proof. apply (packable_weight (W C)). intros g. apply light_bin. Qed.

Lemma packable_wsum_strict C vs n : 0 < C -> Forall (fun a => 0 <= a) vs -> Packable C vs n ->
  wsum C vs <= (17 * C - 1) * Z.of_nat n.
Proof. intros HC. apply (packable_weight (W C)). intros g. apply light_bin_strict. exact HC. Qed.

(** ---- 4. Lemma 2: bins in any-fit order are heavy ---- *)

(** the step for a bin of sum s whose first two items x1, x2 are at most C/2 and at least alpha *)
Lemma W_step C alpha s x1 x2 : 0 <= C -> alpha <= x1 -> alpha <= x2 -> 0 <= x1 -> 0 <= x2 ->
  2 * x1 <= C -> 2 * x2 <= C -> x1 + x2 <= s ->
  10 * C + W C alpha <= W C x1 + W C x2 + 12 * (s - x1 - x2) + W C (Z.max alpha (C - s + 1)).
Proof.
  intros HC H1 H2 Hp1 Hp2 Hx1 Hx2 Hs.
  pose proof (W_spec C x1). pose proof (W_spec C x2). pose proof (W_spec C alpha).
  pose proof (W_spec C (Z.max alpha (C - s + 1))). lia.
Qed.

Section Heavy.
  Context {A : Type} (valueof : A -> Z).

  Notation cw C b := (wsum C (map valueof (contents b))).

  (** the first item of [c] is at least [alpha]; so is the second one unless the first exceeds C/2 *)
  Definition head2_ge (C alpha : Z) (c : bin A) : Prop :=
    match snd c with
    | [] => True
    | x :: r => alpha <= valueof x /\
                match r with [] => True | y :: _ => alpha <= valueof y \/ C < 2 * valueof x end
    end.

  Lemma head2_ge_all C alpha : forall b : bins A,
    Forall (fun y => alpha <= valueof y) (contents b) -> Forall (head2_ge C alpha) b.
  Proof.
    induction b as [|c t IH]; intros H; [constructor|].
    rewrite contents_cons in H. apply Forall_app in H. destruct H as [H1 H2].
    constructor; [|apply IH; exact H2]. unfold head2_ge.
    destruct (snd c) as [|x [|y r]]; [exact I| |].
    - apply Forall_cons_iff in H1. destruct H1 as [Hx _]. split; [exact Hx|exact I].
    - apply Forall_cons_iff in H1. destruct H1 as [Hx H1].
      apply Forall_cons_iff in H1. destruct H1 as [Hy _]. split; [exact Hx|left; exact Hy].
  Qed.

  (** passing to the next coarseness: what does not fit a bin of sum s exceeds C - s *)
  Lemma head2_ge_next1 C alpha s alpha' (t : bins A) : alpha' = Z.max alpha (C - s + 1) ->
    Forall (head2_ge C alpha) t -> Forall (later_ok valueof C s) t ->
    Forall (later2_ok valueof C s) t -> Forall (head2_ge C alpha') t.
  Proof.
    intros Ea Hh Hl1 Hl2. rewrite Forall_forall in *. intros c Hc.
    specialize (Hh c Hc). specialize (Hl1 c Hc). specialize (Hl2 c Hc).
    unfold head2_ge, later_ok, later2_ok in *.
    destruct (snd c) as [|x [|y r]]; [exact I| |].
    - split; [lia|exact I].
    - destruct Hh as [Hx Hy]. split; [lia|]. destruct Hy as [Hy|Hy]; [|right; exact Hy].
      destruct Hl2 as [Hl2|Hl2]; [left; lia|right; exact Hl2].
  Qed.

  (** Induction over bins in any-fit order with the coarseness: the step sees the first bin, that the
      first item of every later bin does not fit into it, and the later bins at the next coarseness. *)
  Lemma coarse_ind C (Q : Z -> bins A -> Prop) :
    (forall alpha, Q alpha []) ->
    (forall alpha c t,
       wf_bin valueof c -> snd c <> [] -> Forall (fun y => 0 <= valueof y) (snd c) ->
       head2_ge C alpha c -> Forall (later_ok valueof C (fst c)) t -> wf valueof t ->
       Forall (fun y => 0 <= valueof y) (contents t) ->
       Q (Z.max alpha (C - fst c + 1)) t -> Q alpha (c :: t)) ->
    forall (b : bins A) alpha,
      wf valueof b -> all_nonempty b -> anyfit valueof C b -> bf2 valueof C b ->
      Forall (fun y => 0 <= valueof y) (contents b) -> Forall (head2_ge C alpha) b -> Q alpha b.
  Proof.
    intros Hnil Hcons. induction b as [|c t IH]; intros alpha Hw Hne Haf Hb2 Hnn Hge; [apply Hnil|].
    unfold wf in Hw. apply Forall_cons_iff in Hw. destruct Hw as [Hwc Hw].
    unfold all_nonempty in Hne. apply Forall_cons_iff in Hne. destruct Hne as [Hc Hne].
    apply anyfit_cons in Haf. destruct Haf as [Hl1 Haf].
    cbn [bf2] in Hb2. destruct Hb2 as [Hl2 Hb2].
    rewrite contents_cons in Hnn. apply Forall_app in Hnn. destruct Hnn as [Hnn1 Hnn2].
    apply Forall_cons_iff in Hge. destruct Hge as [Hge1 Hge2].
    apply Hcons; auto. apply IH; auto. apply (head2_ge_next1 C alpha (fst c)); auto.
  Qed.

  Lemma common_two C alpha (c : bin A) :
    wf_bin valueof c -> snd c <> [] -> Forall (fun y => 0 <= valueof y) (snd c) ->
    head2_ge C alpha c -> Forall (fun a => 2 * a <= C) (map valueof (snd c)) ->
    (map valueof (snd c) = [fst c] /\ alpha <= fst c /\ 2 * fst c <= C) \/
    exists x1 x2 rest, map valueof (snd c) = x1 :: x2 :: rest /\ fst c = x1 + x2 + zsum rest /\
      alpha <= x1 /\ alpha <= x2 /\ 0 <= x1 /\ 0 <= x2 /\ 2 * x1 <= C /\ 2 * x2 <= C /\
      Forall (fun v => 0 <= v) rest /\ Forall (fun v => 2 * v <= C) rest.
  Proof.
    unfold wf_bin, head2_ge. intros Hw Hne Hnn Hge Hnb.
    destruct (snd c) as [|y1 [|y2 rest]]; [congruence| |]; cbn [map] in Hw, Hnb |- *.
    - left. rewrite zsum_cons, zsum_nil in Hw.
      apply Forall_cons_iff in Hnb. destruct Hnb as [H1 _]. destruct Hge as [Ha _].
      replace (fst c) with (valueof y1) by lia. auto.
    - right. exists (valueof y1), (valueof y2), (map valueof rest). rewrite !zsum_cons in Hw.
      apply Forall_cons_iff in Hnb. destruct Hnb as [H1 Hnb].
      apply Forall_cons_iff in Hnb. destruct Hnb as [H2 Hnb].
      apply Forall_cons_iff in Hnn. destruct Hnn as [Hp1 Hnn].
      apply Forall_cons_iff in Hnn. destruct Hnn as [Hp2 Hnn]. rewrite <- Forall_map in Hnn.
      destruct Hge as [Ha1 [Ha2|Ha2]]; repeat split; auto; lia.
  Qed.

  (** bins whose first item exceeds C/2 *)
  Lemma heavy_first_big C (t : bins A) : 0 <= C ->
    Forall (fun y => 0 <= valueof y) (contents t) ->
    Forall (fun c : bin A => match snd c with x :: _ => C < 2 * valueof x | [] => False end) t ->
    10 * C * Z.of_nat (length t) <= cw C t.
  Proof.
    intros HC. induction t as [|c t IH]; intros Hnn Hbig.
    - cbn [length Z.of_nat]. unfold contents, lists. cbn [map concat]. rewrite wsum_nil. lia.
    - apply Forall_cons_iff in Hbig. destruct Hbig as [Hc Hbig].
      rewrite contents_cons in Hnn. apply Forall_app in Hnn. destruct Hnn as [Hn1 Hn2].
      specialize (IH Hn2 Hbig).
      rewrite contents_cons, map_app, wsum_app. cbn [length]. rewrite Nat2Z.inj_succ.
      assert (Hw : 10 * C <= wsum C (map valueof (snd c))).
      { apply wsum_big; [exact HC|rewrite Forall_map; exact Hn1|].
        destruct (snd c) as [|x l]; [contradiction|]. cbn [map]. apply Exists_cons_hd. lia. }
      lia.
  Qed.

  (** Lemma 2, with the coarseness [alpha] as parameter: the potential is 10 C - W(alpha) *)
  Lemma heavy2 C : 0 <= C -> forall (b : bins A) alpha,
    wf valueof b -> all_nonempty b -> anyfit valueof C b -> bf2 valueof C b ->
    Forall (fun y => 0 <= valueof y) (contents b) ->
    Forall (head2_ge C alpha) b ->
    10 * C * Z.of_nat (length b) <= cw C b + (10 * C - W C alpha).
  Proof.
    intros HC.
    apply (coarse_ind C (fun alpha b => 10 * C * Z.of_nat (length b) <= cw C b + (10 * C - W C alpha))).
    - intros alpha. cbn [length Z.of_nat]. unfold contents, lists. cbn [map concat]. rewrite wsum_nil.
      pose proof (W_spec C alpha) as Hal. lia.
    - intros alpha c t Hwc Hne Hnn Hge Hl1 _ Hnnt IH.
      rewrite contents_cons, map_app, wsum_app. cbn [length]. rewrite Nat2Z.inj_succ.
      destruct (Forall_Exists_dec (fun a => 2 * a <= C) (fun a => Z_le_dec (2 * a) C)
                  (map valueof (snd c))) as [Hnb|Hbig].
      + destruct (common_two C alpha c Hwc Hne Hnn Hge Hnb)
          as [(Em & Ha & Hs)|(x1 & x2 & rest & Em & Es & Ha1 & Ha2 & Hp1 & Hp2 & Hx1 & Hx2 & Hr & Hrb)];
          rewrite Em, !wsum_cons.
        * (* a single item, at most C/2: the first item of every later bin exceeds C/2 *)
          assert (Hlater : 10 * C * Z.of_nat (length t) <= cw C t).
          { apply heavy_first_big; auto. eapply Forall_impl; [|exact Hl1].
            intros c0 Hc0. unfold later_ok in Hc0. destruct (snd c0) as [|y l]; [exact Hc0|lia]. }
          pose proof (W_mono C alpha (fst c) HC Ha). rewrite wsum_nil. lia.
        * pose proof (zsum_nonneg rest Hr). pose proof (wsum_ge_12 C rest Hrb).
          pose proof (W_step C alpha (fst c) x1 x2 HC Ha1 Ha2 Hp1 Hp2 Hx1 Hx2 ltac:(lia)). lia.
      + (* an item above C/2 *)
        assert (Hnn' : Forall (fun a => 0 <= a) (map valueof (snd c))) by (rewrite Forall_map; exact Hnn).
        pose proof (wsum_big C _ HC Hnn' Hbig).
        pose proof (W_mono C alpha (Z.max alpha (C - fst c + 1)) HC ltac:(lia)). lia.
  Qed.

  Lemma sfit_later C s (t : bins A) : all_nonempty t ->
    Forall (fun y => C < s + valueof y) (contents t) ->
    Forall (later_ok valueof C s) t /\ Forall (later2_ok valueof C s) t.
  Proof.
    induction t as [|c t IH]; intros Hne H; [split; constructor|].
    unfold all_nonempty in Hne. apply Forall_cons_iff in Hne. destruct Hne as [Hc Hne].
    rewrite contents_cons in H. apply Forall_app in H. destruct H as [H1 H2].
    destruct (IH Hne H2) as [IH1 IH2]. split; (constructor; [|assumption]).
    - unfold later_ok. destruct (snd c) as [|x r]; [congruence|].
      apply Forall_cons_iff in H1. destruct H1 as [Hx _]. exact Hx.
    - unfold later2_ok. destruct (snd c) as [|x [|y r]]; [exact I|exact I|].
      apply Forall_cons_iff in H1. destruct H1 as [_ H1].
      apply Forall_cons_iff in H1. destruct H1 as [Hy _]. left. exact Hy.
  Qed.

  Lemma sfit_anyfit_bf2 C (b : bins A) : all_nonempty b -> sfit valueof C b ->
    anyfit valueof C b /\ bf2 valueof C b.
  Proof.
    induction b as [|bn t IH]; intros Hne; [cbn [sfit anyfit bf2]; auto|].
    unfold all_nonempty in Hne. apply Forall_cons_iff in Hne. destruct Hne as [_ Hne].
    rewrite anyfit_cons. cbn [sfit bf2]. intros [H1 H2].
    destruct (sfit_later C (fst bn) t Hne H1). destruct (IH Hne H2). auto.
  Qed.

  Lemma heavy C : 0 <= C -> forall (b : bins A) alpha,
    wf valueof b -> all_nonempty b -> sfit valueof C b ->
    Forall (fun y => 0 <= valueof y) (contents b) ->
    Forall (fun y => alpha <= valueof y) (contents b) ->
    10 * C * Z.of_nat (length b) <= cw C b + (10 * C - W C alpha).
  Proof.
    intros HC b alpha Hw Hne Hsf Hnn Hge. destruct (sfit_anyfit_bf2 C b Hne Hsf) as [Ha Hb2].
    apply heavy2; auto. apply head2_ge_all. exact Hge.
  Qed.
End Heavy.

(** ---- 5. the theorem ---- *)
Section FF17.
  Context {A : Type} (valueof : A -> Z).

  (** capacity 0: a single bin *)
  Lemma cap0_single (b : bins A) (vs : list Z) (n : nat) :
    wf valueof b -> anyfit valueof 0 b -> Forall (fun y => 0 <= valueof y) (contents b) ->
    Permutation (map valueof (contents b)) vs -> Packable 0 vs n -> (length b <= 1)%nat.
  Proof.
    intros Hw Ha Hnn Hp Hpack.
    destruct (le_lt_dec 2 (length b)) as [Hbig|Hsmall]; [|lia]. exfalso.
    pose proof (anyfit_pairs valueof 0 1 b Ha Hw Hnn) as Hpair.
    assert (H2 : (2 * 1 <= length b)%nat) by lia. specialize (Hpair H2).
    rewrite (wf_total valueof b Hw), (zsum_perm _ _ Hp) in Hpair.
    pose proof (packable_total 0 _ n Hpack) as Htot. lia.
  Qed.

  (** what the bounds use of a run of first-fit or best-fit besides [Inv] and [bf2] *)
  Lemma Inv_facts C (items : list A) (b : bins A) (n : nat) :
    items <> [] -> Forall (fun x : A => 0 <= valueof x) items ->
    Inv valueof C b items -> Packable C (map valueof items) n ->
    0 <= C /\ (1 <= n)%nat /\ Forall (fun y => 0 <= valueof y) (contents b).
  Proof.
    intros Hne Hnn (Hw & Hf & Hp & Hnem & Hns & Ha) Hpack. repeat split.
    - destruct b as [|bn t].
      + unfold contents, lists in Hp. cbn [map concat] in Hp.
        apply Permutation_nil in Hp. congruence.
      + unfold feasible in Hf. apply Forall_cons_iff in Hf. destruct Hf as [Hf _].
        unfold nonneg_sums in Hns. apply Forall_cons_iff in Hns. destruct Hns as [Hns _]. lia.
    - destruct n as [|n]; [|lia]. apply packable_zero in Hpack. apply map_eq_nil in Hpack. congruence.
    - eapply Permutation_Forall; [symmetry; exact Hp|exact Hnn].
  Qed.

  Lemma Inv_values_nonneg C (items : list A) (b : bins A) :
    Inv valueof C b items -> Forall (fun y => 0 <= valueof y) (contents b) ->
    Forall (fun a => 0 <= a) (map valueof items).
  Proof.
    intros (_ & _ & Hp & _) Hnnb. rewrite Forall_map. eapply Permutation_Forall; [exact Hp|exact Hnnb].
  Qed.

  Lemma cap_pos_or_single C (items : list A) (b : bins A) (n : nat) :
    Inv valueof C b items -> 0 <= C -> Forall (fun y => 0 <= valueof y) (contents b) ->
    Packable C (map valueof items) n -> 0 < C \/ (length b <= 1)%nat.
  Proof.
    intros (Hw & _ & Hp & _ & _ & Ha) HC Hnnb Hpack.
    destruct (Z.eq_dec C 0) as [E0|Hpos]; [right|left; lia].
    subst C. exact (cap0_single b _ n Hw Ha Hnnb (Permutation_map valueof Hp) Hpack).
  Qed.

  Lemma ff_facts C (items : list A) (b : bins A) (n : nat) :
    items <> [] -> Forall (fun x : A => 0 <= valueof x) items ->
    first_fit valueof true C items = Ok b -> Packable C (map valueof items) n ->
    Inv valueof C b items /\ bf2 valueof C b /\ 0 <= C /\ (1 <= n)%nat /\
    Forall (fun y => 0 <= valueof y) (contents b).
  Proof.
    intros Hne Hnn Hff Hpack.
    pose proof (ff_Inv valueof C items b Hne Hnn Hff) as HI.
    split; [exact HI|]. split; [|exact (Inv_facts C items b n Hne Hnn HI Hpack)].
    destruct HI as (_ & _ & _ & Hnem & _). apply sfit_anyfit_bf2; [exact Hnem|].
    exact (ff_sfit valueof C items b Hnn Hff).
  Qed.

  (** Lemma 1 and Lemma 2 together, for first-fit and best-fit *)
  Lemma ratio_17_core C (items : list A) (b : bins A) (n : nat) :
    Inv valueof C b items -> bf2 valueof C b -> 0 <= C -> (1 <= n)%nat ->
    Forall (fun y => 0 <= valueof y) (contents b) -> Packable C (map valueof items) n ->
    (10 * length b <= 17 * n + 9)%nat.
  Proof.
    intros HI Hb2 HC Hn Hnnb Hpack.
    destruct (cap_pos_or_single C items b n HI HC Hnnb Hpack) as [HCpos|H1]; [|lia].
    pose proof (packable_wsum_strict C _ n HCpos (Inv_values_nonneg C items b HI Hnnb) Hpack) as Hlight.
    destruct HI as (Hw & _ & Hp & Hnem & _ & Ha).
    pose proof (heavy2 valueof C HC b 0 Hw Hnem Ha Hb2 Hnnb (head2_ge_all valueof C 0 b Hnnb))
      as Hheavy.
    rewrite (wsum_perm C _ _ (Permutation_map valueof Hp)) in Hheavy.
    pose proof (W_spec C 0) as HW0.
    assert (Hz : 10 * Z.of_nat (length b) <= 17 * Z.of_nat n + 9) by nia.
    lia.
  Qed.

  Theorem ff_ratio_17_strong C (items : list A) (b : bins A) (n : nat) :
    items <> [] -> Forall (fun x : A => 0 <= valueof x) items ->
    first_fit valueof true C items = Ok b -> Packable C (map valueof items) n ->
    (10 * length b <= 17 * n + 9)%nat.
  Proof.
    intros Hne Hnn Hff Hpack.
    destruct (ff_facts C items b n Hne Hnn Hff Hpack) as (HI & Hb2 & HC & Hn & Hnnb).
    apply (ratio_17_core C items b n); assumption.
  Qed.

  (** the form of property C09: first-fit uses at most 17/10 OPT + 2 bins *)
  Theorem ff_ratio_17 C (items : list A) (b : bins A) (n : nat) :
    items <> [] -> Forall (fun x : A => 0 <= valueof x) items ->
    first_fit valueof true C items = Ok b -> Packable C (map valueof items) n ->
    (10 * length b <= 17 * n + 20)%nat.
  Proof.
    intros Hne Hnn Hff Hpack. pose proof (ff_ratio_17_strong C items b n Hne Hnn Hff Hpack). lia.
  Qed.

  (** against the optimum *)
  Corollary ff_ratio_17_minbins C (items : list A) (b : bins A) (n : nat) :
    items <> [] -> Forall (fun x : A => 0 <= valueof x) items ->
    first_fit valueof true C items = Ok b -> MinBins C (map valueof items) n ->
    (10 * length b <= 17 * n + 9)%nat.
  Proof. intros Hne Hnn Hff [Hpack _]. apply (ff_ratio_17_strong C items b n); assumption. Qed.
End FF17.

(** Best-fit: the invariant [sfit] fails, and no reordering of the bins repairs it.  With C = 100
    and items 20, 81, 5, 70, 4 best-fit returns [20;70;4] (94) and [81;5] (86): the item 5 of the
    second bin fits into the first bin (94 + 5 <= 100) and the item 4 of the first bin fits into
    the second (86 + 4 <= 100). *)
Example bf_no_sfit_order :
  best_fit (fun v : Z => v) true 100 [20; 81; 5; 70; 4] = Ok [(94, [20; 70; 4]); (86, [81; 5])].
Proof. vm_compute. reflexivity. Qed.

(** a run of first-fit and the weights involved: 3 bins, optimum 2 *)
Example ff_run_example :
  first_fit (fun v : Z => v) true 60 [31; 20; 9; 31; 20; 9] =
    Ok [(60, [31; 20; 9]); (60, [31; 20; 9])] /\
  first_fit (fun v : Z => v) true 60 [9; 9; 20; 20; 31; 31] =
    Ok [(58, [9; 9; 20; 20]); (31, [31]); (31, [31])] /\
  wsum 60 [9; 9; 20; 20; 31; 31] = 2016.
Proof. vm_compute. repeat split. Qed.

Print Assumptions ff_ratio_17_strong.
Print Assumptions ff_ratio_17.
Print Assumptions ff_ratio_17_minbins.
