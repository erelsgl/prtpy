(** The 3/2 bound for first-fit-decreasing (Model/Packing.v, prtpy/packing/first_fit.py called on
    items sorted by descending value).

    Main results (b = bins returned by first_fit_decreasing, n = any number of bins of capacity C
    into which the values can be packed, in particular the optimum):

      ffd_ratio_32_strong :  2 * length b <= 3 * n          (FFD <= 3/2 OPT)
      ffd_ratio_32        :  2 * length b <= 3 * n + 2      (FFD <= 3/2 OPT + 1, the form of property C09)

    Proof (the textbook one).  With m = length b, split the bins, in opening order, as b = b1 ++ b2
    with p = length b1 = (2 m - 1) / 3 and r = length b2 = m - p >= 1, so that p <= 2 r - 1.  Let x be
    the first item of the first bin of b2.
    - If 2 x > C: the first items of the bins of b1 were placed earlier, so they are at least x:
      there are p + 1 items larger than C/2, no two of which share a bin of ANY packing, so
      n >= p + 1 ([packable_big]: a weighting argument on the load vector).
    - Otherwise every item of b2 is at most x <= C/2.  No item of a later bin fits into an earlier
      bin (first-fit: [sfit]), so every bin of b2 except the last is more than half full and
      therefore holds at least two items: b2 holds at least 2 r - 1 >= p items.  Pair p of them
      with the p bins of b1: each pair exceeds C, so the total volume is at least p (C + 1),
      hence n C >= p (C + 1) and n >= p + 1.
    In both cases 3 n >= 3 p + 3 > 2 m - 1.

    Two facts about the model are proved here in addition to the invariant of PackingProofs.v:
    - [ff_sfit]  (first-fit, any order): an item does not fit into any bin opened before its own,
      even at that bin's FINAL sum (the any-fit invariant of PackingProofs only says this for the
      first item of each bin; it is false for best-fit);
    - [step_hdesc] (any any-fit rule, on a descending list): the first item of each bin is at least
      every item of that bin and of all later bins ([hdesc]).
    [gloop_afd_first] runs an any-fit rule over a descending list and returns the invariant of
    PackingProofs.v, [hdesc] and one more invariant kept by the rule's steps; first-fit-decreasing
    is the instance with [sfit] ([ffd_structure]).

    Hypotheses: items <> [] and 0 <= valueof x.  [0 < C] and [valueof x <= C] of property C09's
    statement are not needed (a value above C makes first-fit fail, and C >= 0 follows). *)
From Prtpy Require Import Base.Prelude Model.Binner Model.Packing Spec.Partition
  Proofs.BaseLemmas Proofs.BinnerLemmas Proofs.PackingProofs Proofs.RatioProofs Oracle.Reach
  Proofs.OracleSpec.
From Coq Require Import ZifyBool Sorting.Sorted.

(** ---- 1. value level: at most one value above C/2 per bin of a packing ---- *)

(** 1 for a value larger than half the capacity, else 0 *)
Definition bigw (C v : Z) : Z := if C <? 2 * v then 1 else 0.

Lemma bigw_range C v : 0 <= bigw C v <= 1.
Proof. unfold bigw. destruct (C <? 2 * v); lia. Qed.

Lemma bigw_dom C v : 0 <= v -> (C + 1) * bigw C v <= 2 * v.
Proof. intros Hv. unfold bigw. destruct (C <? 2 * v) eqn:E; lia. Qed.

(** bins within the capacity whose counts are dominated by the loads hold at most one each *)
Lemma dom_count C : 0 <= C -> forall s cnt,
  Forall2 (fun c a => (C + 1) * a <= 2 * c) s cnt -> Forall (fun x => x <= C) s ->
  zsum cnt <= Z.of_nat (length cnt).
Proof.
  intros HC s cnt H. induction H as [|c a s cnt Hac Hs IH]; intros Hcap.
  - rewrite zsum_nil. cbn [length]. lia.
  - apply Forall_cons_iff in Hcap. destruct Hcap as [Hc Hcap]. specialize (IH Hcap).
    rewrite zsum_cons. cbn [length]. rewrite Nat2Z.inj_succ.
    assert (a <= 1) by nia. lia.
Qed.

(** a packing into n bins has at most n values above C/2 *)
Lemma packable_big C vs n : 0 <= C -> Forall (fun v => 0 <= v) vs -> Packable C vs n ->
  zsum (map (bigw C) vs) <= Z.of_nat n.
Proof.
  intros HC Hnn (s & HA & Hcap).
  destruct (weights_along (fun l wl => (C + 1) * wl <= 2 * l) (bigw C) n vs s) as (cnt & HF & Hl & Hz);
    [lia| |exact HA|].
  - eapply Forall_impl; [|exact Hnn]. intros a Ha l wl H. pose proof (bigw_dom C a Ha). lia.
  - rewrite <- Hz, <- Hl. apply (dom_count C HC s cnt HF Hcap).
Qed.

Lemma sums_ge_bound {A} K (t : bins A) : Forall (fun bn => K <= fst bn) t ->
  Z.of_nat (length t) * K <= zsum (sums t).
Proof.
  intros H. pose proof (zsum_ge_bound K (sums t)) as Hb. unfold sums in *. rewrite map_length in Hb.
  apply Hb, Forall_map. exact H.
Qed.

(** ---- 2. [sfit] of first-fit, [hdesc] of any-fit rules on a descending list ---- *)
Section FFDInvariants.
  Context {A : Type} (valueof : A -> Z).
  Notation add := (add_to_bin valueof true).

  Lemma ff_place_contents C x (b : bins A) :
    Permutation (contents (ff_place valueof true C x b)) (contents b ++ [x]).
  Proof. apply (step_contents valueof C x). apply ff_place_step. Qed.

  Lemma contents_single x : contents [add x empty_bin] = [x].
  Proof. reflexivity. Qed.

  (** 2a. no item fits into a bin opened before its own *)
  Fixpoint sfit (C : Z) (b : bins A) : Prop :=
    match b with
    | [] => True
    | bn :: t => Forall (fun y => C < fst bn + valueof y) (contents t) /\ sfit C t
    end.

  Lemma ff_place_sfit C x b : 0 <= valueof x -> sfit C b -> sfit C (ff_place valueof true C x b).
  Proof.
    intros Hx. induction b as [|bn t IH]; cbn [ff_place].
    - intros _. cbn [sfit]. split; [apply Forall_nil|exact I].
    - destruct (fst bn + valueof x <=? C) eqn:E; cbn [sfit]; intros [H1 H2].
      + split; [|exact H2]. eapply Forall_impl; [|exact H1]. intros y Hy. cbv beta in Hy.
        unfold add_to_bin. cbn [fst]. lia.
      + split; [|apply IH; exact H2].
        eapply Permutation_Forall; [symmetry; apply ff_place_contents|].
        apply Forall_app. split; [exact H1|]. constructor; [lia|constructor].
  Qed.

  Lemma ff_sfit C items b : Forall (fun x => 0 <= valueof x) items ->
    first_fit valueof true C items = Ok b -> sfit C b.
  Proof.
    intros Hnn H. unfold first_fit in H. rewrite ff_loop_gloop in H.
    refine (gloop_inv valueof (ff_place valueof true) C (fun b0 _ => sfit C b0) _ items (new_bins 1) [] b Hnn H _).
    - intros b0 acc x Hx Hb0. apply ff_place_sfit; [lia|exact Hb0].
    - unfold new_bins. cbn [repeat sfit]. split; [apply Forall_nil|exact I].
  Qed.

  (** 2b. the first item of a bin dominates the bin and all later bins *)
  Definition hd_dom (bn : bin A) (l : list A) : Prop :=
    match snd bn with [] => False | x :: _ => Forall (fun y => valueof y <= valueof x) l end.

  Fixpoint hdesc (b : bins A) : Prop :=
    match b with
    | [] => True
    | bn :: t => hd_dom bn (contents (bn :: t)) /\ hdesc t
    end.

  Lemma hd_dom_intro bn x0 l0 l :
    snd bn = x0 :: l0 -> Forall (fun y => valueof y <= valueof x0) l -> hd_dom bn l.
  Proof. intros E H. unfold hd_dom. rewrite E. exact H. Qed.

  Lemma hd_dom_elim bn l : hd_dom bn l ->
    exists x0 l0, snd bn = x0 :: l0 /\ Forall (fun y => valueof y <= valueof x0) l.
  Proof.
    unfold hd_dom. destruct (snd bn) as [|x0 l0]; [intros F; destruct F|].
    intros H. exists x0, l0. split; [reflexivity|exact H].
  Qed.

  Lemma hd_dom_more (a : bin A) l l' x : hd_dom a (snd a ++ l) ->
    Permutation l' (l ++ [x]) -> Forall (fun z => valueof x <= valueof z) (snd a) ->
    hd_dom a (snd a ++ l').
  Proof.
    intros H P Hx. destruct (hd_dom_elim _ _ H) as (x0 & l0 & Es & HF).
    apply (hd_dom_intro _ x0 l0 _ Es). apply Forall_app in HF. destruct HF as [HF1 HF2].
    apply Forall_app. split; [exact HF1|]. eapply Permutation_Forall; [symmetry; exact P|].
    apply Forall_app. split; [exact HF2|]. constructor; [|constructor].
    rewrite Es in Hx. apply Forall_cons_iff in Hx. destruct Hx as [Hx _]. exact Hx.
  Qed.

  Lemma hdesc_cons_step C x (a : bin A) (t t' : bins A) : af_step valueof C x t t' ->
    Forall (fun z => valueof x <= valueof z) (snd a) ->
    hd_dom a (contents (a :: t)) -> hd_dom a (contents (a :: t')).
  Proof.
    intros Hs Hx H. rewrite contents_cons in *.
    apply (hd_dom_more a (contents t) (contents t') x H); [|exact Hx].
    apply (step_contents valueof C x t t' Hs).
  Qed.

  Lemma hdesc_into C x bn l2 : forall l1 : bins A, fst bn + valueof x <= C ->
    Forall (fun z => valueof x <= valueof z) (contents (l1 ++ bn :: l2)) ->
    hdesc (l1 ++ bn :: l2) -> hdesc (l1 ++ add x bn :: l2).
  Proof.
    induction l1 as [|a l1 IH]; intros Hfit Hx; cbn [app hdesc]; intros [H1 H2].
    - split; [|exact H2]. destruct (hd_dom_elim _ _ H1) as (x0 & l0 & Es & HF).
      apply (hd_dom_intro _ x0 (l0 ++ [x])); [unfold add_to_bin; cbn [snd]; rewrite Es; reflexivity|].
      rewrite contents_cons in *. unfold add_to_bin. cbn [snd]. rewrite <- app_assoc.
      apply Forall_app in HF. destruct HF as [HF1 HF2]. apply Forall_app. split; [exact HF1|].
      cbn [app]. constructor; [|exact HF2].
      apply Forall_app in Hx. destruct Hx as [Hx _]. rewrite Es in Hx.
      apply Forall_cons_iff in Hx. destruct Hx as [Hx _]. exact Hx.
    - cbn [app] in Hx. rewrite contents_cons in Hx. apply Forall_app in Hx. destruct Hx as [Hxa Hx].
      split; [|apply IH; assumption].
      apply (hdesc_cons_step C x a (l1 ++ bn :: l2)); [apply af_into; exact Hfit|exact Hxa|exact H1].
  Qed.

  Lemma hdesc_new C x : forall b : bins A, Forall (fun bn : bin A => C < fst bn + valueof x) b ->
    Forall (fun z => valueof x <= valueof z) (contents b) ->
    hdesc b -> hdesc (b ++ [add x empty_bin]).
  Proof.
    induction b as [|a t IH]; intros Hall Hx; cbn [app hdesc].
    - intros _. split; [|exact I]. apply (hd_dom_intro _ x []); [reflexivity|].
      rewrite contents_single. constructor; [lia|constructor].
    - intros [H1 H2]. rewrite contents_cons in Hx. apply Forall_app in Hx. destruct Hx as [Hxa Hx].
      apply Forall_cons_iff in Hall. destruct Hall as [_ Hall].
      split; [|apply IH; assumption].
      apply (hdesc_cons_step C x a t); [apply af_new; exact Hall|exact Hxa|exact H1].
  Qed.

  Lemma step_hdesc C x (b b' : bins A) : af_step valueof C x b b' ->
    Forall (fun z => valueof x <= valueof z) (contents b) -> hdesc b -> hdesc b'.
  Proof.
    intros H Hx Hh. destruct H as [l1 bn l2 Hfit|b Hall].
    - apply (hdesc_into C); assumption.
    - apply (hdesc_new C); assumption.
  Qed.
End FFDInvariants.

(** ---- 3. the loop: any placement by any-fit steps with one more invariant J that the steps keep.
    On any list: [bf2] (BF17Proofs.v), [bf3] (FF17FloorProofs.v).  On a descending list, where a step
    may assume that the new item is the smallest so far: [sfit] for first-fit, [bf2] in BFDRatioProofs.v,
    [hfit] in BFD54Proofs.v, [bfL] in BFD119MidProofs.v ---- *)
Section LoopAny.
  Context {A : Type} (valueof : A -> Z).
  Notation add := (add_to_bin valueof true).
  Variable place : Z -> A -> bins A -> bins A.
  Variable C : Z.
  Hypothesis Hplace : forall x b, 0 <= valueof x -> nonneg_sums b -> af_step valueof C x b (place C x b).

  Lemma gloop_first x t b : 0 <= valueof x -> gloop valueof place C (x :: t) (new_bins 1) = Ok b ->
    valueof x <= C /\ gloop valueof place C t [add x empty_bin] = Ok b.
  Proof.
    intros Hx H. cbn [gloop] in H. destruct (valueof x >? C) eqn:E; [discriminate H|].
    assert (Hfirst : place C x (new_bins 1) = [add x empty_bin]).
    { apply (af_step_first valueof C x); [lia|]. apply Hplace; [exact Hx|].
      unfold nonneg_sums, new_bins, empty_bin. cbn [repeat]. constructor; [cbn [fst]; lia|constructor]. }
    rewrite Hfirst in H. split; [lia|exact H].
  Qed.

  Variable J : bins A -> Prop.
  Hypothesis HJ : forall x b acc, 0 <= valueof x <= C -> Inv valueof C b acc ->
    Forall (fun y => 0 <= valueof y) (contents b) -> J b -> J (place C x b).

  Lemma gloop_af_first : (forall x, J [add x empty_bin]) ->
    forall items b, items <> [] -> Forall (fun x => 0 <= valueof x) items ->
    gloop valueof place C items (new_bins 1) = Ok b -> Inv valueof C b items /\ J b.
  Proof.
    intros HJ0 items b Hne Hnn H. destruct items as [|x t]; [congruence|].
    apply Forall_cons_iff in Hnn. destruct Hnn as [Hx Hnn].
    destruct (gloop_first x t b Hx H) as [HxC Ht]. change (x :: t) with ([x] ++ t).
    cut (Inv valueof C b ([x] ++ t) /\ J b /\ Forall (fun y => 0 <= valueof y) ([x] ++ t)); [tauto|].
    apply (gloop_inv valueof place C
             (fun b0 acc => Inv valueof C b0 acc /\ J b0 /\ Forall (fun y => 0 <= valueof y) acc))
      with (b := [add x empty_bin]); [|exact Hnn|exact Ht|].
    - intros b0 acc x0 Hx0 (HI & HJb & Hacc). pose proof HI as (_ & _ & Hp & _ & Hsn & _).
      split; [|split].
      + apply (step_Inv valueof C x0 b0); [exact Hx0| |exact HI]. apply Hplace; [lia|exact Hsn].
      + apply (HJ x0 b0 acc); try assumption. eapply Permutation_Forall; [symmetry; exact Hp|exact Hacc].
      + apply Forall_app. split; [exact Hacc|constructor; [lia|constructor]].
    - split; [apply Inv_first; lia|]. split; [apply HJ0|constructor; [exact Hx|constructor]].
  Qed.
End LoopAny.

Section Loop.
  Context {A : Type} (valueof : A -> Z).
  Notation add := (add_to_bin valueof true).
  Notation desc_sorted := (StronglySorted (fun a c : A => valueof c <= valueof a)).
  Variable place : Z -> A -> bins A -> bins A.
  Variable J : bins A -> Prop.
  Variable C : Z.
  Hypothesis Hplace : forall x b, 0 <= valueof x -> nonneg_sums b -> af_step valueof C x b (place C x b).
  Hypothesis HJ : forall x b acc, 0 <= valueof x -> Inv valueof C b acc ->
    Forall (fun z => valueof x <= valueof z) (contents b) -> J b -> J (place C x b).

  Lemma gloop_afd_struct : forall items b acc b', desc_sorted items ->
    Forall (fun x => 0 <= valueof x) items ->
    Forall (fun z => Forall (fun x => valueof x <= valueof z) items) (contents b) ->
    Inv valueof C b acc -> J b -> hdesc valueof b ->
    gloop valueof place C items b = Ok b' ->
    Inv valueof C b' (acc ++ items) /\ J b' /\ hdesc valueof b'.
  Proof.
    induction items as [|x t IH]; intros b acc b' Hs Hnn Hd HI H2 Hh; cbn [gloop].
    - intros H. injection H as H. subst b'. rewrite app_nil_r. auto.
    - destruct (valueof x >? C) eqn:E; [intros H; discriminate H|]. intros H.
      inversion Hs as [|x' t' Hst Hxt]; subst.
      apply Forall_cons_iff in Hnn. destruct Hnn as [Hx Hnn].
      pose proof HI as (_ & _ & _ & _ & Hsn & _).
      pose proof (Hplace x b Hx Hsn) as Hstep.
      assert (Hxz : Forall (fun z => valueof x <= valueof z) (contents b)).
      { eapply Forall_impl; [|exact Hd]. intros z Hz. cbv beta in Hz.
        apply Forall_cons_iff in Hz. destruct Hz as [Hz _]. exact Hz. }
      replace (acc ++ x :: t) with ((acc ++ [x]) ++ t) by (rewrite <- app_assoc; reflexivity).
      apply (IH (place C x b)); [exact Hst|exact Hnn| | | | |exact H].
      + eapply Permutation_Forall; [symmetry; apply (step_contents valueof C x b _ Hstep)|].
        apply Forall_app. split.
        * eapply Forall_impl; [|exact Hd]. intros z Hz. cbv beta in Hz.
          apply Forall_cons_iff in Hz. destruct Hz as [_ Hz]. exact Hz.
        * constructor; [exact Hxt|constructor].
      + apply (step_Inv valueof C x b); [lia|exact Hstep|exact HI].
      + apply (HJ x b acc); assumption.
      + apply (step_hdesc valueof C x b); assumption.
  Qed.

  Lemma gloop_afd_first : (forall x, J [add x empty_bin]) ->
    forall items b, items <> [] -> desc_sorted items -> Forall (fun x => 0 <= valueof x) items ->
    gloop valueof place C items (new_bins 1) = Ok b ->
    Inv valueof C b items /\ J b /\ hdesc valueof b.
  Proof.
    intros HJ0 items b Hne Hs Hnn H. destruct items as [|x t]; [congruence|].
    apply Forall_cons_iff in Hnn. destruct Hnn as [Hx Hnn].
    apply (gloop_first valueof place C Hplace x t b Hx) in H. destruct H as [HxC H].
    inversion Hs as [|x' t' Hst Hxt]; subst.
    change (x :: t) with ([x] ++ t).
    apply (gloop_afd_struct t [add x empty_bin] [x] b Hst Hnn); [| |apply HJ0| |exact H].
    - rewrite (contents_single valueof). constructor; [exact Hxt|constructor].
    - apply Inv_first. lia.
    - cbn [hdesc]. split; [|exact I]. apply (hd_dom_intro valueof _ x []); [reflexivity|].
      rewrite (contents_single valueof). constructor; [lia|constructor].
  Qed.
End Loop.

Section FFDStructure.
  Context {A : Type} (valueof : A -> Z).
  Notation add := (add_to_bin valueof true).
  Notation desc_sorted := (StronglySorted (fun a c : A => valueof c <= valueof a)).

  (** ---- 4. splitting the invariants at a position ---- *)
  Lemma sfit_app C (b1 b2 : bins A) : sfit valueof C (b1 ++ b2) ->
    Forall (fun c => Forall (fun y => C < fst c + valueof y) (contents b2)) b1 /\ sfit valueof C b2.
  Proof.
    induction b1 as [|c b1 IH]; cbn [app sfit].
    - intros H. split; [constructor|exact H].
    - intros [H1 H2]. destruct (IH H2) as [I1 I2]. split; [|exact I2].
      constructor; [|exact I1]. rewrite contents_app in H1. apply Forall_app in H1. destruct H1 as [_ H1]. exact H1.
  Qed.

  Lemma hdesc_app (b1 b2 : bins A) : hdesc valueof (b1 ++ b2) ->
    Forall (fun c => hd_dom valueof c (contents b2)) b1 /\ hdesc valueof b2.
  Proof.
    induction b1 as [|c b1 IH]; cbn [app hdesc].
    - intros H. split; [constructor|exact H].
    - intros [H1 H2]. destruct (IH H2) as [I1 I2]. split; [|exact I2].
      constructor; [|exact I1]. destruct (hd_dom_elim valueof _ _ H1) as (x0 & l0 & Es & HF).
      apply (hd_dom_intro valueof _ x0 l0 _ Es). rewrite contents_cons, contents_app in HF.
      apply Forall_app in HF. destruct HF as [_ HF]. apply Forall_app in HF. destruct HF as [_ HF]. exact HF.
  Qed.

  Lemma hdesc_nonempty (b : bins A) : hdesc valueof b -> all_nonempty b.
  Proof.
    unfold all_nonempty. induction b as [|bn t IH]; cbn [hdesc]; [constructor|].
    intros [H1 H2]. constructor; [|apply IH; exact H2].
    destruct (hd_dom_elim valueof _ _ H1) as (x0 & l0 & Es & _). rewrite Es. discriminate.
  Qed.

  (** ---- 5. the two counting arguments ---- *)

  (** 5a. p bins, each of which no item of [ys] fits into, and at least p such items:
      total volume at least p (C + 1) *)
  Lemma pair_volume C : forall (b1 : bins A) (ys : list A), (length b1 <= length ys)%nat ->
    Forall (fun c => Forall (fun y => C < fst c + valueof y) ys) b1 ->
    Forall (fun y => 0 <= valueof y) ys ->
    Z.of_nat (length b1) * (C + 1) <= zsum (sums b1) + zsum (map valueof ys).
  Proof.
    induction b1 as [|c b1 IH]; intros ys Hlen Hall Hnn.
    - unfold sums. cbn [map length Z.of_nat]. rewrite zsum_nil.
      assert (0 <= zsum (map valueof ys)) by (apply zsum_nonneg; rewrite Forall_map; exact Hnn). lia.
    - destruct ys as [|y ys]; [cbn [length] in Hlen; lia|].
      apply Forall_cons_iff in Hall. destruct Hall as [Hc Hall].
      apply Forall_cons_iff in Hc. destruct Hc as [Hy _].
      apply Forall_cons_iff in Hnn. destruct Hnn as [Hy0 Hnn].
      assert (Hall' : Forall (fun c0 => Forall (fun y0 => C < fst c0 + valueof y0) ys) b1).
      { eapply Forall_impl; [|exact Hall]. intros c0 Hc0. cbv beta in Hc0.
        apply Forall_cons_iff in Hc0. destruct Hc0 as [_ Hc0]. exact Hc0. }
      cbn [length] in Hlen. specialize (IH ys ltac:(lia) Hall' Hnn).
      unfold sums in *. cbn [map length]. rewrite !zsum_cons, Nat2Z.inj_succ. lia.
  Qed.

  (** 5b. bins holding only items <= C/2: all but the last hold at least two items *)
  Lemma small_bins_count C : forall b2 : bins A, wf valueof b2 -> sfit valueof C b2 -> all_nonempty b2 ->
    Forall (fun y => 0 <= valueof y /\ 2 * valueof y <= C) (contents b2) ->
    (2 * length b2 <= length (contents b2) + 1)%nat.
  Proof.
    induction b2 as [|bn t IH]; intros Hw Hs Hne Hsm; [cbn [length]; lia|].
    apply Forall_cons_iff in Hw. destruct Hw as [Hwb Hw].
    apply Forall_cons_iff in Hne. destruct Hne as [Hneb Hne].
    cbn [sfit] in Hs. destruct Hs as [Hs1 Hs2].
    rewrite contents_cons in *. apply Forall_app in Hsm. destruct Hsm as [Hsm1 Hsm2].
    specialize (IH Hw Hs2 Hne Hsm2). rewrite app_length. cbn [length].
    destruct t as [|c t'].
    - destruct (snd bn) as [|z1 r]; [congruence|]. cbn [length]. lia.
    - apply Forall_cons_iff in Hne. destruct Hne as [Hnec _].
      destruct (snd c) as [|y l] eqn:Ec; [congruence|].
      rewrite contents_cons, Ec in Hs1, Hsm2. cbn [app] in Hs1, Hsm2.
      apply Forall_cons_iff in Hs1. destruct Hs1 as [Hy _].
      apply Forall_cons_iff in Hsm2. destruct Hsm2 as [[Hy0 Hy1] _].
      unfold wf_bin in Hwb.
      destruct (snd bn) as [|z1 [|z2 r]].
      + congruence.
      + cbn [map] in Hwb. rewrite zsum_cons, zsum_nil in Hwb.
        apply Forall_cons_iff in Hsm1. destruct Hsm1 as [[_ Hz1] _]. lia.
      + cbn [length] in *. lia.
  Qed.

  (** 5c. bins whose first item is above C/2 *)
  Definition bigcount (C : Z) (l : list A) : Z := zsum (map (bigw C) (map valueof l)).

  Lemma bigcount_app C l1 l2 : bigcount C (l1 ++ l2) = bigcount C l1 + bigcount C l2.
  Proof. unfold bigcount. rewrite !map_app, zsum_app. reflexivity. Qed.

  Lemma bigcount_nonneg C l : 0 <= bigcount C l.
  Proof.
    unfold bigcount. apply zsum_nonneg. rewrite !Forall_map. apply Forall_forall. intros x _.
    pose proof (bigw_range C (valueof x)). lia.
  Qed.

  Lemma bigcount_head C x l : C < 2 * valueof x -> 1 <= bigcount C (x :: l).
  Proof.
    intros Hx. change (x :: l) with ([x] ++ l). rewrite bigcount_app.
    pose proof (bigcount_nonneg C l). unfold bigcount at 1. cbn [map]. rewrite zsum_cons, zsum_nil.
    unfold bigw. destruct (C <? 2 * valueof x) eqn:E; lia.
  Qed.

  Lemma big_heads_count C v : C < 2 * v -> forall b1 : bins A,
    Forall (fun c => exists x0 l0, snd c = x0 :: l0 /\ v <= valueof x0) b1 ->
    Z.of_nat (length b1) <= bigcount C (contents b1).
  Proof.
    intros Hv. induction b1 as [|c b1 IH]; intros Hall.
    - cbn [length Z.of_nat]. apply bigcount_nonneg.
    - apply Forall_cons_iff in Hall. destruct Hall as [(x0 & l0 & Es & Hx0) Hall].
      specialize (IH Hall). rewrite contents_cons, bigcount_app, Es. cbn [length]. rewrite Nat2Z.inj_succ.
      pose proof (bigcount_head C x0 l0 ltac:(lia)). lia.
  Qed.

  (** ---- 6. the bound at a split position ---- *)

  (** [ys] stands for items of b2, at least as many as the bins of b1, none of which fits into a
      bin of b1; they are only needed when all items of b2 are at most C/2 *)
  Lemma split_bound_gen C (b1 b2 : bins A) items n :
    0 <= C -> b2 <> [] -> wf valueof (b1 ++ b2) -> Forall (fun y => 0 <= valueof y) (contents (b1 ++ b2)) ->
    hdesc valueof (b1 ++ b2) -> Permutation (contents (b1 ++ b2)) items -> Packable C (map valueof items) n ->
    (Forall (fun y => 0 <= valueof y /\ 2 * valueof y <= C) (contents b2) ->
     exists ys, (length b1 <= length ys)%nat /\
       Forall (fun c => Forall (fun y => C < fst c + valueof y) ys) b1 /\
       Forall (fun y => 0 <= valueof y) ys /\ zsum (map valueof ys) <= zsum (map valueof (contents b2))) ->
    (length b1 + 1 <= n)%nat.
  Proof.
    intros HC Hb2 Hw Hnn Hh Hp Hpack Hys.
    unfold wf in Hw. apply Forall_app in Hw. destruct Hw as [Hw1 Hw2].
    rewrite contents_app in Hnn, Hp. apply Forall_app in Hnn. destruct Hnn as [Hnn1 Hnn2].
    destruct (hdesc_app b1 b2 Hh) as [Hh1 Hh2].
    assert (Hitems_nn : Forall (fun v => 0 <= v) (map valueof items)).
    { rewrite Forall_map. eapply Permutation_Forall; [exact Hp|]. apply Forall_app. split; assumption. }
    destruct b2 as [|bn t2]; [congruence|]. clear Hb2.
    pose proof Hh2 as Hh2'. cbn [hdesc] in Hh2'. destruct Hh2' as [Hd _].
    destruct (hd_dom_elim valueof _ _ Hd) as (x & l & Ex & Hdom).
    assert (Hxin : In x (contents (bn :: t2))).
    { rewrite contents_cons, Ex. left. reflexivity. }
    destruct (Z_lt_le_dec C (2 * valueof x)) as [Hbig|Hsmall].
    - (* p + 1 items above C/2 *)
      pose proof (packable_big C (map valueof items) n HC Hitems_nn Hpack) as Hcnt.
      assert (E : zsum (map (bigw C) (map valueof items)) = bigcount C (contents b1 ++ contents (bn :: t2))).
      { unfold bigcount. apply zsum_perm. apply Permutation_map, Permutation_map. symmetry. exact Hp. }
      rewrite E, bigcount_app in Hcnt.
      assert (H1 : Z.of_nat (length b1) <= bigcount C (contents b1)).
      { apply (big_heads_count C (valueof x) Hbig). eapply Forall_impl; [|exact Hh1].
        intros c Hc. cbv beta in Hc. destruct (hd_dom_elim valueof _ _ Hc) as (x0 & l0 & Es & HF).
        exists x0, l0. split; [exact Es|]. rewrite Forall_forall in HF. apply HF. exact Hxin. }
      assert (H2 : 1 <= bigcount C (contents (bn :: t2))).
      { rewrite contents_cons, Ex. cbn [app]. apply bigcount_head. exact Hbig. }
      lia.
    - (* volume *)
      assert (Hsm : Forall (fun y => 0 <= valueof y /\ 2 * valueof y <= C) (contents (bn :: t2))).
      { rewrite Forall_forall in *. intros y Hy. specialize (Hdom y Hy). specialize (Hnn2 y Hy). lia. }
      destruct (Hys Hsm) as (ys & Hlen & Hnofit & Hys_nn & Hys_vol).
      pose proof (pair_volume C b1 ys Hlen Hnofit Hys_nn) as Hvol.
      pose proof (packable_total C (map valueof items) n Hpack) as Htot.
      assert (E : zsum (map valueof items) = zsum (sums b1) + zsum (map valueof (contents (bn :: t2)))).
      { rewrite <- (zsum_perm _ _ (Permutation_map valueof Hp)), map_app, zsum_app.
        rewrite (wf_total valueof b1 Hw1). reflexivity. }
      rewrite E in Htot.
      destruct (Nat.eq_dec (length b1) 0) as [Hz|Hpos].
      + (* p = 0: at least one bin because there is an item *)
        destruct n as [|n]; [|lia]. apply packable_zero in Hpack. apply map_eq_nil in Hpack. subst items.
        apply Permutation_sym, Permutation_nil, app_eq_nil in Hp. destruct Hp as [_ Hp].
        rewrite Hp in Hxin. destruct Hxin.
      + assert (Z.of_nat (length b1) < Z.of_nat n) by nia. lia.
  Qed.

  Lemma split_bound C (b1 b2 : bins A) items n :
    0 <= C -> b2 <> [] -> (length b1 <= 2 * length b2 - 1)%nat ->
    wf valueof (b1 ++ b2) -> Forall (fun y => 0 <= valueof y) (contents (b1 ++ b2)) ->
    sfit valueof C (b1 ++ b2) -> hdesc valueof (b1 ++ b2) -> Permutation (contents (b1 ++ b2)) items ->
    Packable C (map valueof items) n -> (length b1 + 1 <= n)%nat.
  Proof.
    intros HC Hb2 Hlen Hw Hnn Hs Hh Hp Hpack.
    apply (split_bound_gen C b1 b2 items n); try assumption. intros Hsm.
    destruct (sfit_app C b1 b2 Hs) as [Hs1 Hs2]. destruct (hdesc_app b1 b2 Hh) as [_ Hh2].
    unfold wf in Hw. apply Forall_app in Hw. destruct Hw as [_ Hw2].
    pose proof (small_bins_count C b2 Hw2 Hs2 (hdesc_nonempty _ Hh2) Hsm) as Hcount.
    exists (contents b2). split; [lia|split; [exact Hs1|split; [|lia]]].
    eapply Forall_impl; [|exact Hsm]. intros y Hy. cbv beta in Hy. lia.
  Qed.

  (** ---- 7. any bins-array with the three invariants ---- *)

  (** split after p = (2 m - 1) / 3 of the m bins *)
  Lemma ratio_32_of_split (b : bins A) n : b <> [] ->
    (forall b1 b2, b = b1 ++ b2 -> b2 <> [] -> (length b1 <= 2 * length b2 - 1)%nat -> (length b1 + 1 <= n)%nat) ->
    (2 * length b <= 3 * n)%nat.
  Proof.
    intros Hne Hsplit.
    set (m := length b). assert (Hm : (1 <= m)%nat) by (subst m; destruct b; [congruence|cbn [length]; lia]).
    set (p := ((2 * m - 1) / 3)%nat).
    pose proof (Nat.div_mod (2 * m - 1) 3 ltac:(lia)) as Dm.
    pose proof (Nat.mod_upper_bound (2 * m - 1) 3 ltac:(lia)) as Mb. fold p in Dm.
    assert (Hpm : (p <= m)%nat) by lia.
    assert (L1 : length (firstn p b) = p) by (apply firstn_length_le; exact Hpm).
    assert (L2 : length (skipn p b) = (m - p)%nat) by apply skipn_length.
    assert (Hb2 : skipn p b <> []).
    { intros E. rewrite E in L2. cbn [length] in L2. lia. }
    pose proof (Hsplit (firstn p b) (skipn p b) (eq_sym (firstn_skipn p b)) Hb2 ltac:(lia)). lia.
  Qed.

  Theorem struct_ratio_32 C (b : bins A) items n :
    0 <= C -> b <> [] -> wf valueof b -> Forall (fun y => 0 <= valueof y) (contents b) ->
    sfit valueof C b -> hdesc valueof b -> Permutation (contents b) items ->
    Packable C (map valueof items) n -> (2 * length b <= 3 * n)%nat.
  Proof.
    intros HC Hne Hw Hnn Hs Hh Hp Hpack. apply ratio_32_of_split; [exact Hne|].
    intros b1 b2 E Hb2 Hlen. subst b. apply (split_bound C b1 b2 items n); assumption.
  Qed.

  (** ---- 8. first-fit-decreasing ---- *)
  Lemma ffd_structure C items b : items <> [] -> Forall (fun x => 0 <= valueof x) items ->
    first_fit_decreasing valueof true C items = Ok b ->
    b <> [] /\ wf valueof b /\ Forall (fun y => 0 <= valueof y) (contents b) /\
    sfit valueof C b /\ hdesc valueof b /\ Permutation (contents b) items.
  Proof.
    intros Hne Hnn H. unfold first_fit_decreasing, first_fit in H. rewrite ff_loop_gloop in H.
    destruct (gloop_afd_first valueof (ff_place valueof true) (sfit valueof C) C (ff_is_step valueof C)
                (fun x b0 _ Hx _ _ => ff_place_sfit valueof C x b0 Hx) (fun x => conj (Forall_nil _) I)
                (sort_desc valueof items) b (sort_desc_nonnil valueof items Hne) (sort_desc_sorted valueof items)
                (sort_desc_nonneg valueof items Hnn) H) as ((Hw & _ & Hp & _) & Hs & Hh).
    assert (Hp' : Permutation (contents b) items) by (rewrite Hp; apply sort_desc_perm).
    split; [|split; [exact Hw|split; [|split; [exact Hs|split; [exact Hh|exact Hp']]]]].
    - intros E. subst b. apply Permutation_nil in Hp'. congruence.
    - eapply Permutation_Forall; [symmetry; exact Hp'|exact Hnn].
  Qed.

  Lemma ok_values_le {B} C items (r : result B) b :
    ((exists e, r = Err e) <-> Exists (fun x => C < valueof x) items) -> r = Ok b ->
    Forall (fun x => valueof x <= C) items.
  Proof.
    intros Hiff E. apply Forall_forall. intros x Hx.
    destruct (Z_lt_le_dec C (valueof x)) as [Hlt|Hle]; [exfalso|exact Hle].
    destruct (proj2 Hiff) as [e He]; [apply Exists_exists; exists x; auto|]. congruence.
  Qed.

  Lemma cap_nonneg C items b : items <> [] -> Forall (fun x => 0 <= valueof x) items ->
    first_fit_decreasing valueof true C items = Ok b -> 0 <= C.
  Proof.
    intros Hne Hnn H. pose proof (ok_values_le C items _ b (ffd_error_iff valueof C items) H) as Hle.
    destruct items as [|x t]; [congruence|].
    apply Forall_cons_iff in Hnn. apply Forall_cons_iff in Hle. lia.
  Qed.

  (** FFD <= 3/2 OPT *)
  Theorem ffd_ratio_32_strong C items b n :
    items <> [] -> Forall (fun x => 0 <= valueof x) items ->
    first_fit_decreasing valueof true C items = Ok b ->
    Packable C (map valueof items) n -> (2 * length b <= 3 * n)%nat.
  Proof.
    intros Hne Hnn H Hpack.
    destruct (ffd_structure C items b Hne Hnn H) as (Hb & Hw & Hnn' & Hs & Hh & Hp).
    apply (struct_ratio_32 C b items n); auto. apply (cap_nonneg C items b); assumption.
  Qed.

  (** the form of property C09: FFD <= 3/2 OPT + 1 ([0 < C] and the upper bound on the values are
      not used) *)
  Theorem ffd_ratio_32 C items b n :
    0 < C -> items <> [] -> Forall (fun x => 0 <= valueof x <= C) items ->
    first_fit_decreasing valueof true C items = Ok b ->
    Packable C (map valueof items) n -> (2 * length b <= 3 * n + 2)%nat.
  Proof.
    intros _ Hne Hnn H Hpack.
    assert (Hnn' : Forall (fun x => 0 <= valueof x) items).
    { eapply Forall_impl; [|exact Hnn]. intros x Hx. cbv beta in Hx. lia. }
    pose proof (ffd_ratio_32_strong C items b n Hne Hnn' H Hpack). lia.
  Qed.

  Corollary ffd_ratio_32_opt C items b n :
    0 < C -> items <> [] -> Forall (fun x => 0 <= valueof x <= C) items ->
    first_fit_decreasing valueof true C items = Ok b ->
    MinBins C (map valueof items) n -> (2 * length b <= 3 * n + 2)%nat.
  Proof. intros HC Hne Hnn H [Hpack _]. apply (ffd_ratio_32 C items b n); assumption. Qed.

  Corollary ffd_ratio_32_strong_opt C items b n :
    items <> [] -> Forall (fun x => 0 <= valueof x) items ->
    first_fit_decreasing valueof true C items = Ok b ->
    MinBins C (map valueof items) n -> (2 * length b <= 3 * n)%nat.
  Proof. intros Hne Hnn H [Hpack _]. apply (ffd_ratio_32_strong C items b n); assumption. Qed.

  (** the sums-only binner makes the same decisions *)
  Corollary ffd_ratio_32_strong_sums C items b n :
    items <> [] -> Forall (fun x => 0 <= valueof x) items ->
    first_fit_decreasing valueof false C items = Ok b ->
    Packable C (map valueof items) n -> (2 * length b <= 3 * n)%nat.
  Proof.
    intros Hne Hnn H Hpack. rewrite <- ffd_erase in H.
    destruct (first_fit_decreasing valueof true C items) as [b1|e] eqn:E; [|discriminate H].
    cbn [rmap] in H. injection H as H. subst b. rewrite erase_length.
    apply (ffd_ratio_32_strong C items b1 n); assumption.
  Qed.
End FFDStructure.

(** ---- 9. examples ---- *)
Notation idZ := (fun v : Z => v).

Definition ffd_count_ex (C : Z) (vs : list Z) : option nat :=
  match first_fit_decreasing idZ true C vs with Ok b => Some (length b) | Err _ => None end.

Lemma min_bins_MinBins C vs : Forall (fun v => 0 < v <= C) vs -> MinBins C (map idZ vs) (min_bins C vs).
Proof.
  intros H. rewrite map_id, <- (filter_nz_all vs) at 1.
  - apply min_bins_spec_strong. eapply Forall_impl; [|exact H]. cbv beta. lia.
  - eapply Forall_impl; [|exact H]. cbv beta. lia.
Qed.

Lemma packable_by C vs n asg : length asg = length vs -> valid_asg n asg ->
  Forall (fun x => x <= C) (loads n vs asg) -> Packable C vs n.
Proof. intros Hl Hv Hc. exists (loads n vs asg). split; [exists asg; auto|exact Hc]. Qed.

Lemma min_bins_by_volume C vs n : 0 <= C -> Forall (fun v => 0 < v <= C) vs -> Packable C vs n ->
  (Z.of_nat n - 1) * C < zsum vs -> min_bins C vs = n.
Proof.
  intros HC H Hp Hvol. destruct (min_bins_MinBins C vs H) as [Hm Hmin]. rewrite map_id in Hm, Hmin.
  specialize (Hmin n Hp). apply packable_total in Hm.
  destruct (Nat.eq_dec (min_bins C vs) n) as [E|E]; [exact E|exfalso]. nia.
Qed.

(** the bound 3/2 is attained: FFD uses 3 bins, 2 suffice *)
Example ffd_32_tight :
  rmap (@length (bin Z)) (first_fit_decreasing idZ true 10 [4; 4; 3; 3; 3; 3]) = Ok 3%nat /\
  min_bins 10 [4; 4; 3; 3; 3; 3] = 2%nat.
Proof. vm_compute. split; reflexivity. Qed.

(** ... and the theorem applied to it through the verified oracle *)
Example ffd_32_tight_thm b :
  first_fit_decreasing idZ true 10 [4; 4; 3; 3; 3; 3] = Ok b -> (2 * length b <= 3 * 2)%nat.
Proof.
  intros H. apply (ffd_ratio_32_strong_opt idZ 10 [4; 4; 3; 3; 3; 3] b 2); [discriminate| |exact H|].
  - repeat constructor; lia.
  - apply (min_bins_MinBins 10 [4; 4; 3; 3; 3; 3]). repeat constructor; lia.
Qed.

(** two big, two middle, two small values and four fillers, perfectly packed as
    {big, small, filler} twice and {middle, middle, filler, filler} *)
Notation asg_2_2_2_4 := [0; 1; 2; 2; 0; 1; 0; 1; 2; 2]%nat.

Example ffd_32_four_bins :
  first_fit_decreasing idZ true 60 [31; 31; 20; 20; 19; 19; 10; 10; 10; 10] =
    Ok [(51, [31; 20]); (51, [31; 20]); (58, [19; 19; 10; 10]); (20, [10; 10])] /\
  min_bins 60 [31; 31; 20; 20; 19; 19; 10; 10; 10; 10] = 3%nat.
Proof.
  split; [vm_compute; reflexivity|]. apply min_bins_by_volume; [lia|repeat constructor; lia| |reflexivity].
  apply (packable_by _ _ _ asg_2_2_2_4); [reflexivity|repeat constructor|cbn; repeat constructor; lia].
Qed.

(** Johnson's 11/9 family, one third of the smallest member: FFD 4 bins, optimum 3 *)
Example ffd_32_johnson :
  ffd_count_ex 100 (repeat 51 2 ++ repeat 27 2 ++ repeat 26 2 ++ repeat 23 4) = Some 4%nat /\
  min_bins 100 (repeat 51 2 ++ repeat 27 2 ++ repeat 26 2 ++ repeat 23 4) = 3%nat.
Proof.
  split; [vm_compute; reflexivity|]. apply min_bins_by_volume; [lia|repeat constructor; lia| |reflexivity].
  apply (packable_by _ _ _ asg_2_2_2_4); [reflexivity|repeat constructor|cbn; repeat constructor; lia].
Qed.

(** a pseudo-random family: it satisfies [ffd_32_check] because the theorem holds for every admissible
    input ([ffd_32_check_true]); nothing is evaluated.  The discriminating instances are the three above. *)
Fixpoint lcg (n : nat) (s md : Z) : list Z :=
  match n with
  | O => []
  | S k => let s' := (s * 1103515245 + 12345) mod 2147483648 in (1 + (s' / 65536) mod md) :: lcg k s' md
  end.
Definition ffd_count (C : Z) (vs : list Z) : nat :=
  match first_fit_decreasing idZ true C vs with Ok b => length b | Err _ => O end.
Definition ffd_32_check (C : Z) (vs : list Z) : bool :=
  ((1 <=? ffd_count C vs) && (2 * ffd_count C vs <=? 3 * min_bins C vs))%nat.
Definition ffd_32_instance (seed : Z) : Z * list Z :=
  let C := 10 + seed mod 13 in (C, lcg (Z.to_nat (4 + seed mod 7)) seed (if Z.even seed then C else C / 2)).

Lemma lcg_range md : 0 < md -> forall n s, Forall (fun v => 0 < v <= md) (lcg n s md).
Proof.
  intros Hmd. induction n as [|n IH]; intros s; cbn [lcg]; constructor; [|apply IH].
  pose proof (Z.mod_pos_bound ((s * 1103515245 + 12345) mod 2147483648 / 65536) md Hmd). lia.
Qed.

Lemma ffd_32_instance_values s :
  snd (ffd_32_instance s) <> [] /\
  Forall (fun v => 0 < v <= fst (ffd_32_instance s)) (snd (ffd_32_instance s)).
Proof.
  unfold ffd_32_instance. cbn [fst snd]. set (C := 10 + s mod 13).
  assert (HC : 10 <= C) by (subst C; pose proof (Z.mod_pos_bound s 13 eq_refl); lia). clearbody C.
  set (md := if Z.even s then C else C / 2).
  assert (Hmd : 0 < md <= C) by (subst md; destruct (Z.even s); [lia|]; Z.div_mod_to_equations; lia).
  split.
  - destruct (Z.to_nat (4 + s mod 7)) eqn:E; [pose proof (Z.mod_pos_bound s 7 eq_refl); lia|discriminate].
  - eapply Forall_impl; [|apply lcg_range; lia]. cbv beta. lia.
Qed.

Lemma ffd_32_instance_length s : (length (snd (ffd_32_instance s)) <= 10)%nat.
Proof.
  unfold ffd_32_instance. cbn [snd]. set (md := if Z.even s then _ else _). clearbody md.
  assert (E : forall n s0, length (lcg n s0 md) = n) by (induction n; intros s0; cbn [lcg length]; auto).
  rewrite E. pose proof (Z.mod_pos_bound s 7 eq_refl). lia.
Qed.

Lemma no_value_above C vs : Forall (fun v => 0 < v <= C) vs -> ~ Exists (fun v => C < idZ v) vs.
Proof.
  intros H Hex. apply Exists_exists in Hex. destruct Hex as (v & Hv & Hlt).
  rewrite Forall_forall in H. specialize (H v Hv). lia.
Qed.

Lemma ffd_32_check_true C vs : vs <> [] -> Forall (fun v => 0 < v <= C) vs -> ffd_32_check C vs = true.
Proof.
  intros Hne H. unfold ffd_32_check, ffd_count.
  assert (Hnn : Forall (fun v => 0 <= idZ v) vs) by (eapply Forall_impl; [|exact H]; cbv beta; lia).
  destruct (first_fit_decreasing idZ true C vs) as [b|e] eqn:E.
  - pose proof (ffd_ratio_32_strong_opt idZ C vs b _ Hne Hnn E (min_bins_MinBins C vs H)) as Hr.
    destruct (ffd_structure idZ C vs b Hne Hnn E) as (Hb & _).
    destruct b as [|bn t]; [congruence|]. cbn [length] in *.
    apply andb_true_intro. split; apply Nat.leb_le; lia.
  - exfalso. apply (no_value_above C vs H), ffd_error_iff. exists e. exact E.
Qed.

Example ffd_32_random :
  forallb (fun s => ffd_32_check (fst (ffd_32_instance s)) (snd (ffd_32_instance s))) (map Z.of_nat (seq 1 80)) = true.
Proof. apply forallb_forall. intros s _. apply ffd_32_check_true; apply ffd_32_instance_values. Qed.

Check ff_sfit.
Check packable_big.
Check struct_ratio_32.
Check ffd_ratio_32_strong.
Check ffd_ratio_32.
Check ffd_ratio_32_opt.
Check ffd_ratio_32_strong_opt.
Check ffd_ratio_32_strong_sums.

Print Assumptions ffd_ratio_32_strong.
Print Assumptions ffd_ratio_32.
Print Assumptions ffd_ratio_32_opt.
Print Assumptions ffd_ratio_32_strong_opt.
Print Assumptions ffd_ratio_32_strong_sums.
Print Assumptions ffd_32_tight_thm.
Print Assumptions ffd_32_random.
