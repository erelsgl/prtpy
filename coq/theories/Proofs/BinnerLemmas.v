(** Lemmas about the pure bins-array operations (Model/Binner.v). *)
From Prtpy Require Import Base.Prelude Model.Binner Proofs.BaseLemmas.
From Coq Require Import Sorting.Sorted.

Section BinnerLemmas.
  Context {A : Type} (valueof : A -> Z).

  Lemma new_bins_length k : length (@new_bins A k) = k.
  Proof. apply repeat_length. Qed.

  Lemma new_bins_wf k : wf valueof (@new_bins A k).
  Proof. unfold wf, new_bins. induction k; simpl; constructor; auto. reflexivity. Qed.

  Lemma new_bins_contents k : contents (@new_bins A k) = [].
  Proof. unfold contents, lists, new_bins. induction k; simpl; auto. Qed.

  Lemma new_bins_sums k : sums (@new_bins A k) = repeat 0 k.
  Proof. unfold sums, new_bins. induction k; simpl; f_equal; auto. Qed.

  Lemma sums_length (b : bins A) : length (sums b) = length b.
  Proof. apply map_length. Qed.

  Lemma sums_app (b1 b2 : bins A) : sums (b1 ++ b2) = sums b1 ++ sums b2.
  Proof. apply map_app. Qed.

  Lemma add_to_bin_wf keep x b : keep = true -> wf_bin valueof b -> wf_bin valueof (add_to_bin valueof keep x b).
  Proof.
    intros -> H. unfold wf_bin, add_to_bin in *. simpl. rewrite map_app, zsum_app. simpl. lia.
  Qed.

  Lemma fold_add_to_bin xs : forall b : bin A,
    fold_left (fun bb x => add_to_bin valueof true x bb) xs b
    = (fst b + zsum (map valueof xs), snd b ++ xs).
  Proof.
    induction xs as [|x t IH]; intros b; cbn [fold_left map].
    - rewrite Z.add_0_r, app_nil_r. destruct b; reflexivity.
    - rewrite IH. unfold add_to_bin. cbn [fst snd]. rewrite zsum_cons, <- app_assoc. cbn [app]. f_equal. lia.
  Qed.

  Lemma add_item_length keep b x i : length (add_item valueof keep b x i) = length b.
  Proof. apply update_length. Qed.

  Lemma add_item_sums keep b x i :
    sums (add_item valueof keep b x i) = update i (fun s => s + valueof x) (sums b).
  Proof. unfold sums, add_item. apply map_update. reflexivity. Qed.

  Lemma add_item_wf b x i : wf valueof b -> wf valueof (add_item valueof true b x i).
  Proof.
    unfold wf, add_item. revert i. induction b as [|bn t IH]; intros [|j] H; simpl; auto;
      inversion H; subst; constructor; auto. apply add_to_bin_wf; auto.
  Qed.

  Lemma contents_app (b1 b2 : bins A) : contents (b1 ++ b2) = contents b1 ++ contents b2.
  Proof. unfold contents, lists. rewrite map_app, concat_app. reflexivity. Qed.

  Lemma contents_cons (bn : bin A) b : contents (bn :: b) = snd bn ++ contents b.
  Proof. reflexivity. Qed.

  Lemma contents_length_ge (b : bins A) : Forall (fun bn => snd bn <> []) b ->
    (length b <= length (contents b))%nat.
  Proof.
    induction 1 as [|bn b Hbn Hb IH]; [apply Nat.le_refl|].
    rewrite contents_cons, app_length. cbn [length].
    destruct (snd bn); [congruence|cbn [length]; lia].
  Qed.

  Lemma add_item_contents b x i : (i < length b)%nat ->
    Permutation (contents (add_item valueof true b x i)) (x :: contents b).
  Proof.
    unfold add_item. revert i. induction b as [|bn t IH]; intros [|j] H; simpl in *; try lia.
    - rewrite !contents_cons. simpl. rewrite <- app_assoc. simpl.
      symmetry. apply Permutation_middle.
    - rewrite !contents_cons. rewrite IH by lia. symmetry. apply Permutation_middle.
  Qed.

  Lemma add_item_contents_nokeep b x i : contents (add_item valueof false b x i) = contents b.
  Proof.
    unfold add_item. revert i. induction b as [|bn t IH]; intros [|j]; simpl; auto.
    rewrite !contents_cons. rewrite IH. reflexivity.
  Qed.

  Lemma sort_bins_perm (b : bins A) : Permutation (sort_bins b) b.
  Proof. apply sort_asc_perm. Qed.

  Lemma sort_bins_length (b : bins A) : length (sort_bins b) = length b.
  Proof. apply sort_asc_length. Qed.

  Lemma wf_perm (b1 b2 : bins A) : Permutation b1 b2 -> wf valueof b1 -> wf valueof b2.
  Proof. intros P H. eapply Permutation_Forall; eauto. Qed.

  Lemma sort_bins_wf (b : bins A) : wf valueof b -> wf valueof (sort_bins b).
  Proof. apply wf_perm. symmetry. apply sort_bins_perm. Qed.

  Lemma contents_perm (b1 b2 : bins A) : Permutation b1 b2 -> Permutation (contents b1) (contents b2).
  Proof.
    induction 1; simpl; auto.
    - rewrite !contents_cons. apply Permutation_app_head; auto.
    - rewrite !contents_cons. rewrite !app_assoc. apply Permutation_app_tail. apply Permutation_app_comm.
    - etransitivity; eauto.
  Qed.

  Lemma sort_bins_contents (b : bins A) : Permutation (contents (sort_bins b)) (contents b).
  Proof. apply contents_perm, sort_bins_perm. Qed.

  Lemma sort_bins_sums_perm (b : bins A) : Permutation (sums (sort_bins b)) (sums b).
  Proof. apply Permutation_map, sort_bins_perm. Qed.

  Lemma sort_bins_sorted (b : bins A) : StronglySorted Z.le (sums (sort_bins b)).
  Proof.
    pose proof (sort_asc_sorted (@fst Z (list A)) b) as H. unfold sort_bins, key_sorted, sums in *.
    induction H; simpl; constructor; auto. rewrite Forall_map. auto.
  Qed.

  Lemma combine_bin_wf (b1 b2 : bin A) : wf_bin valueof b1 -> wf_bin valueof b2 -> wf_bin valueof (combine_bin b1 b2).
  Proof. unfold wf_bin, combine_bin. simpl. intros -> ->. rewrite map_app, zsum_app. reflexivity. Qed.

  (** the recorded sums add up to the total value of the contents *)
  Lemma wf_total (b : bins A) : wf valueof b -> zsum (sums b) = zsum (map valueof (contents b)).
  Proof.
    induction 1 as [|bn t Hb Ht IH]; simpl; auto.
    rewrite contents_cons, map_app, zsum_app. unfold wf_bin in Hb. rewrite <- Hb, IH. reflexivity.
  Qed.

  Lemma erase_sums (b : bins A) : sums (erase b) = sums b.
  Proof. unfold sums, erase. rewrite map_map. reflexivity. Qed.

  Lemma erase_length (b : bins A) : length (erase b) = length b.
  Proof. apply map_length. Qed.
End BinnerLemmas.
