(** Property C17: the ILP partitioner (Model/ILP.v): formulation + decoding.
    The external solver is not modelled: optimality of its answer is the hypothesis
    [solve_optimal : solver_spec solve] of Section Solver; everything else is about what prtpy itself builds and decodes.

    Rationals are pairs (num, den) in the model; the proofs map them into Q ([toQ]) to use
    ring/field reasoning and come back to cross-multiplied Z statements at the end. *)
From Prtpy Require Import Base.Prelude Model.Binner Model.Objectives Model.ILP Spec.Partition
  Proofs.BaseLemmas Proofs.BinnerLemmas Proofs.ObjectivesProofs Proofs.EnumProofs Proofs.CoveringProofs
  Proofs.SNPProofs.
From Coq Require Import Sorting.Sorted Arith ZifyBool QArith Lqa.
Close Scope Q_scope.
Open Scope Z_scope.

(** ================= 0. lists and ranges ================= *)

Lemma ilp_nth_map_range {T} (f : nat -> T) k j d : (j < k)%nat -> nth j (map f (range k)) d = f j.
Proof.
  intros H. rewrite (nth_indep _ d (f O)) by (rewrite map_length, range_length; exact H).
  rewrite (map_nth f (range k) O j). rewrite range_nth by exact H. reflexivity.
Qed.

Lemma ilp_last_map_range {T} (f : nat -> T) k d : (1 <= k)%nat -> last (map f (range k)) d = f (k - 1)%nat.
Proof.
  intros H. destruct k as [|k]; [lia|]. rewrite range_S, map_app. cbn [map].
  rewrite last_last. f_equal. lia.
Qed.

Lemma ilp_hd_map_range {T} (f : nat -> T) k d : (1 <= k)%nat -> hd d (map f (range k)) = f O.
Proof. intros H. destruct k as [|k]; [lia|]. reflexivity. Qed.

Lemma ilp_map_nth_range {T} (l : list T) d : l = map (fun j => nth j l d) (range (length l)).
Proof.
  induction l as [|x t IH]; cbn [length]; [reflexivity|].
  rewrite range_seq. cbn [seq map nth]. f_equal. rewrite <- seq_shift, map_map, <- range_seq. exact IH.
Qed.

Lemma ilp_enumerate_from_map {T} (l : list T) d : forall s,
  enumerate_from s l = map (fun i => ((s + i)%nat, nth i l d)) (range (length l)).
Proof.
  induction l as [|x t IH]; intros s; cbn [enumerate_from length]; [reflexivity|].
  rewrite range_seq. cbn [seq map nth]. rewrite Nat.add_0_r. f_equal.
  rewrite IH, range_seq, <- seq_shift, map_map. apply map_ext. intros i. cbn [nth].
  rewrite Nat.add_succ_r. reflexivity.
Qed.

Lemma ilp_enumerate_map {T} (l : list T) d :
  enumerate l = map (fun i => (i, nth i l d)) (range (length l)).
Proof. unfold enumerate. rewrite (ilp_enumerate_from_map l d O). reflexivity. Qed.

Lemma ilp_enumerate_from_map_fun {T U} (f : T -> U) (l : list T) : forall s,
  enumerate_from s (map f l) = map (fun p => (fst p, f (snd p))) (enumerate_from s l).
Proof. induction l as [|x t IH]; intros s; cbn [map enumerate_from fst snd]; [reflexivity|]. rewrite IH. reflexivity. Qed.

Lemma ilp_enumerate_from_fst {T} (l : list T) : forall s p,
  In p (enumerate_from s l) -> (s <= fst p < s + length l)%nat.
Proof.
  induction l as [|x t IH]; intros s p H; cbn [enumerate_from In length] in *; [destruct H|].
  destruct H as [H|H]; [subst p; cbn [fst]; lia|]. apply IH in H. lia.
Qed.

Lemma ilp_enumerate_from_snd {T} (l : list T) : forall s, map snd (enumerate_from s l) = l.
Proof. induction l as [|x t IH]; intros s; cbn [enumerate_from map snd]; [reflexivity|]. rewrite IH. reflexivity. Qed.

Lemma ilp_enumerate_from_repeat {T} (x : T) n : forall s,
  enumerate_from s (repeat x n) = map (fun j => (j, x)) (range_from s n).
Proof. induction n as [|n IH]; intros s; cbn [repeat enumerate_from range_from map]; [reflexivity|]. rewrite IH. reflexivity. Qed.

Lemma ilp_update_update {T} (f g : T -> T) (l : list T) : forall i,
  update i f (update i g l) = update i (fun x => f (g x)) l.
Proof. induction l as [|x t IH]; intros [|i]; cbn [update]; try reflexivity. rewrite IH. reflexivity. Qed.

Lemma ilp_update_ext {T} (f g : T -> T) (l : list T) : (forall x, f x = g x) -> forall i,
  update i f l = update i g l.
Proof. intros H. induction l as [|x t IH]; intros [|i]; cbn [update]; try reflexivity; [rewrite H|rewrite IH]; reflexivity. Qed.

Lemma ilp_update_id {T} (f : T -> T) (l : list T) : (forall x, f x = x) -> forall i, update i f l = l.
Proof. intros H. induction l as [|x t IH]; intros [|i]; cbn [update]; try reflexivity; [rewrite H|rewrite IH]; reflexivity. Qed.

(** the outer decoding loop: position j is rewritten once, by H j *)
Lemma ilp_fold_update_range {T} (H : nat -> T -> T) : forall (l pre : list T),
  fold_left (fun b j => update j (H j) b) (range_from (length pre) (length l)) (pre ++ l)
  = pre ++ map (fun p => H (fst p) (snd p)) (enumerate_from (length pre) l).
Proof.
  induction l as [|x t IH]; intros pre; cbn [length range_from fold_left enumerate_from map fst snd]; [reflexivity|].
  rewrite update_app_r.
  change (pre ++ H (length pre) x :: t) with (pre ++ [H (length pre) x] ++ t). rewrite app_assoc.
  assert (E : S (length pre) = length (pre ++ [H (length pre) x])) by (rewrite app_length; cbn [length]; lia).
  rewrite E. rewrite IH. rewrite <- E. rewrite <- app_assoc. reflexivity.
Qed.

Lemma ilp_fold_left_ext {T U} (f g : T -> U -> T) (l : list U) : (forall a x, f a x = g a x) ->
  forall a, fold_left f l a = fold_left g l a.
Proof. intros H. induction l as [|x l IH]; intros a; cbn [fold_left]; [reflexivity|]. rewrite H. apply IH. Qed.

(** concat of a double family can be taken in either order, up to permutation *)
Lemma ilp_concat_map_app_perm {T I} (f g : I -> list T) (l : list I) :
  Permutation (concat (map (fun i => f i ++ g i) l)) (concat (map f l) ++ concat (map g l)).
Proof.
  induction l as [|i l IH]; cbn [map concat]; [apply Permutation_refl|].
  rewrite IH. rewrite <- !app_assoc. apply Permutation_app_head.
  rewrite !app_assoc. apply Permutation_app_tail. apply Permutation_app_comm.
Qed.

Lemma ilp_concat_swap {T I J} (f : I -> J -> list T) (li : list I) (lj : list J) :
  Permutation (concat (map (fun j => concat (map (fun i => f i j) li)) lj))
              (concat (map (fun i => concat (map (fun j => f i j) lj)) li)).
Proof.
  induction lj as [|j lj IH]; cbn [map concat].
  - induction li as [|i li IHi]; cbn [map concat app]; [apply Permutation_refl|exact IHi].
  - rewrite IH. symmetry. apply (ilp_concat_map_app_perm (fun i => f i j) (fun i => concat (map (fun j0 => f i j0) lj))).
Qed.

Lemma ilp_concat_singletons {T U} (g : T -> U) (l : list T) : concat (map (fun p => [g p]) l) = map g l.
Proof. induction l as [|p l IH]; cbn [map concat app]; [reflexivity|]. rewrite IH. reflexivity. Qed.

Lemma ilp_nth_repeat {T} (x d : T) n i : (i < n)%nat -> nth i (repeat x n) d = x.
Proof. intros H. rewrite (nth_indep _ d x) by (rewrite repeat_length; exact H). apply nth_repeat. Qed.

Lemma ilp_combine_repeat {T U} (l : list T) (c : U) : combine l (repeat c (length l)) = map (fun x => (x, c)) l.
Proof. induction l as [|x l IH]; cbn [length repeat combine map]; [reflexivity|]. rewrite IH. reflexivity. Qed.

Lemma ilp_combine_map {I T U} (f : I -> T) (g : I -> U) (l : list I) :
  combine (map f l) (map g l) = map (fun j => (f j, g j)) l.
Proof. induction l as [|x t IH]; cbn [map combine]; [reflexivity|]. rewrite IH. reflexivity. Qed.

Lemma ilp_last_nth {T} (l : list T) d : last l d = nth (length l - 1) l d.
Proof.
  induction l as [|x t IH]; [reflexivity|]. destruct t as [|y t']; [reflexivity|].
  change (last (x :: y :: t') d) with (last (y :: t') d). rewrite IH. cbn [length nth Nat.sub].
  rewrite Nat.sub_0_r. reflexivity.
Qed.

Lemma ilp_hd_nth {T} (l : list T) d : hd d l = nth O l d.
Proof. destruct l; reflexivity. Qed.

Lemma ilp_Forall_skipn {T} (P : T -> Prop) j : forall l, Forall P l -> Forall P (skipn j l).
Proof.
  induction j as [|j IH]; intros l H; cbn [skipn]; [exact H|].
  destruct H as [|x l Hx Hl]; [constructor|apply IH; exact Hl].
Qed.
Lemma ilp_Forall_suffix {T} (P : T -> Prop) j l : Forall P l -> Forall P (py_suffix_gen j l).
Proof. intros H. destruct j as [|j]; cbn [py_suffix_gen]; [exact H|apply ilp_Forall_skipn; exact H]. Qed.

Lemma py_suffix_gen_map {T U} (f : T -> U) j l : py_suffix_gen j (map f l) = map f (py_suffix_gen j l).
Proof. destruct j as [|j]; cbn [py_suffix_gen]; [reflexivity|]. rewrite map_length, skipn_map. reflexivity. Qed.

Lemma ilp_zsum_map_add {T} (f g : T -> Z) (l : list T) :
  zsum (map (fun x => f x + g x) l) = zsum (map f l) + zsum (map g l).
Proof. induction l as [|x t IH]; cbn [map]; rewrite ?zsum_cons; [reflexivity|]. rewrite IH. lia. Qed.

Lemma ilp_zsum_map_mul {T} (f : T -> Z) c (l : list T) :
  zsum (map (fun x => f x * c) l) = zsum (map f l) * c.
Proof. induction l as [|x t IH]; cbn [map]; rewrite ?zsum_cons; [reflexivity|]. rewrite IH. lia. Qed.

Lemma ilp_zsum_map_repeat {T} (f : T -> Z) x c : zsum (map f (repeat x c)) = Z.of_nat c * f x.
Proof. induction c as [|c IH]; cbn [repeat map]; rewrite ?zsum_cons; [reflexivity|]. rewrite IH. lia. Qed.

Lemma ilp_concat_repeat {T J} (x : T) (h : J -> Z) (l : list J) : (forall j, In j l -> 0 <= h j) ->
  concat (map (fun j => repeat x (Z.to_nat (h j))) l) = repeat x (Z.to_nat (zsum (map h l))) /\ 0 <= zsum (map h l).
Proof.
  induction l as [|j l IH]; intros H; cbn [map concat].
  - split; [reflexivity|cbn; lia].
  - destruct IH as [E P]; [intros j' Hj'; apply H; right; exact Hj'|].
    assert (Hj : 0 <= h j) by (apply H; left; reflexivity).
    rewrite zsum_cons. split; [|lia]. rewrite E. rewrite Z2Nat.inj_add by assumption.
    rewrite repeat_app. reflexivity.
Qed.

(** ================= 1. rationals as pairs, mapped into Q ================= *)

Definition rpos (r : rat) : Prop := 0 < snd r.
Definition toQ (r : rat) : Q := Qmake (fst r) (Z.to_pos (snd r)).

Lemma rpos_int z : rpos (z, 1).
Proof. reflexivity. Qed.
Lemma rpos_radd a b : rpos a -> rpos b -> rpos (radd a b).
Proof. unfold rpos, radd. cbn [snd]. nia. Qed.
Lemma rpos_rneg a : rpos a -> rpos (rneg a).
Proof. unfold rpos, rneg. cbn [snd]. auto. Qed.
Lemma rpos_rmulz a z : rpos a -> rpos (rmulz a z).
Proof. unfold rpos, rmulz. cbn [snd]. auto. Qed.

Lemma toQ_radd a b : rpos a -> rpos b -> (toQ (radd a b) == toQ a + toQ b)%Q.
Proof.
  unfold rpos, toQ, radd, Qeq, Qplus. destruct a as [a1 a2], b as [b1 b2]. cbn [fst snd Qnum Qden]. intros Ha Hb.
  rewrite Z2Pos.inj_mul by assumption. rewrite !Pos2Z.inj_mul. rewrite !Z2Pos.id by assumption. ring.
Qed.
Lemma toQ_rneg a : (toQ (rneg a) == - toQ a)%Q.
Proof. unfold toQ, rneg, Qeq, Qopp. cbn [fst snd Qnum Qden]. ring. Qed.
Lemma toQ_rmulz a z : (toQ (rmulz a z) == toQ a * inject_Z z)%Q.
Proof. unfold toQ, rmulz, Qeq, Qmult, inject_Z. cbn [fst snd Qnum Qden]. rewrite Pos.mul_1_r. ring. Qed.
Lemma toQ_rsub a b : rpos a -> rpos b -> (toQ (rsub a b) == toQ a - toQ b)%Q.
Proof. intros Ha Hb. unfold rsub. rewrite toQ_radd by (try apply rpos_rneg; assumption). rewrite toQ_rneg. ring. Qed.
Lemma toQ_int z : (toQ (z, 1%Z) == inject_Z z)%Q.
Proof. reflexivity. Qed.
Lemma toQ_zero d : (toQ (0%Z, d) == 0)%Q.
Proof. unfold toQ, Qeq. cbn [fst snd Qnum Qden]. ring. Qed.
Lemma toQ_same_den_add a b w : (toQ (a, w) + toQ (b, w) == toQ ((a + b)%Z, w))%Q.
Proof. unfold toQ, Qeq, Qplus. cbn [fst snd Qnum Qden]. rewrite Pos2Z.inj_mul. ring. Qed.

(** cross-multiplied readings *)
Lemma toQ_le a b : rpos a -> rpos b -> ((toQ a <= toQ b)%Q <-> fst a * snd b <= fst b * snd a).
Proof. unfold rpos, toQ, Qle. cbn [Qnum Qden]. intros Ha Hb. rewrite !Z2Pos.id by assumption. reflexivity. Qed.
Lemma toQ_eq a b : rpos a -> rpos b -> ((toQ a == toQ b)%Q <-> fst a * snd b = fst b * snd a).
Proof. unfold rpos, toQ, Qeq. cbn [Qnum Qden]. intros Ha Hb. rewrite !Z2Pos.id by assumption. reflexivity. Qed.

(** sign tests used by [satisfies] *)
Lemma rsgn_pos a : rpos a -> rsgn a = Z.sgn (fst a).
Proof. unfold rpos, rsgn. intros H. rewrite (Z.sgn_pos (snd a)) by exact H. lia. Qed.
Lemma rsgn_ge a : rpos a -> ((0 <=? rsgn a) = true <-> (0 <= toQ a)%Q).
Proof. intros H. rewrite rsgn_pos, Z.leb_le, Z.sgn_nonneg by exact H. unfold toQ, Qle. cbn [Qnum Qden]. lia. Qed.
Lemma rsgn_le a : rpos a -> ((rsgn a <=? 0) = true <-> (toQ a <= 0)%Q).
Proof. intros H. rewrite rsgn_pos, Z.leb_le, Z.sgn_nonpos by exact H. unfold toQ, Qle. cbn [Qnum Qden]. lia. Qed.
Lemma rsgn_eq a : rpos a -> ((rsgn a =? 0) = true <-> (toQ a == 0)%Q).
Proof. intros H. rewrite rsgn_pos, Z.eqb_eq, Z.sgn_null_iff by exact H. unfold toQ, Qeq. cbn [Qnum Qden]. lia. Qed.

Lemma rleb_Q a b : rpos a -> rpos b -> (rleb a b = true <-> (toQ a <= toQ b)%Q).
Proof.
  intros Ha Hb. unfold rleb. rewrite rsgn_le by (unfold rsub; apply rpos_radd; [|apply rpos_rneg]; assumption).
  rewrite toQ_rsub by assumption. split; intros H; lra.
Qed.

(** ================= 2. linear expressions: evaluation is a homomorphism ================= *)

Definition tpos (ts : list (nat * rat)) : Prop := Forall (fun t => rpos (snd t)) ts.
Definition lpos (e : linexpr) : Prop := tpos (fst e) /\ rpos (snd e).
(** the value of an expression under an assignment, as a rational number *)
Definition Qv (asg : list Z) (e : linexpr) : Q := toQ (eval_expr asg e).

Fixpoint qterms (asg : list Z) (ts : list (nat * rat)) : Q :=
  match ts with
  | [] => 0%Q
  | t :: ts => (toQ (snd t) * inject_Z (nth (fst t) asg 0%Z) + qterms asg ts)%Q
  end.
Definition qsum (l : list Q) : Q := fold_right Qplus 0%Q l.

Lemma qsum_cons x l : qsum (x :: l) = (x + qsum l)%Q.
Proof. reflexivity. Qed.
Lemma qsum_nil : qsum [] = 0%Q.
Proof. reflexivity. Qed.
Lemma eval_terms_cons asg t ts :
  eval_terms asg (t :: ts) = radd (rmulz (snd t) (nth (fst t) asg 0)) (eval_terms asg ts).
Proof. reflexivity. Qed.

Lemma eval_terms_pos asg ts : tpos ts -> rpos (eval_terms asg ts).
Proof.
  induction 1 as [|t ts Ht Hts IH]; [apply rpos_int|]. rewrite eval_terms_cons.
  apply rpos_radd; [apply rpos_rmulz; exact Ht|exact IH].
Qed.

Lemma eval_expr_pos asg e : lpos e -> rpos (eval_expr asg e).
Proof. intros [H1 H2]. unfold eval_expr. apply rpos_radd; [apply eval_terms_pos; exact H1|exact H2]. Qed.

Lemma toQ_eval_terms asg ts : tpos ts -> (toQ (eval_terms asg ts) == qterms asg ts)%Q.
Proof.
  induction 1 as [|t ts Ht Hts IH]; [reflexivity|]. rewrite eval_terms_cons. cbn [qterms].
  rewrite toQ_radd by (try apply rpos_rmulz; try apply eval_terms_pos; assumption).
  rewrite toQ_rmulz, IH. reflexivity.
Qed.

Lemma Qv_eq asg e : lpos e -> (Qv asg e == qterms asg (fst e) + toQ (snd e))%Q.
Proof.
  intros [H1 H2]. unfold Qv, eval_expr. rewrite toQ_radd by (try apply eval_terms_pos; assumption).
  rewrite toQ_eval_terms by exact H1. reflexivity.
Qed.

Lemma qterms_app asg l1 l2 : (qterms asg (l1 ++ l2) == qterms asg l1 + qterms asg l2)%Q.
Proof. induction l1 as [|t l1 IH]; cbn [app qterms]; [|rewrite IH]; ring. Qed.

Lemma qterms_neg asg l : (qterms asg (map (fun t => (fst t, rneg (snd t))) l) == - qterms asg l)%Q.
Proof. induction l as [|t l IH]; cbn [map qterms fst snd]; [|rewrite IH, toQ_rneg]; ring. Qed.

(** [e] has positive denominators and its value under [asg] is [q].  Evaluation commutes with the
    operations on expressions only for positive denominators, so the two facts travel together. *)
Definition evaluates (asg : list Z) (e : linexpr) (q : Q) : Prop := lpos e /\ (Qv asg e == q)%Q.

Lemma ev_eq asg e q q' : evaluates asg e q -> (q == q')%Q -> evaluates asg e q'.
Proof. intros [P E] H. split; [exact P|]. rewrite E. exact H. Qed.

Lemma ev_terms asg e : lpos e -> evaluates asg e (qterms asg (fst e) + toQ (snd e)).
Proof. intros P. split; [exact P|apply Qv_eq; exact P]. Qed.

Lemma ev_lzero asg : evaluates asg lzero 0.
Proof. split; [split; [constructor|apply rpos_int]|reflexivity]. Qed.

Lemma ev_ladd asg e1 e2 q1 q2 :
  evaluates asg e1 q1 -> evaluates asg e2 q2 -> evaluates asg (ladd e1 e2) (q1 + q2).
Proof.
  intros [P1 E1] [P2 E2].
  assert (P : lpos (ladd e1 e2)).
  { split; cbn [ladd fst snd]; [apply Forall_app; split; [apply P1|apply P2]|apply rpos_radd; [apply P1|apply P2]]. }
  split; [exact P|]. rewrite <- E1, <- E2, !Qv_eq by assumption. cbn [ladd fst snd].
  rewrite qterms_app, toQ_radd by (apply P1 || apply P2). ring.
Qed.

Lemma ev_lneg asg e q : evaluates asg e q -> evaluates asg (lneg e) (- q).
Proof.
  intros [P E].
  assert (P' : lpos (lneg e)).
  { split; cbn [lneg fst snd]; [|apply rpos_rneg, P].
    unfold tpos. rewrite Forall_map. eapply Forall_impl; [|apply P]. intros t Ht. apply rpos_rneg. exact Ht. }
  split; [exact P'|]. rewrite <- E, !Qv_eq by assumption. cbn [lneg fst snd].
  rewrite qterms_neg, toQ_rneg. ring.
Qed.

Lemma ev_lsub asg e1 e2 q1 q2 :
  evaluates asg e1 q1 -> evaluates asg e2 q2 -> evaluates asg (lsub e1 e2) (q1 - q2).
Proof. intros H1 H2. apply ev_ladd; [exact H1|apply ev_lneg; exact H2]. Qed.

Lemma ev_laddc asg e c q : evaluates asg e q -> rpos c -> evaluates asg (laddc e c) (q + toQ c).
Proof.
  intros [P E] Hc.
  assert (P' : lpos (laddc e c)) by (split; cbn [laddc fst snd]; [apply P|apply rpos_radd; [apply P|exact Hc]]).
  split; [exact P'|]. rewrite <- E, !Qv_eq by assumption. cbn [laddc fst snd].
  rewrite toQ_radd by (apply P || exact Hc). ring.
Qed.

Section Family.
  Context (asg : list Z) {I : Type} (f : I -> linexpr) (g : I -> Q).

  Lemma ev_hd l : Forall (fun i => evaluates asg (f i) (g i)) l ->
    evaluates asg (nth O (map f l) lzero) (hd 0%Q (map g l)).
  Proof. intros [|i l' H _]; [apply ev_lzero|exact H]. Qed.

  Lemma ev_last l : Forall (fun i => evaluates asg (f i) (g i)) l ->
    evaluates asg (last (map f l) lzero) (last (map g l) 0%Q).
  Proof. induction 1 as [|i l H Hl IH]; [apply ev_lzero|]. destruct Hl; [exact H|exact IH]. Qed.

  Lemma ev_lsum l : Forall (fun i => evaluates asg (f i) (g i)) l ->
    evaluates asg (lsum (map f l)) (qsum (map g l)).
  Proof.
    intros H.
    assert (G : forall acc q, evaluates asg acc q ->
                evaluates asg (fold_left ladd (map f l) acc) (q + qsum (map g l))).
    { induction H as [|i l Hi _ IH]; intros acc q Ha; cbn [map fold_left].
      - apply (ev_eq _ _ _ _ Ha). rewrite qsum_nil. ring.
      - apply (ev_eq _ _ _ _ (IH _ _ (ev_ladd _ _ _ _ _ Ha Hi))). rewrite qsum_cons. ring. }
    apply (ev_eq _ _ _ _ (G _ _ (ev_lzero asg))). ring.
  Qed.
End Family.

(** the objective in the solver's sorted-fast-path form, over rationals *)
Definition qvalue (o : objective) (s : list Q) : Q :=
  match o with
  | MaxSmallest => (- hd 0 s)%Q
  | MinLargest => last s 0%Q
  | MinDiff => (last s 0 - hd 0 s)%Q
  | MaxKSmallest j => (- qsum (firstn j s))%Q
  | MinKLargest j => qsum (py_suffix_gen j s)
  end.

(** evaluation of the objective expression = fast-path objective of the evaluated sums *)
Lemma ev_objective asg o {I} (f : I -> linexpr) (g : I -> Q) l :
  Forall (fun i => evaluates asg (f i) (g i)) l ->
  evaluates asg (objective_expr o (map f l)) (qvalue o (map g l)).
Proof.
  intros H. destruct o as [| | |j|j]; cbn [objective_expr qvalue].
  - apply ev_lneg, ev_hd, H.
  - apply ev_last, H.
  - apply ev_lsub; [apply ev_last|apply ev_hd]; exact H.
  - rewrite !firstn_map. apply ev_lneg, ev_lsum, Forall_firstn, H.
  - rewrite !py_suffix_gen_map. apply ev_lsum, ilp_Forall_suffix, H.
Qed.

Lemma satisfies_ev asg e s q : evaluates asg e q ->
  (satisfies asg (e, s) = true <->
   match s with SLe => (q <= 0)%Q | SGe => (0 <= q)%Q | SEq => (q == 0)%Q end).
Proof.
  intros [P E]. pose proof (eval_expr_pos asg e P) as R. unfold satisfies. cbn [fst snd].
  destruct s; rewrite <- E; [apply rsgn_le|apply rsgn_ge|apply rsgn_eq]; exact R.
Qed.

Lemma satisfies_diff asg e s a b : rpos a -> rpos b -> evaluates asg e (toQ a - toQ b) ->
  (satisfies asg (e, s) = true <->
   match s with
   | SLe => fst a * snd b <= fst b * snd a
   | SGe => fst b * snd a <= fst a * snd b
   | SEq => fst a * snd b = fst b * snd a
   end).
Proof.
  intros Ha Hb H. rewrite (satisfies_ev asg e s _ H).
  destruct s; [rewrite <- (toQ_le a b Ha Hb)|rewrite <- (toQ_le b a Hb Ha)|rewrite <- (toQ_eq a b Ha Hb)];
    split; intros G; lra.
Qed.

(** ================= 3. the bin-sum expressions ================= *)

(** count of item i in bin j according to the assignment *)
Definition cnt (asg : list Z) (k i j : nat) : Z := nth (var i j k) asg 0.
(** the (unweighted) sum of bin j according to the assignment *)
Definition bterm (asg : list Z) (k j : nat) (p : nat * Z) : Z := snd p * cnt asg k (fst p) j.
Definition bsum (vs asg : list Z) (k j : nat) : Z := zsum (map (bterm asg k j) (enumerate vs)).
(** weight of bin j *)
Definition wt (ws : list Z) (j : nat) : Z := nth j ws 1.
(** the weighted sum of bin j, a rational *)
Definition wq (vs ws asg : list Z) (k j : nat) : Q := toQ (bsum vs asg k j, wt ws j).
(** weighted sums of all bins, in bin order *)
Definition wqs (vs ws asg : list Z) (k : nat) : list Q := map (wq vs ws asg k) (range k).

Definition wpos (ws : list Z) (k : nat) : Prop := forall j, (j < k)%nat -> 0 < wt ws j.

Lemma wpos_of_Forall ws k : Forall (fun w => 0 < w) ws -> wpos ws k.
Proof.
  intros H j _. unfold wt. destruct (Nat.lt_ge_cases j (length ws)) as [L|L].
  - rewrite Forall_forall in H. apply H. apply nth_In. exact L.
  - rewrite nth_overflow by exact L. lia.
Qed.

Lemma qterms_bin asg w k j : forall ps : list (nat * Z),
  (qterms asg (map (fun p => (var (fst p) j k, (snd p, w))) ps)
   == toQ (zsum (map (bterm asg k j) ps), w))%Q.
Proof.
  induction ps as [|p ps IH]; cbn [map qterms fst snd]; [symmetry; apply toQ_zero|].
  rewrite zsum_cons, IH, <- (toQ_rmulz (snd p, w)). apply toQ_same_den_add.
Qed.

Lemma ev_bin_sum_expr vs ws asg k j : 0 < wt ws j ->
  evaluates asg (bin_sum_expr vs ws k j) (wq vs ws asg k j).
Proof.
  intros H. eapply ev_eq.
  - apply ev_terms. split; cbn [bin_sum_expr fst snd]; [|apply rpos_int].
    unfold tpos. rewrite Forall_map. apply Forall_forall. intros p _. exact H.
  - cbn [bin_sum_expr fst snd]. rewrite (qterms_bin asg (nth j ws 1) k j (enumerate vs)), toQ_zero.
    unfold wq, bsum, wt. ring.
Qed.

Lemma ev_sum_exprs vs ws asg k : wpos ws k ->
  Forall (fun j => evaluates asg (bin_sum_expr vs ws k j) (wq vs ws asg k j)) (range k).
Proof. intros W. apply Forall_forall. intros j Hj. apply ev_bin_sum_expr, W, range_In, Hj. Qed.

Lemma sum_exprs_nth vs ws k j : (j < k)%nat -> nth j (sum_exprs vs ws k) lzero = bin_sum_expr vs ws k j.
Proof. intros H. unfold sum_exprs. apply ilp_nth_map_range. exact H. Qed.
Lemma sum_exprs_last vs ws k : (1 <= k)%nat -> last (sum_exprs vs ws k) lzero = bin_sum_expr vs ws k (k - 1).
Proof. intros H. unfold sum_exprs. apply ilp_last_map_range. exact H. Qed.

(** (c, weighted form) the value of the objective expression is the fast-path objective of the weighted sums *)
Lemma ev_objective_value vs ws asg k o : wpos ws k ->
  evaluates asg (objective_expr o (sum_exprs vs ws k)) (qvalue o (wqs vs ws asg k)).
Proof. intros W. apply ev_objective, ev_sum_exprs, W. Qed.

Lemma objective_value_wqs vs ws asg k o : wpos ws k ->
  (toQ (objective_value vs k ws o asg) == qvalue o (wqs vs ws asg k))%Q.
Proof. intros W. apply (ev_objective_value vs ws asg k o W). Qed.

Lemma objective_value_pos vs ws asg k o : wpos ws k -> rpos (objective_value vs k ws o asg).
Proof. intros W. apply eval_expr_pos, (ev_objective_value vs ws asg k o W). Qed.

(** ================= 4. what feasibility means ================= *)

(** the additional constraints, read on the bin sums of the assignment (cross-multiplied) *)
Definition extra_sem (vs ws asg : list Z) (k : nat) (x : extra) : Prop :=
  match x with
  | SmallestEq c => bsum vs asg k 0 = c * wt ws 0
  | LargestLe c => bsum vs asg k (k - 1) <= c * wt ws (k - 1)
  | SmallestGe c => c * wt ws 0 <= bsum vs asg k 0
  end.

Definition sem_feasible (vs : list Z) (k : nat) (copies ws : list Z) (ex : list extra) (asg : list Z) : Prop :=
  length asg = (length vs * k)%nat /\
  (forall i j, (i < length vs)%nat -> (j < k)%nat -> 0 <= cnt asg k i j) /\
  (forall i, (i < length vs)%nat -> zsum (map (cnt asg k i) (range k)) = nth i copies 0) /\
  (forall j, (S j < k)%nat -> bsum vs asg k j * wt ws (S j) <= bsum vs asg k (S j) * wt ws j) /\
  Forall (extra_sem vs ws asg k) ex.

(** a sum of variables with coefficient 1, plus an integer constant: the expressions of the
    non-negativity and the copies constraints *)
Lemma ev_ones asg (v : nat -> nat) l c :
  evaluates asg (map (fun j => (v j, (1, 1))) l, (c, 1))
            (inject_Z (zsum (map (fun j => nth (v j) asg 0) l) + c)).
Proof.
  eapply ev_eq.
  - apply ev_terms. split; cbn [fst snd]; [|apply rpos_int].
    unfold tpos. rewrite Forall_map. apply Forall_forall. intros j _. apply rpos_int.
  - cbn [fst snd]. rewrite toQ_int, inject_Z_plus. apply Qplus_inj_r.
    induction l as [|j l IH]; cbn [map qterms fst snd]; [reflexivity|].
    rewrite zsum_cons, inject_Z_plus, IH, toQ_int. ring.
Qed.

Lemma sat_nonneg asg v : satisfies asg (([(v, (1, 1))], (0, 1)), SGe) = true <-> 0 <= nth v asg 0.
Proof.
  rewrite (satisfies_ev asg _ SGe _ (ev_ones asg (fun j => j) [v] 0)). cbn [map].
  rewrite (Zle_Qle 0). rewrite zsum_cons. cbn [zsum fold_right]. rewrite !Z.add_0_r. reflexivity.
Qed.

Lemma sat_copies asg k i c :
  satisfies asg ((map (fun j => (var i j k, (1, 1))) (range k), (- c, 1)), SEq) = true <->
  zsum (map (cnt asg k i) (range k)) = c.
Proof.
  rewrite (satisfies_ev asg _ SEq _ (ev_ones asg (fun j => var i j k) (range k) (- c))).
  change 0%Q with (inject_Z 0). rewrite inject_Z_injective. unfold cnt. lia.
Qed.

Lemma sat_asc vs ws asg k j : wpos ws k -> (S j < k)%nat ->
  satisfies asg (lsub (nth (S j) (sum_exprs vs ws k) lzero) (nth j (sum_exprs vs ws k) lzero), SGe) = true <->
  bsum vs asg k j * wt ws (S j) <= bsum vs asg k (S j) * wt ws j.
Proof.
  intros W Hj. rewrite !sum_exprs_nth by lia.
  assert (W0 : 0 < wt ws j) by (apply W; lia). assert (W1 : 0 < wt ws (S j)) by (apply W; lia).
  apply (satisfies_diff asg _ SGe (bsum vs asg k (S j), wt ws (S j)) (bsum vs asg k j, wt ws j) W1 W0).
  apply ev_lsub; apply ev_bin_sum_expr; assumption.
Qed.

Lemma sat_sum_vs_int vs ws asg k j c s : 0 < wt ws j ->
  (satisfies asg (laddc (bin_sum_expr vs ws k j) (- c, 1), s) = true <->
   match s with
   | SLe => bsum vs asg k j <= c * wt ws j
   | SGe => c * wt ws j <= bsum vs asg k j
   | SEq => bsum vs asg k j = c * wt ws j
   end).
Proof.
  intros W. rewrite (satisfies_diff asg _ s (bsum vs asg k j, wt ws j) (c, 1) W (rpos_int c)).
  - cbn [fst snd]. destruct s; lia.
  - eapply ev_eq; [apply ev_laddc; [apply ev_bin_sum_expr, W|apply rpos_int]|].
    change ((- c)%Z, 1%Z) with (rneg (c, 1)). rewrite toQ_rneg. reflexivity.
Qed.

Lemma sat_extra vs ws asg k x : (1 <= k)%nat -> wpos ws k ->
  (satisfies asg (extra_constr (sum_exprs vs ws k) x) = true <-> extra_sem vs ws asg k x).
Proof.
  intros Hk W. destruct x as [c|c|c]; cbn [extra_constr extra_sem];
    rewrite ?sum_exprs_nth, ?sum_exprs_last by lia; apply sat_sum_vs_int, W; lia.
Qed.

Lemma forallb_map_range {T} (p : T -> bool) (c : nat -> T) (P : nat -> Prop) n :
  (forall i, (i < n)%nat -> (p (c i) = true <-> P i)) ->
  (forallb p (map c (range n)) = true <-> forall i, (i < n)%nat -> P i).
Proof.
  intros H. rewrite forallb_forall. split.
  - intros G i Hi. apply H; [exact Hi|]. apply G, in_map, range_In, Hi.
  - intros G x Hx. apply in_map_iff in Hx. destruct Hx as (i & <- & Hi). apply range_In in Hi.
    apply H; [exact Hi|apply G, Hi].
Qed.

Lemma feas_nonneg asg n k :
  forallb (satisfies asg) (nonneg_constrs n k) = true <->
  (forall i j, (i < n)%nat -> (j < k)%nat -> 0 <= cnt asg k i j).
Proof.
  rewrite forallb_forall. unfold nonneg_constrs. split.
  - intros H i j Hi Hj. apply (sat_nonneg asg (var i j k)). apply H.
    apply in_flat_map. exists j. split; [apply range_In; exact Hj|].
    apply in_map_iff. exists i. split; [reflexivity|apply range_In; exact Hi].
  - intros H c Hc. apply in_flat_map in Hc. destruct Hc as (j & Hj & Hc).
    apply in_map_iff in Hc. destruct Hc as (i & E & Hi). subst c.
    apply sat_nonneg. apply H; apply range_In; assumption.
Qed.

Lemma feas_copies asg n k copies :
  forallb (satisfies asg) (copies_constrs n k copies) = true <->
  (forall i, (i < n)%nat -> zsum (map (cnt asg k i) (range k)) = nth i copies 0).
Proof. apply forallb_map_range. intros i _. apply sat_copies. Qed.

Lemma feas_asc vs ws asg k : wpos ws k ->
  (forallb (satisfies asg) (asc_constrs (sum_exprs vs ws k) k) = true <->
   (forall j, (S j < k)%nat -> bsum vs asg k j * wt ws (S j) <= bsum vs asg k (S j) * wt ws j)).
Proof.
  intros W. unfold asc_constrs.
  rewrite forallb_map_range by (intros j Hj; apply (sat_asc vs ws asg k j W); lia).
  split; intros H j Hj; apply H; lia.
Qed.

Lemma feas_extras vs ws asg k ex : (1 <= k)%nat -> wpos ws k ->
  (forallb (satisfies asg) (map (extra_constr (sum_exprs vs ws k)) ex) = true <-> Forall (extra_sem vs ws asg k) ex).
Proof.
  intros Hk W. rewrite forallb_forall, Forall_forall. split.
  - intros H x Hx. apply (sat_extra vs ws asg k x Hk W), H, in_map, Hx.
  - intros H c Hc. apply in_map_iff in Hc. destruct Hc as (x & <- & Hx). apply (sat_extra vs ws asg k x Hk W), H, Hx.
Qed.

(** MAIN CHARACTERISATION: the boolean feasibility test of the formulation says exactly that
    counts are >= 0, each item is placed copies[i] times, weighted sums are ascending
    (cross-multiplied) and the additional constraints hold *)
Theorem feasible_iff vs k copies ws ex asg : (1 <= k)%nat -> wpos ws k ->
  (feasible_b vs k copies ws ex asg = true <-> sem_feasible vs k copies ws ex asg).
Proof.
  intros Hk W. unfold feasible_b, constraints, sem_feasible.
  rewrite andb_true_iff, !forallb_app, !andb_true_iff, Nat.eqb_eq.
  rewrite feas_nonneg, feas_copies, (feas_asc vs ws asg k W), (feas_extras vs ws asg k ex Hk W).
  reflexivity.
Qed.

(** ================= 5. the decoding loops in closed form ================= *)

Section DecodeProofs.
  Context {A : Type} (valueof : A -> Z).

  (** adding the list [its] to a bin *)
  Definition addl (keep : bool) (its : list A) (bn : bin A) : bin A :=
    (fst bn + zsum (map valueof its), if keep then snd bn ++ its else snd bn).

  Lemma addl_nil keep bn : addl keep [] bn = bn.
  Proof. destruct bn as [s l]. unfold addl. cbn [fst snd map]. destruct keep; rewrite ?app_nil_r; f_equal; cbn; lia. Qed.

  Lemma addl_app keep l1 l2 bn : addl keep (l1 ++ l2) bn = addl keep l2 (addl keep l1 bn).
  Proof.
    unfold addl. cbn [fst snd]. rewrite map_app, zsum_app. destruct keep; rewrite ?app_assoc; f_equal; lia.
  Qed.

  Lemma addl_single keep x bn : addl keep [x] bn = add_to_bin valueof keep x bn.
  Proof. unfold addl, add_to_bin. cbn [map]. rewrite zsum_cons. f_equal. cbn. lia. Qed.

  Lemma add_copies_eq keep c : forall b x j,
    add_copies valueof keep c b x j = update j (addl keep (repeat x c)) b.
  Proof.
    induction c as [|c IH]; intros b x j; cbn [add_copies repeat].
    - symmetry. apply ilp_update_id. intros bn. apply addl_nil.
    - rewrite IH. unfold add_item. rewrite ilp_update_update. apply ilp_update_ext. intros bn.
      change (x :: repeat x c) with ([x] ++ repeat x c). rewrite addl_app, addl_single. reflexivity.
  Qed.

  (** the items put into bin j, in order: each item repeated count(i, j) times *)
  Definition bin_items (k : nat) (asg : list Z) (j : nat) (ps : list (nat * A)) : list A :=
    concat (map (fun p => repeat (snd p) (Z.to_nat (cnt asg k (fst p) j))) ps).

  Lemma inner_loop keep k asg j : forall ps b,
    fold_left (fun b' p => add_copies valueof keep (Z.to_nat (nth (var (fst p) j k) asg 0)) b' (snd p) j) ps b
    = update j (addl keep (bin_items k asg j ps)) b.
  Proof.
    induction ps as [|p ps IH]; intros b; cbn [fold_left].
    - symmetry. apply ilp_update_id. intros bn. apply addl_nil.
    - rewrite IH, add_copies_eq, ilp_update_update. apply ilp_update_ext. intros bn.
      unfold bin_items. cbn [map concat]. rewrite addl_app. reflexivity.
  Qed.

  Definition dbin (keep : bool) (k : nat) (items : list A) (asg : list Z) (j : nat) : bin A :=
    addl keep (bin_items k asg j (enumerate items)) empty_bin.

  (** the raw decoding (before the optional sort): bin j holds exactly the items with their counts *)
  Lemma decode_raw_eq keep k items asg :
    decode_raw valueof keep k items asg = map (dbin keep k items asg) (range k).
  Proof.
    unfold decode_raw.
    rewrite (ilp_fold_left_ext _ (fun b j => update j (addl keep (bin_items k asg j (enumerate items))) b))
      by (intros b j; apply inner_loop).
    pose proof (ilp_fold_update_range (fun j => addl keep (bin_items k asg j (enumerate items)))
                  (repeat (@empty_bin A) k) []) as E.
    rewrite repeat_length in E. cbn [length app] in E. unfold range, new_bins. rewrite E.
    rewrite ilp_enumerate_from_repeat, map_map. reflexivity.
  Qed.

  Lemma decode_raw_length keep k items asg : length (decode_raw valueof keep k items asg) = k.
  Proof. rewrite decode_raw_eq, map_length. apply range_length. Qed.

  Lemma decode_raw_wf k items asg : wf valueof (decode_raw valueof true k items asg).
  Proof.
    rewrite decode_raw_eq. unfold wf. rewrite Forall_map. apply Forall_forall. intros j _.
    unfold wf_bin, dbin, addl, empty_bin. cbn [fst snd app]. lia.
  Qed.

  Lemma decode_raw_contents k items asg :
    contents (decode_raw valueof true k items asg)
    = concat (map (fun j => bin_items k asg j (enumerate items)) (range k)).
  Proof.
    rewrite decode_raw_eq. unfold contents, lists. rewrite map_map. f_equal.
  Qed.

  Lemma bin_items_sum k asg j : forall ps : list (nat * A),
    (forall p, In p ps -> 0 <= cnt asg k (fst p) j) ->
    zsum (map valueof (bin_items k asg j ps))
    = zsum (map (bterm asg k j) (map (fun p => (fst p, valueof (snd p))) ps)).
  Proof.
    induction ps as [|p ps IH]; intros H; [reflexivity|].
    unfold bin_items in *. cbn [map concat]. rewrite map_app, zsum_app, zsum_cons.
    rewrite IH by (intros q Hq; apply H; right; exact Hq).
    rewrite ilp_zsum_map_repeat. unfold bterm at 2. cbn [fst snd].
    rewrite Z2Nat.id by (apply H; left; reflexivity). lia.
  Qed.

  Definition counts_nonneg (n k : nat) (asg : list Z) : Prop :=
    forall i j, (i < n)%nat -> (j < k)%nat -> 0 <= cnt asg k i j.

  (** with non-negative counts the recorded sum of bin j is the bin sum of the formulation *)
  Lemma decode_raw_sums keep k items asg : counts_nonneg (length items) k asg ->
    sums (decode_raw valueof keep k items asg) = map (bsum (map valueof items) asg k) (range k).
  Proof.
    intros H. rewrite decode_raw_eq. unfold sums. rewrite map_map. apply map_ext_in. intros j Hj.
    apply range_In in Hj. unfold dbin, addl, empty_bin. cbn [fst]. rewrite bin_items_sum.
    - unfold bsum, enumerate. rewrite ilp_enumerate_from_map_fun. lia.
    - intros p Hp. apply ilp_enumerate_from_fst in Hp. apply H; lia.
  Qed.

  Lemma decode_raw_sums_nth keep k items asg j : counts_nonneg (length items) k asg -> (j < k)%nat ->
    nth j (sums (decode_raw valueof keep k items asg)) 0 = bsum (map valueof items) asg k j.
  Proof. intros H Hj. rewrite decode_raw_sums by exact H. apply ilp_nth_map_range. exact Hj. Qed.

  (** the multiset of decoded items: item i repeated (sum over bins of its counts) times *)
  Lemma decode_raw_contents_perm k items asg copies :
    counts_nonneg (length items) k asg ->
    (forall i, (i < length items)%nat -> zsum (map (cnt asg k i) (range k)) = nth i copies 0) ->
    Permutation (contents (decode_raw valueof true k items asg))
                (concat (map (fun p => repeat (snd p) (Z.to_nat (nth (fst p) copies 0))) (enumerate items))).
  Proof.
    intros Hn Hc. rewrite decode_raw_contents. unfold bin_items.
    rewrite (ilp_concat_swap (fun (p : nat * A) j => repeat (snd p) (Z.to_nat (cnt asg k (fst p) j)))
               (enumerate items) (range k)).
    apply Permutation_refl'. f_equal. apply map_ext_in. intros p Hp.
    apply ilp_enumerate_from_fst in Hp. cbn [length] in Hp.
    destruct (ilp_concat_repeat (snd p) (cnt asg k (fst p)) (range k)) as [E _].
    - intros j Hj. apply range_In in Hj. apply Hn; lia.
    - rewrite E. rewrite Hc by lia. reflexivity.
  Qed.
End DecodeProofs.

(** ================= 6. properties of the decoded bins (C17 a-d) ================= *)

Lemma ilp_sorted_map_range (f : nat -> Z) k :
  (forall i j, (i <= j)%nat -> (j < k)%nat -> f i <= f j) -> StronglySorted Z.le (map f (range k)).
Proof.
  intros M. rewrite range_seq.
  assert (G : forall n a, (a + n <= k)%nat -> StronglySorted Z.le (map f (seq a n))).
  { induction n as [|n IH]; intros a Ha; cbn [seq map]; constructor.
    - apply IH. lia.
    - rewrite Forall_map. apply Forall_forall. intros j Hj. apply in_seq in Hj. apply M; lia. }
  apply G. lia.
Qed.

Lemma ilp_key_sorted_of_sums {A} (b : bins A) : StronglySorted Z.le (sums b) -> key_sorted fst b.
Proof.
  unfold key_sorted, sums. induction b as [|bn b IH]; intros H; [constructor|].
  cbn [map] in H. inversion H as [|x l Hs Hf]; subst. constructor; [apply IH; exact Hs|].
  rewrite Forall_map in Hf. exact Hf.
Qed.

Lemma all_equal_wt ws j : all_equal ws = true -> (j < length ws)%nat -> wt ws j = wt ws 0.
Proof.
  destruct ws as [|w ws]; cbn [all_equal length]; intros H Hj; [lia|].
  unfold wt. destruct j as [|j]; [reflexivity|]. cbn [nth]. rewrite forallb_forall in H.
  assert (In (nth j ws 1) ws) as Hin by (apply nth_In; lia). apply H in Hin. lia.
Qed.

Lemma frac_chain (F W : nat -> Z) k : (forall j, (j < k)%nat -> 0 < W j) ->
  (forall j, (S j < k)%nat -> F j * W (S j) <= F (S j) * W j) ->
  forall i j, (i <= j)%nat -> (j < k)%nat -> F i * W j <= F j * W i.
Proof.
  intros HW H i j. induction j as [|j IH]; intros Hij Hj.
  - assert (i = O) by lia. subst i. lia.
  - destruct (Nat.eq_dec i (S j)) as [E|E]; [subst i; lia|].
    assert (A1 : F i * W j <= F j * W i) by (apply IH; lia).
    assert (A2 : F j * W (S j) <= F (S j) * W j) by (apply H; lia).
    assert (P0 : 0 < W i) by (apply HW; lia). assert (P1 : 0 < W j) by (apply HW; lia).
    assert (P2 : 0 < W (S j)) by (apply HW; lia).
    apply (frac_le_trans (F i) (W i) (F j) (W j) (F (S j)) (W (S j))); lia.
Qed.

(** on k >= 1 ascending sums the fast path of the objective is the objective *)
Lemma value_fast_sorted o s k : length s = k -> (1 <= k)%nat -> StronglySorted Z.le s ->
  value o s true = value o s false.
Proof. intros L Hk S. apply value_sorted_flag; [intros ->; cbn [length] in L; lia|exact S]. Qed.

(** a rational with a fixed denominator *)
Definition mkq (c s : Z) : Q := toQ (s, c).

Lemma mkq_add c a b : (mkq c a + mkq c b == mkq c (a + b))%Q.
Proof. apply toQ_same_den_add. Qed.
Lemma mkq_opp c a : (- mkq c a == mkq c (- a))%Q.
Proof. symmetry. apply (toQ_rneg (a, c)). Qed.
Lemma mkq_0 c : (mkq c 0 == 0)%Q.
Proof. apply toQ_zero. Qed.
Lemma mkq_le c a b : 0 < c -> ((mkq c a <= mkq c b)%Q <-> a <= b).
Proof. intros Hc. unfold mkq. rewrite toQ_le by exact Hc. symmetry. apply Z.mul_le_mono_pos_r, Hc. Qed.
Lemma mkq_hd c l : (hd 0 (map (mkq c) l) == mkq c (hd 0%Z l))%Q.
Proof. destruct l; cbn [map hd]; [symmetry; apply mkq_0|reflexivity]. Qed.
Lemma mkq_last c l : (last (map (mkq c) l) 0 == mkq c (last l 0%Z))%Q.
Proof.
  induction l as [|x l IH]; [symmetry; apply mkq_0|]. destruct l as [|y l']; [reflexivity|].
  change (last (x :: y :: l') 0%Z) with (last (y :: l') 0%Z).
  change (last (map (mkq c) (x :: y :: l')) 0%Q) with (last (map (mkq c) (y :: l')) 0%Q). exact IH.
Qed.
Lemma mkq_sum c l : (qsum (map (mkq c) l) == mkq c (zsum l))%Q.
Proof.
  induction l as [|x l IH]; cbn [map]; [rewrite qsum_nil; symmetry; apply mkq_0|].
  rewrite qsum_cons, zsum_cons, IH. apply mkq_add.
Qed.

(** with a common denominator the rational fast path is the integer fast path *)
Lemma qvalue_mkq c o l : (qvalue o (map (mkq c) l) == mkq c (value o l true))%Q.
Proof.
  destruct o as [| | |j|j]; cbn [qvalue value]; unfold head0, last0.
  - rewrite mkq_hd. apply mkq_opp.
  - apply mkq_last.
  - rewrite mkq_hd, mkq_last. unfold Qminus. rewrite mkq_opp, mkq_add. reflexivity.
  - rewrite firstn_map, mkq_sum. apply mkq_opp.
  - rewrite py_suffix_gen_map, mkq_sum. destruct j; reflexivity.
Qed.

Lemma wqs_repeat vs c asg k : wqs vs (repeat c k) asg k = map (mkq c) (map (bsum vs asg k) (range k)).
Proof.
  unfold wqs. rewrite map_map. apply map_ext_in. intros j Hj. apply range_In in Hj.
  unfold wq, wt, mkq. rewrite ilp_nth_repeat by exact Hj. reflexivity.
Qed.

Lemma wqs_combine vs ws asg k : length ws = k ->
  map toQ (combine (map (bsum vs asg k) (range k)) ws) = wqs vs ws asg k.
Proof.
  intros Hl. rewrite (ilp_map_nth_range ws 1) at 1. rewrite Hl, ilp_combine_map, map_map. reflexivity.
Qed.

(** the additional constraints read on a list of bin sums s whose positions match the weights *)
Definition extra_ok (ws s : list Z) (x : extra) : Prop :=
  match x with
  | SmallestEq c => hd 0 s = c * hd 1 ws
  | LargestLe c => last s 0 <= c * last ws 1
  | SmallestGe c => c * hd 1 ws <= hd 0 s
  end.

Lemma extra_ok_sem vs ws asg k x : (1 <= k)%nat -> length ws = k ->
  (extra_ok ws (map (bsum vs asg k) (range k)) x <-> extra_sem vs ws asg k x).
Proof.
  intros Hk Hl. destruct x as [c|c|c]; cbn [extra_sem extra_ok];
    rewrite ?(ilp_hd_map_range _ k 0 Hk), ?(ilp_last_map_range _ k 0 Hk), ?ilp_hd_nth, ?ilp_last_nth, ?Hl;
    reflexivity.
Qed.

(** standing assumptions on the instance: at least one bin, one positive weight per bin *)
Definition ilp_pre (k : nat) (ws : list Z) : Prop :=
  (1 <= k)%nat /\ length ws = k /\ Forall (fun w => 0 < w) ws.

Lemma pre_wpos k ws : ilp_pre k ws -> wpos ws k.
Proof. intros (_ & _ & H). apply wpos_of_Forall. exact H. Qed.

Lemma pre_repeat c k : 0 < c -> (1 <= k)%nat -> ilp_pre k (repeat c k).
Proof.
  intros Hc Hk. split; [exact Hk|]. split; [apply repeat_length|].
  apply Forall_forall. intros w Hw. apply repeat_spec in Hw. lia.
Qed.

Lemma all_equal_repeat c k : all_equal (repeat c k) = true.
Proof.
  destruct k as [|k]; [reflexivity|]. cbn [repeat all_equal]. apply forallb_forall. intros w Hw.
  apply repeat_spec in Hw. lia.
Qed.

Lemma feasible_pre_iff vs k copies ws ex asg : ilp_pre k ws ->
  (feasible_b vs k copies ws ex asg = true <-> sem_feasible vs k copies ws ex asg).
Proof. intros P. apply feasible_iff; [apply P|apply pre_wpos; exact P]. Qed.

Section C17.
  Context {A : Type} (valueof : A -> Z).

  Lemma sem_counts_nonneg items k copies ws ex asg :
    sem_feasible (map valueof items) k copies ws ex asg -> counts_nonneg (length items) k asg.
  Proof. intros (_ & H & _). rewrite map_length in H. exact H. Qed.

  (** for a feasible assignment the final sort (equal weights) is the identity: the solver's
      symmetry-breaking constraint already put the bins in ascending order *)
  Lemma decode_feasible_raw keep items k copies ws ex asg : ilp_pre k ws ->
    feasible_b (map valueof items) k copies ws ex asg = true ->
    decode valueof keep k items ws asg = decode_raw valueof keep k items asg.
  Proof.
    intros P F. apply (feasible_pre_iff _ _ _ _ _ _ P) in F.
    pose proof (sem_counts_nonneg _ _ _ _ _ _ F) as N. destruct F as (_ & _ & _ & Hasc & _).
    unfold decode. destruct (all_equal ws) eqn:E; [|reflexivity].
    unfold sort_bins. apply sort_asc_id. apply ilp_key_sorted_of_sums.
    rewrite (decode_raw_sums valueof keep k items asg N). apply ilp_sorted_map_range.
    intros i j Hij Hj. pose proof (frac_chain _ (wt ws) k (pre_wpos k ws P) Hasc i j Hij Hj) as H.
    destruct P as (Hk & Hl & Hw).
    rewrite (all_equal_wt ws i E), (all_equal_wt ws j E) in H by lia.
    apply Z.mul_le_mono_pos_r in H; [exact H|]. apply (wpos_of_Forall ws k Hw). lia.
  Qed.

  Lemma decode_sums keep items k copies ws ex asg : ilp_pre k ws ->
    feasible_b (map valueof items) k copies ws ex asg = true ->
    sums (decode valueof keep k items ws asg) = map (bsum (map valueof items) asg k) (range k).
  Proof.
    intros P F. rewrite (decode_feasible_raw keep items k copies ws ex asg P F).
    apply decode_raw_sums. eapply sem_counts_nonneg. apply (feasible_pre_iff _ _ _ _ _ _ P), F.
  Qed.

  Lemma decode_sums_length keep k items ws asg : length (sums (decode valueof keep k items ws asg)) = k.
  Proof.
    unfold sums. rewrite map_length. unfold decode.
    destruct (all_equal ws); [etransitivity; [apply sort_bins_length|]|]; apply decode_raw_length.
  Qed.

  (** (a) every item is placed exactly copies[i] times; the result is a well-formed array of k bins *)
  Theorem decode_copies : forall items k copies ws ex asg, ilp_pre k ws ->
    feasible_b (map valueof items) k copies ws ex asg = true ->
    Permutation (contents (decode valueof true k items ws asg))
                (concat (map (fun p => repeat (snd p) (Z.to_nat (nth (fst p) copies 0))) (enumerate items)))
    /\ wf valueof (decode valueof true k items ws asg)
    /\ length (decode valueof true k items ws asg) = k.
  Proof.
    intros items k copies ws ex asg P F. rewrite (decode_feasible_raw true items k copies ws ex asg P F).
    apply (feasible_pre_iff _ _ _ _ _ _ P) in F. pose proof (sem_counts_nonneg _ _ _ _ _ _ F) as N.
    destruct F as (_ & _ & Hc & _). rewrite map_length in Hc.
    split; [apply decode_raw_contents_perm; assumption|]. split; [apply decode_raw_wf|apply decode_raw_length].
  Qed.

  (** with one copy of each item the result is a partition of the items *)
  Theorem decode_is_partition : forall items k ws ex asg, ilp_pre k ws ->
    feasible_b (map valueof items) k (repeat 1 (length items)) ws ex asg = true ->
    is_partition valueof k items (decode valueof true k items ws asg).
  Proof.
    intros items k ws ex asg P F. destruct (decode_copies items k _ ws ex asg P F) as (HP & HW & HL).
    split; [|split; assumption].
    assert (E : concat (map (fun p : nat * A => repeat (snd p) (Z.to_nat (nth (fst p) (repeat 1 (length items)) 0)))
                            (enumerate items)) = items).
    { rewrite (map_ext_in _ (fun p => [snd p])).
      - rewrite ilp_concat_singletons. apply ilp_enumerate_from_snd.
      - intros p Hp. apply ilp_enumerate_from_fst in Hp. rewrite ilp_nth_repeat by lia. reflexivity. }
    rewrite E in HP. exact HP.
  Qed.

  (** (b) weighted sums are ascending (cross-multiplied), between neighbours and globally;
      position j of the result is the bin whose sum is divided by weight j *)
  Theorem decode_weighted_ascending : forall keep items k copies ws ex asg, ilp_pre k ws ->
    feasible_b (map valueof items) k copies ws ex asg = true ->
    let s := sums (decode valueof keep k items ws asg) in
    (forall j, (S j < k)%nat -> nth j s 0 * nth (S j) ws 1 <= nth (S j) s 0 * nth j ws 1) /\
    (forall i j, (i <= j)%nat -> (j < k)%nat -> nth i s 0 * nth j ws 1 <= nth j s 0 * nth i ws 1).
  Proof.
    intros keep items k copies ws ex asg P F s. unfold s. rewrite (decode_sums keep items k copies ws ex asg P F).
    apply (feasible_pre_iff _ _ _ _ _ _ P) in F. destruct F as (_ & _ & _ & Hasc & _).
    split.
    - intros j Hj. rewrite !ilp_nth_map_range by lia. apply Hasc. exact Hj.
    - intros i j Hij Hj. rewrite !ilp_nth_map_range by lia.
      apply (frac_chain _ (wt ws) k (pre_wpos k ws P) Hasc); assumption.
  Qed.

  (** with equal weights the returned sums are ascending (whatever the assignment) *)
  Theorem decode_equal_weights_sorted : forall keep items k ws asg, all_equal ws = true ->
    StronglySorted Z.le (sums (decode valueof keep k items ws asg)).
  Proof. intros keep items k ws asg E. unfold decode. rewrite E. apply sort_bins_sorted. Qed.

  (** with unequal weights there is no sort at all; and in every case the value of the j-th
      weighted-sum expression under the assignment is (sum of returned bin j) / (weight j) *)
  Theorem decode_keeps_weight_positions : forall keep items k copies ws ex asg, ilp_pre k ws ->
    (all_equal ws = false -> decode valueof keep k items ws asg = decode_raw valueof keep k items asg) /\
    (feasible_b (map valueof items) k copies ws ex asg = true ->
     forall j, (j < k)%nat ->
       (Qv asg (bin_sum_expr (map valueof items) ws k j)
        == toQ (nth j (sums (decode valueof keep k items ws asg)) 0%Z, nth j ws 1%Z))%Q).
  Proof.
    intros keep items k copies ws ex asg P. split.
    - intros E. unfold decode. rewrite E. reflexivity.
    - intros F j Hj. rewrite (decode_sums keep items k copies ws ex asg P F).
      rewrite ilp_nth_map_range by exact Hj. apply ev_bin_sum_expr. apply (pre_wpos k ws P). exact Hj.
  Qed.

  (** (c, weighted) the value of the objective expression is the sorted-fast-path objective of the
      weighted sums (returned sum / weight, position by position), which are ascending by (b) *)
  Theorem objective_agrees_weighted : forall keep items k copies ws ex o asg, ilp_pre k ws ->
    feasible_b (map valueof items) k copies ws ex asg = true ->
    (toQ (objective_value (map valueof items) k ws o asg)
     == qvalue o (map toQ (combine (sums (decode valueof keep k items ws asg)) ws)))%Q.
  Proof.
    intros keep items k copies ws ex o asg P F.
    rewrite (decode_sums keep items k copies ws ex asg P F), wqs_combine by apply P.
    apply objective_value_wqs. apply pre_wpos. exact P.
  Qed.

  (** (c, equal weights c > 0) the value of the objective expression is value o (returned sums) / c,
      for the GENERAL (unsorted) definition of the objective *)
  Theorem objective_agrees : forall keep items k copies c ex o asg, 0 < c -> (1 <= k)%nat ->
    feasible_b (map valueof items) k copies (repeat c k) ex asg = true ->
    let ov := objective_value (map valueof items) k (repeat c k) o asg in
    0 < snd ov /\
    fst ov * c = value o (sums (decode valueof keep k items (repeat c k) asg)) false * snd ov.
  Proof.
    intros keep items k copies c ex o asg Hc Hk F ov. pose proof (pre_repeat c k Hc Hk) as P.
    assert (Pov : rpos ov) by (apply objective_value_pos, pre_wpos; exact P). split; [exact Pov|].
    assert (E : (toQ ov == toQ (value o (sums (decode valueof keep k items (repeat c k) asg)) false, c))%Q).
    { unfold ov. rewrite (objective_value_wqs _ _ _ _ _ (pre_wpos _ _ P)). rewrite wqs_repeat, qvalue_mkq.
      rewrite <- (decode_sums keep items k copies (repeat c k) ex asg P F).
      rewrite (value_fast_sorted o _ k); [reflexivity|apply decode_sums_length|exact Hk|].
      apply decode_equal_weights_sorted, all_equal_repeat. }
    apply toQ_eq in E; [exact E|exact Pov|exact Hc].
  Qed.

  (** (d) the decoded bins satisfy every additional constraint: on sum[0] / weight[0], the smallest
      weighted sum, and sum[k-1] / weight[k-1], the largest one (by (b)) *)
  Theorem extras_hold : forall keep items k copies ws ex asg, ilp_pre k ws ->
    feasible_b (map valueof items) k copies ws ex asg = true ->
    Forall (extra_ok ws (sums (decode valueof keep k items ws asg))) ex.
  Proof.
    intros keep items k copies ws ex asg P F. rewrite (decode_sums keep items k copies ws ex asg P F).
    apply (feasible_pre_iff _ _ _ _ _ _ P) in F. destruct F as (_ & _ & _ & _ & Hex). destruct P as (Hk & Hl & _).
    eapply Forall_impl; [|exact Hex]. intros x Hx. apply extra_ok_sem; assumption.
  Qed.
End C17.

(** ================= 7. completeness of the formulation (C17 e) ================= *)

(** arrangements are described with item INDICES as contents, so that equal items stay apart *)
Definition idxval (vs : list Z) (i : nat) : Z := nth i vs 0.

Definition arrangement (vs : list Z) (k : nat) (copies ws : list Z) (ex : list extra) (b : bins nat) : Prop :=
  length b = k /\ wf (idxval vs) b /\
  Forall (fun i => (i < length vs)%nat) (contents b) /\
  (forall i, (i < length vs)%nat -> Z.of_nat (count_occ Nat.eq_dec (contents b) i) = nth i copies 0) /\
  (forall j, (S j < k)%nat -> nth j (sums b) 0 * wt ws (S j) <= nth (S j) (sums b) 0 * wt ws j) /\
  Forall (extra_ok ws (sums b)) ex.

(** the assignment that describes an arrangement *)
Definition occ (i : nat) (bn : bin nat) : Z := Z.of_nat (count_occ Nat.eq_dec (snd bn) i).
Definition encode (n : nat) (b : bins nat) : list Z := flat_map (fun i => map (occ i) b) (range n).

Lemma ilp_nth_flat_map {I T} (f : I -> list T) k d x0 : (forall x, length (f x) = k) ->
  forall (l : list I) i j, (i < length l)%nat -> (j < k)%nat ->
  nth (i * k + j) (flat_map f l) d = nth j (f (nth i l x0)) d.
Proof.
  intros H. induction l as [|x l IH]; intros i j Hi Hj; cbn [length] in Hi; [lia|]. cbn [flat_map].
  destruct i as [|i].
  - cbn [Nat.mul Nat.add nth]. apply app_nth1. rewrite H. exact Hj.
  - rewrite app_nth2 by (rewrite H; lia). rewrite H. cbn [nth].
    replace (S i * k + j - k)%nat with (i * k + j)%nat by lia. apply IH; lia.
Qed.

Lemma encode_length n b : length (encode n b) = (n * length b)%nat.
Proof.
  unfold encode. rewrite (flat_map_length_const _ (length b)) by (intros i _; apply map_length).
  rewrite range_length. reflexivity.
Qed.

Lemma encode_cnt n b i j : (i < n)%nat -> (j < length b)%nat ->
  cnt (encode n b) (length b) i j = occ i (nth j b empty_bin).
Proof.
  intros Hi Hj. unfold cnt, var, encode.
  rewrite (ilp_nth_flat_map _ (length b) 0 O) by (try (intros x; apply map_length); try rewrite range_length; assumption).
  rewrite range_nth by exact Hi.
  rewrite (nth_indep _ 0 (occ i empty_bin)) by (rewrite map_length; exact Hj). apply map_nth.
Qed.

Lemma indicator_sum (f : nat -> Z) x (u : list nat) :
  zsum (map (fun i => if Nat.eq_dec x i then f i else 0) u) = Z.of_nat (count_occ Nat.eq_dec u x) * f x.
Proof.
  induction u as [|a u IH]; cbn [map count_occ]; [reflexivity|]. rewrite zsum_cons, IH.
  destruct (Nat.eq_dec x a) as [E|N], (Nat.eq_dec a x) as [E'|N']; try congruence; [subst a|]; lia.
Qed.

(** a sum over a list of indices, regrouped by index *)
Lemma count_sum (f : nat -> Z) n (l : list nat) : Forall (fun i => (i < n)%nat) l ->
  zsum (map (fun i => f i * Z.of_nat (count_occ Nat.eq_dec l i)) (range n)) = zsum (map f l).
Proof.
  induction 1 as [|x l Hx Hl IH]; cbn [map].
  - cbn [count_occ]. rewrite ilp_zsum_map_mul. apply Z.mul_0_r.
  - rewrite zsum_cons, <- IH.
    rewrite (map_ext_in _ (fun i => (if Nat.eq_dec x i then f i else 0) + f i * Z.of_nat (count_occ Nat.eq_dec l i)))
      by (intros i _; cbn [count_occ]; destruct (Nat.eq_dec x i); lia).
    rewrite ilp_zsum_map_add, indicator_sum.
    rewrite (proj1 (NoDup_count_occ' Nat.eq_dec _) (range_nodup n)) by (apply range_In, Hx). lia.
Qed.

Lemma occ_concat i (b : bins nat) :
  zsum (map (occ i) b) = Z.of_nat (count_occ Nat.eq_dec (contents b) i).
Proof.
  induction b as [|bn b IH]; [reflexivity|]. cbn [map]. rewrite zsum_cons, contents_cons, count_occ_app, IH.
  unfold occ. lia.
Qed.

Lemma Forall_contents_nth (P : nat -> Prop) (b : bins nat) j :
  Forall P (contents b) -> Forall P (snd (nth j b empty_bin)).
Proof.
  revert j. induction b as [|bn b IH]; intros j H.
  - destruct j; cbn [nth empty_bin snd]; constructor.
  - rewrite contents_cons in H. apply Forall_app in H. destruct H as [H1 H2].
    destruct j as [|j]; cbn [nth]; [exact H1|apply IH; exact H2].
Qed.

Lemma wf_nth (vs : list Z) (b : bins nat) j : wf (idxval vs) b ->
  nth j (sums b) 0 = zsum (map (idxval vs) (snd (nth j b empty_bin))).
Proof.
  intros H. revert j. induction H as [|bn b Hb Hw IH]; intros j.
  - destruct j; reflexivity.
  - destruct j as [|j]; cbn [sums map nth]; [exact Hb|apply IH].
Qed.

(** the bin sums of the encoded assignment are the recorded sums of the arrangement *)
Lemma encode_bsum vs (b : bins nat) j : wf (idxval vs) b ->
  Forall (fun i => (i < length vs)%nat) (contents b) -> (j < length b)%nat ->
  bsum vs (encode (length vs) b) (length b) j = nth j (sums b) 0.
Proof.
  intros Hw Hc Hj. rewrite (wf_nth vs b j Hw). unfold bsum. rewrite (ilp_enumerate_map vs 0), map_map.
  rewrite <- (count_sum (idxval vs) (length vs)) by (apply Forall_contents_nth; exact Hc).
  f_equal. apply map_ext_in. intros i Hi. apply range_In in Hi.
  unfold bterm. cbn [fst snd]. rewrite encode_cnt by assumption. reflexivity.
Qed.

Lemma encode_sums vs (b : bins nat) : wf (idxval vs) b ->
  Forall (fun i => (i < length vs)%nat) (contents b) ->
  map (bsum vs (encode (length vs) b) (length b)) (range (length b)) = sums b.
Proof.
  intros Hw Hc. rewrite (ilp_map_nth_range (sums b) 0). unfold sums at 2. rewrite map_length.
  apply map_ext_in. intros j Hj. apply range_In in Hj. apply encode_bsum; assumption.
Qed.

Lemma encode_row (vs : list Z) (b : bins nat) i : (i < length vs)%nat ->
  zsum (map (cnt (encode (length vs) b) (length b) i) (range (length b)))
  = Z.of_nat (count_occ Nat.eq_dec (contents b) i).
Proof.
  intros Hi. rewrite <- occ_concat.
  rewrite (map_ext_in _ (fun j => occ i (nth j b empty_bin)))
    by (intros j Hj; apply encode_cnt; [exact Hi|apply range_In, Hj]).
  rewrite <- (map_map (fun j => nth j b empty_bin) (occ i)), <- ilp_map_nth_range. reflexivity.
Qed.

Lemma encode_sem vs k copies ws ex b : ilp_pre k ws -> arrangement vs k copies ws ex b ->
  sem_feasible vs k copies ws ex (encode (length vs) b).
Proof.
  intros (Hk & Hl & Hw) (Lb & Wf & Hc & Hcp & Hasc & Hex). subst k. rewrite <- Lb in *.
  split; [apply encode_length|]. split; [|split; [|split]].
  - intros i j Hi Hj. rewrite encode_cnt by assumption. unfold occ. lia.
  - intros i Hi. rewrite encode_row by exact Hi. apply Hcp. exact Hi.
  - intros j Hj. rewrite !encode_bsum by (try assumption; lia). apply Hasc. exact Hj.
  - eapply Forall_impl; [|exact Hex]. intros x Hx. apply extra_ok_sem; [exact Hk|symmetry; exact Lb|].
    rewrite encode_sums by assumption. exact Hx.
Qed.

(** (e) every arrangement (k bins of item indices, item i placed copies[i] times, weighted sums
    ascending, additional constraints satisfied) is the decoding of a feasible assignment, with the
    same bin sums, hence the same objective value *)
Theorem feasible_complete : forall vs k copies ws ex (b : bins nat), ilp_pre k ws ->
  arrangement vs k copies ws ex b ->
  let asg := encode (length vs) b in
  feasible_b vs k copies ws ex asg = true /\
  (forall (A : Type) (valueof : A -> Z) keep (items : list A), map valueof items = vs ->
     sums (decode valueof keep k items ws asg) = sums b) /\
  (forall o, (toQ (objective_value vs k ws o asg) == qvalue o (map toQ (combine (sums b) ws)))%Q).
Proof.
  intros vs k copies ws ex b P Arr asg.
  assert (F : feasible_b vs k copies ws ex asg = true) by (apply feasible_pre_iff; [exact P|apply encode_sem; assumption]).
  destruct Arr as (Lb & Wf & Hc & _).
  assert (Es : map (bsum vs asg k) (range k) = sums b) by (subst k; apply encode_sums; assumption).
  split; [exact F|]. split.
  - intros A valueof keep items E. subst vs. rewrite (decode_sums valueof keep items k copies ws ex asg P F). exact Es.
  - intros o. rewrite <- Es, wqs_combine by apply P. apply objective_value_wqs, pre_wpos, P.
Qed.

(** ================= 8. optimality, given an optimal solver answer (C17 f) ================= *)

(** what the solver sees: only the formulation *)
Definition feasible_f (f : nat * linexpr * list constr) (asg : list Z) : bool :=
  Nat.eqb (length asg) (fst (fst f)) && forallb (satisfies asg) (snd f).
Definition objective_f (f : nat * linexpr * list constr) (asg : list Z) : rat := eval_expr asg (snd (fst f)).

Lemma feasible_f_formulate vs k copies ws o ex asg :
  feasible_f (formulate vs k copies ws o ex) asg = feasible_b vs k copies ws ex asg.
Proof. reflexivity. Qed.
Lemma objective_f_formulate vs k copies ws o ex asg :
  objective_f (formulate vs k copies ws o ex) asg = objective_value vs k ws o asg.
Proof. reflexivity. Qed.

(** status OPTIMAL means: the returned point is feasible and no feasible point has a smaller objective *)
Definition solver_spec (solve : nat * linexpr * list constr -> option (list Z)) : Prop :=
  forall f asg, solve f = Some asg ->
    feasible_f f asg = true /\
    forall asg', feasible_f f asg' = true -> rleb (objective_f f asg) (objective_f f asg') = true.

Lemma wt_repeat c k j : (j < k)%nat -> wt (repeat c k) j = c.
Proof. intros H. unfold wt. apply ilp_nth_repeat. exact H. Qed.

Lemma partition_arrangement vs k (b : bins nat) :
  is_partition (idxval vs) k (range (length vs)) b -> StronglySorted Z.le (sums b) ->
  arrangement vs k (repeat 1 (length vs)) (repeat 1 k) [] b.
Proof.
  intros (HP & HL & HW) HS. split; [exact HL|]. split; [exact HW|]. split; [|split; [|split]].
  - eapply Permutation_Forall; [symmetry; exact HP|]. apply Forall_forall. intros i. apply range_In.
  - intros i Hi. rewrite ilp_nth_repeat by exact Hi.
    assert (ND : NoDup (contents b)).
    { eapply Permutation_NoDup; [symmetry; exact HP|]. apply range_nodup. }
    rewrite (NoDup_count_occ' Nat.eq_dec) in ND. rewrite ND; [reflexivity|].
    eapply Permutation_in; [symmetry; exact HP|]. apply range_In. exact Hi.
  - intros j Hj. rewrite !wt_repeat, !Z.mul_1_r by lia. apply (proj1 (StronglySorted_nth _) HS).
    unfold sums. rewrite map_length. unfold bins, bin in HL. rewrite HL. lia.
  - constructor.
Qed.

Lemma attainable_arrangement k vs s : Attainable k vs s ->
  exists b' : bins nat, arrangement vs k (repeat 1 (length vs)) (repeat 1 k) [] b' /\
                        StronglySorted Z.le (sums b') /\ Permutation (sums b') s.
Proof.
  intros Hs. rewrite (ilp_map_nth_range vs 0) in Hs. fold (idxval vs) in Hs.
  destruct (attainable_lists (idxval vs) k (range (length vs)) s Hs) as (T & HL & HP & HS).
  set (b0 := map (fun l => (zsum (map (idxval vs) l), l)) T : bins nat).
  exists (sort_bins b0). split; [apply partition_arrangement; [split; [|split]|]|split]; try apply sort_bins_sorted.
  - rewrite sort_bins_contents. unfold contents, lists, b0. rewrite map_map, map_id. exact HP.
  - rewrite sort_bins_length. unfold b0. rewrite map_length. exact HL.
  - apply sort_bins_wf. unfold wf, b0. rewrite Forall_map. apply Forall_forall. intros l _. reflexivity.
  - rewrite sort_bins_sums_perm. unfold sums, b0. rewrite map_map. cbn [fst]. rewrite <- HS. apply Permutation_refl.
Qed.

Lemma qvalue_unit_weights o s k : length s = k ->
  (qvalue o (map toQ (combine s (repeat 1%Z k))) == inject_Z (value o s true))%Q.
Proof.
  intros <-. rewrite ilp_combine_repeat, map_map. apply (qvalue_mkq 1 o s).
Qed.

Section Solver.
  Variable solve : nat * linexpr * list constr -> option (list Z).
  Hypothesis solve_optimal : solver_spec solve.

  Context {A : Type} (valueof : A -> Z).

  (** (f, general) the decoded answer is optimal among all arrangements: its objective (fast path on
      the weighted sums, which is their true objective since they are ascending) is the least *)
  Theorem ilp_optimal_weighted : forall keep items k copies ws ex o asg, ilp_pre k ws ->
    solve (formulate (map valueof items) k copies ws o ex) = Some asg ->
    feasible_b (map valueof items) k copies ws ex asg = true /\
    forall b' : bins nat, arrangement (map valueof items) k copies ws ex b' ->
      (qvalue o (map toQ (combine (sums (decode valueof keep k items ws asg)) ws))
       <= qvalue o (map toQ (combine (sums b') ws)))%Q.
  Proof.
    intros keep items k copies ws ex o asg P E. destruct (solve_optimal _ _ E) as [F Hmin].
    rewrite feasible_f_formulate in F. split; [exact F|]. intros b' Arr.
    destruct (feasible_complete (map valueof items) k copies ws ex b' P Arr) as (F' & _ & Ho').
    specialize (Hmin _ F'). rewrite !objective_f_formulate in Hmin.
    apply rleb_Q in Hmin; try (apply objective_value_pos, pre_wpos; exact P).
    rewrite <- (objective_agrees_weighted valueof keep items k copies ws ex o asg P F).
    rewrite <- (Ho' o). exact Hmin.
  Qed.

  (** (f, unweighted) weights all 1, one copy of each item, no additional constraints:
      the decoded answer is a partition in ascending order whose value is THE optimum of the
      objective over all partitions of the values into k bins *)
  Theorem ilp_optimal : forall items k o asg, (1 <= k)%nat ->
    solve (formulate (map valueof items) k (repeat 1 (length items)) (repeat 1 k) o []) = Some asg ->
    let b := decode valueof true k items (repeat 1 k) asg in
    is_partition valueof k items b /\ StronglySorted Z.le (sums b) /\
    Opt o k (map valueof items) (value o (sums b) false).
  Proof.
    intros items k o asg Hk E b. pose proof (pre_repeat 1 k ltac:(lia) Hk) as P.
    destruct (ilp_optimal_weighted true items k _ _ [] o asg P E) as [F Hmin]. fold b in Hmin.
    assert (Part : is_partition valueof k items b) by (apply (decode_is_partition valueof items k _ [] asg P F)).
    assert (Sb : StronglySorted Z.le (sums b)) by apply decode_equal_weights_sorted, all_equal_repeat.
    assert (Lb : length (sums b) = k) by apply decode_sums_length.
    split; [exact Part|]. split; [exact Sb|]. split.
    - exists (sums b). split; [apply (partition_attainable valueof); exact Part|reflexivity].
    - intros s Hs. destruct (attainable_arrangement k (map valueof items) s Hs) as (b' & Arr & Sb' & Pb').
      rewrite map_length in Arr. specialize (Hmin b' Arr).
      assert (Lb' : length (sums b') = k) by (unfold sums; rewrite map_length; apply Arr).
      rewrite !qvalue_unit_weights, <- Zle_Qle, !(value_fast_sorted o _ k) in Hmin by assumption.
      rewrite <- (value_perm o _ _ Pb'). exact Hmin.
  Qed.

  (** the same, for the top-level function: if it returns bins, they are an optimal ascending partition *)
  Corollary ilp_returns_optimal : forall items k o b,
    ilp valueof true (solve (formulate (map valueof items) k (repeat 1 (length items)) (repeat 1 k) o []))
        o k items (repeat 1 (length items)) (repeat 1 k) = Ok b ->
    (1 <= k)%nat ->
    is_partition valueof k items b /\ StronglySorted Z.le (sums b) /\
    Opt o k (map valueof items) (value o (sums b) false).
  Proof.
    intros items k o b E Hk. unfold ilp in E.
    destruct (ilp_precheck k (length items) (repeat 1 (length items)) (repeat 1 k) o); [discriminate|].
    destruct (solve _) as [asg|] eqn:Es; [|discriminate]. inversion E; subst b.
    apply ilp_optimal; assumption.
  Qed.
End Solver.

(** ================= 9. error path and equal weights (C17 g) ================= *)

Theorem non_optimal_raises : forall (A : Type) (valueof : A -> Z) keep k items ws asg,
  ilp_result valueof keep false k items ws asg = Err ValueError.
Proof. reflexivity. Qed.

Theorem non_optimal_raises_ilp : forall (A : Type) (valueof : A -> Z) keep o k items copies ws,
  (exists e, ilp valueof keep None o k items copies ws = Err e) /\
  (ilp_precheck k (length items) copies ws o = None ->
   ilp valueof keep None o k items copies ws = Err ValueError).
Proof.
  intros A valueof keep o k items copies ws. unfold ilp.
  destruct (ilp_precheck k (length items) copies ws o) as [e|].
  - split; [exists e; reflexivity|discriminate].
  - split; [exists ValueError; reflexivity|reflexivity].
Qed.
(** equal weights c: the additional constraints talk about sum / c, so their constants are scaled *)
Definition scale_extra (c : Z) (x : extra) : extra :=
  match x with
  | SmallestEq z => SmallestEq (z * c)
  | LargestLe z => LargestLe (z * c)
  | SmallestGe z => SmallestGe (z * c)
  end.

Lemma cross_equal_weights c k a b j j' : 0 < c -> (j < k)%nat -> (j' < k)%nat ->
  (a * wt (repeat c k) j' <= b * wt (repeat c k) j <-> a <= b).
Proof. intros Hc Hj Hj'. rewrite !wt_repeat by assumption. symmetry. apply Z.mul_le_mono_pos_r, Hc. Qed.

Lemma sem_feasible_equal_weights vs k copies c ex asg : 0 < c -> (1 <= k)%nat ->
  (sem_feasible vs k copies (repeat c k) ex asg <->
   sem_feasible vs k copies (repeat 1 k) (map (scale_extra c) ex) asg).
Proof.
  intros Hc Hk. unfold sem_feasible.
  assert (E1 : (forall j, (S j < k)%nat ->
                  bsum vs asg k j * wt (repeat c k) (S j) <= bsum vs asg k (S j) * wt (repeat c k) j) <->
               (forall j, (S j < k)%nat ->
                  bsum vs asg k j * wt (repeat 1 k) (S j) <= bsum vs asg k (S j) * wt (repeat 1 k) j)).
  { split; intros H j Hj; specialize (H j Hj); rewrite cross_equal_weights in H |- * by lia; exact H. }
  assert (E2 : Forall (extra_sem vs (repeat c k) asg k) ex <->
               Forall (extra_sem vs (repeat 1 k) asg k) (map (scale_extra c) ex)).
  { rewrite Forall_map. split; intros H; (eapply Forall_impl; [|exact H]); intros x Hx;
      destruct x as [z|z|z]; cbn [scale_extra extra_sem] in *; rewrite !wt_repeat in * by lia; lia. }
  rewrite E1, E2. reflexivity.
Qed.

(** (g) equal weights never change the result: same feasible set (with the constants of the
    additional constraints scaled; identical when there are none), same comparison of objective
    values between any two assignments (hence the same minimisers), same decoding *)
Theorem equal_weights_noop : forall vs k copies c o ex, 0 < c -> (1 <= k)%nat ->
  (forall asg, feasible_b vs k copies (repeat c k) ex asg
               = feasible_b vs k copies (repeat 1 k) (map (scale_extra c) ex) asg) /\
  (forall a1 a2, rleb (objective_value vs k (repeat c k) o a1) (objective_value vs k (repeat c k) o a2)
                 = rleb (objective_value vs k (repeat 1 k) o a1) (objective_value vs k (repeat 1 k) o a2)) /\
  (forall (A : Type) (valueof : A -> Z) keep (items : list A) asg,
     decode valueof keep k items (repeat c k) asg = decode valueof keep k items (repeat 1 k) asg).
Proof.
  intros vs k copies c o ex Hc Hk.
  pose proof (pre_repeat c k Hc Hk) as Pc. pose proof (pre_repeat 1 k ltac:(lia) Hk) as P1.
  split; [|split].
  - intros asg. apply eq_true_iff_eq.
    rewrite (feasible_iff vs k copies (repeat c k) ex asg Hk (pre_wpos _ _ Pc)).
    rewrite (feasible_iff vs k copies (repeat 1 k) _ asg Hk (pre_wpos _ _ P1)).
    apply sem_feasible_equal_weights; assumption.
  - intros a1 a2. apply eq_true_iff_eq.
    rewrite !rleb_Q by (apply objective_value_pos, pre_wpos; assumption).
    rewrite !objective_value_wqs by (apply pre_wpos; assumption).
    rewrite !wqs_repeat, !qvalue_mkq, !mkq_le by lia. reflexivity.
  - intros A valueof keep items asg. unfold decode. rewrite !all_equal_repeat. reflexivity.
Qed.

Corollary equal_weights_noop_no_extras : forall vs k copies c asg, 0 < c -> (1 <= k)%nat ->
  feasible_b vs k copies (repeat c k) [] asg = feasible_b vs k copies (repeat 1 k) [] asg.
Proof. intros vs k copies c asg Hc Hk. apply (equal_weights_noop vs k copies c MinDiff [] Hc Hk). Qed.

(** ================= 10. examples ================= *)

Example ex_formulate :
  formulate [11; 11; 11; 11; 22] 2 [1; 1; 1; 1; 1] [1; 1] MaxSmallest []
  = (10%nat,
     ([(0%nat, (-11, 1)); (2%nat, (-11, 1)); (4%nat, (-11, 1)); (6%nat, (-11, 1)); (8%nat, (-22, 1))], (0, 1)),
     [([(0%nat, (1, 1))], (0, 1), SGe); ([(2%nat, (1, 1))], (0, 1), SGe); ([(4%nat, (1, 1))], (0, 1), SGe);
      ([(6%nat, (1, 1))], (0, 1), SGe); ([(8%nat, (1, 1))], (0, 1), SGe); ([(1%nat, (1, 1))], (0, 1), SGe);
      ([(3%nat, (1, 1))], (0, 1), SGe); ([(5%nat, (1, 1))], (0, 1), SGe); ([(7%nat, (1, 1))], (0, 1), SGe);
      ([(9%nat, (1, 1))], (0, 1), SGe);
      ([(0%nat, (1, 1)); (1%nat, (1, 1))], (-1, 1), SEq); ([(2%nat, (1, 1)); (3%nat, (1, 1))], (-1, 1), SEq);
      ([(4%nat, (1, 1)); (5%nat, (1, 1))], (-1, 1), SEq); ([(6%nat, (1, 1)); (7%nat, (1, 1))], (-1, 1), SEq);
      ([(8%nat, (1, 1)); (9%nat, (1, 1))], (-1, 1), SEq);
      ([(1%nat, (11, 1)); (3%nat, (11, 1)); (5%nat, (11, 1)); (7%nat, (11, 1)); (9%nat, (22, 1));
        (0%nat, (-11, 1)); (2%nat, (-11, 1)); (4%nat, (-11, 1)); (6%nat, (-11, 1)); (8%nat, (-22, 1))], (0, 1), SGe)]).
Proof. vm_compute. reflexivity. Qed.

(** an optimal assignment for this instance, and its decoding (sums 33, 33) *)
Example ex_feasible :
  feasible_b [11; 11; 11; 11; 22] 2 [1; 1; 1; 1; 1] [1; 1] [] [0; 1; 0; 1; 0; 1; 1; 0; 1; 0] = true.
Proof. vm_compute. reflexivity. Qed.
Example ex_objective :
  objective_value [11; 11; 11; 11; 22] 2 [1; 1] MaxSmallest [0; 1; 0; 1; 0; 1; 1; 0; 1; 0] = (-33, 1).
Proof. vm_compute. reflexivity. Qed.
Example ex_decode :
  decode (fun x : Z => x) true 2 [11; 11; 11; 11; 22] [1; 1] [0; 1; 0; 1; 0; 1; 1; 0; 1; 0]
  = [(33, [11; 22]); (33, [11; 11; 11])].
Proof. vm_compute. reflexivity. Qed.
(** an infeasible point: bin sums 55, 11 are not ascending *)
Example ex_infeasible :
  feasible_b [11; 11; 11; 11; 22] 2 [1; 1; 1; 1; 1] [1; 1] [] [1; 0; 1; 0; 1; 0; 0; 1; 1; 0] = false.
Proof. vm_compute. reflexivity. Qed.

(** weights [2; 1]: coefficients value/2 in bin 0; the optimum has sums 44, 22 (weighted 22, 22);
    the bins are NOT sorted by sum: bin 0 stays the bin of weight 2 *)
Example ex_weighted_formulate_objective :
  snd (fst (normalize (formulate [11; 11; 11; 11; 22] 2 [1; 1; 1; 1; 1] [2; 1] MaxSmallest [])))
  = ([(0%nat, (-11, 2)); (2%nat, (-11, 2)); (4%nat, (-11, 2)); (6%nat, (-11, 2)); (8%nat, (-22, 2))], (0, 1)).
Proof. vm_compute. reflexivity. Qed.
Example ex_weighted_asc_constraint :
  nth 15 (snd (normalize (formulate [11; 11; 11; 11; 22] 2 [1; 1; 1; 1; 1] [2; 1] MaxSmallest []))) (lzero, SEq)
  = ([(0%nat, (-11, 2)); (1%nat, (11, 1)); (2%nat, (-11, 2)); (3%nat, (11, 1)); (4%nat, (-11, 2));
      (5%nat, (11, 1)); (6%nat, (-11, 2)); (7%nat, (11, 1)); (8%nat, (-22, 2)); (9%nat, (22, 1))], (0, 1), SGe).
Proof. vm_compute. reflexivity. Qed.
Example ex_weighted_feasible :
  feasible_b [11; 11; 11; 11; 22] 2 [1; 1; 1; 1; 1] [2; 1] [] [1; 0; 1; 0; 1; 0; 1; 0; 0; 1] = true.
Proof. vm_compute. reflexivity. Qed.
Example ex_weighted_decode :
  decode (fun x : Z => x) true 2 [11; 11; 11; 11; 22] [2; 1] [1; 0; 1; 0; 1; 0; 1; 0; 0; 1]
  = [(44, [11; 11; 11; 11]); (22, [22])].
Proof. vm_compute. reflexivity. Qed.
Example ex_weighted_objective :
  reqb (objective_value [11; 11; 11; 11; 22] 2 [2; 1] MaxSmallest [1; 0; 1; 0; 1; 0; 1; 0; 0; 1]) (-22, 1) = true.
Proof. vm_compute. reflexivity. Qed.
(** additional constraint sums[-1] <= 3 on weighted sums (weights [1; 3]): 9/3 <= 3 holds, <= 2 does not *)
Example ex_extra :
  feasible_b [1; 2; 3] 2 [2; 2; 2] [1; 3] [LargestLe 3] [0; 2; 0; 2; 1; 1] = true /\
  feasible_b [1; 2; 3] 2 [2; 2; 2] [1; 3] [LargestLe 2] [0; 2; 0; 2; 1; 1] = false.
Proof. split; vm_compute; reflexivity. Qed.
(** errors raised before the solver is called *)
Example ex_errors :
  ilp (fun x : Z => x) true (Some []) MaxSmallest 2 [] [] [1; 1] = Err OtherError /\
  ilp (fun x : Z => x) true (Some []) MinLargest 0 [1; 2] [1; 1] [] = Err IndexError /\
  ilp (fun x : Z => x) true (Some []) (MaxKSmallest 0) 2 [1; 2] [1; 1] [1; 1] = Err OtherError /\
  ilp (fun x : Z => x) true (Some []) MinDiff 2 [1; 2] [1; 1] [0; 1] = Err ZeroDivisionError /\
  ilp (fun x : Z => x) true (Some []) MinDiff 2 [1; 2] [1; 1] [1] = Err IndexError /\
  ilp (fun x : Z => x) true None MinDiff 2 [1; 2] [1; 1] [1; 1] = Err ValueError.
Proof. repeat split. Qed.

Print Assumptions feasible_iff.
Print Assumptions decode_copies.
Print Assumptions decode_is_partition.
Print Assumptions decode_weighted_ascending.
Print Assumptions decode_equal_weights_sorted.
Print Assumptions decode_keeps_weight_positions.
Print Assumptions objective_agrees_weighted.
Print Assumptions objective_agrees.
Print Assumptions extras_hold.
Print Assumptions feasible_complete.
Print Assumptions ilp_optimal_weighted.
Print Assumptions ilp_optimal.
Print Assumptions ilp_returns_optimal.
Print Assumptions non_optimal_raises.
Print Assumptions non_optimal_raises_ilp.
Print Assumptions equal_weights_noop.
