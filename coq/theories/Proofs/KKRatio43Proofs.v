(** Property C08, second part: the Karmarkar-Karp heuristic (Model/KK.v, [kk]) never produces a
    largest sum above (4/3 - 1/(3k)) times the optimal largest sum, for EVERY k >= 1
    (Michiels, Korst, Aarts, van Leeuwen 2003/2007).  This closes [KKRatioProofs.kk_ratio_43_statement].

    Proved (hypotheses: 1 <= k, items <> [], values >= 0, kk = Ok b, Opt MinLargest k values opt):
      kk_dichotomy_third          : zmax (sums b) <= opt  \/  zmax (sums b) - zmin (sums b) <= opt / 3
      kk_ratio_43                 : 3 k L <= (4 k - 1) opt          (the property's bound, every k)
      kk_ratio_43_statement_holds : KKRatioProofs.kk_ratio_43_statement
      kk_ratio_43_flat            : 3 L <= 4 opt
      kk_ratio_k3                 : k = 3:  9 L <= 11 opt
    (the bound is attained for k = 2, [kk_43_attained_k2]; for k >= 3 the best known lower bound is
    4/3 - 1/(3(k-1)), so the sharp constant for k = 3 lies between 7/6 and the 11/9 proved here).

    Plan of the proof (T = the optimum, G = T / 3, an item is "large" when its value exceeds G, an
    entry of the heap is "big" when its spread exceeds G, a bin of an entry is "low" when it is
    within G of the smallest bin of that entry).  The dichotomy is an invariant of the heap
    ([Inv43], section 7): either all spreads are <= G (and stay so, [KKProofs.kk_combine_spread]), or
      - every entry but possibly the first is "clean": a single small item ([SUk]), or made of large
        items only with every bin <= T and at most one item per bin while it has an empty bin ([PUk]);
      - the first entry may be "dirty" (it has absorbed small items); then every other entry has
        spread <= G, and every bin of the first entry is low or made of large items and <= T ([Bk]);
      - ([Rel]) the large items of an entry that has a bin without large item are below the large
        items of every other entry with at least two items; two entries with a large item in
        every bin are ordered.
    A step combines the two first entries.  small + small is small; dirty/clean + single small
    item: the item lands in the smallest bin, which becomes low ([abs_Bk]); clean + clean
    ([pp_PUk]) and dirty + clean of small spread ([bs_Bk]) create bins with two large items, and
    these are bounded by T with Graham's weight argument ([RatioProofs.two_per_bin_contra]): for a
    large x, an item a >= x weighs 2 if a + x > T and 1 otherwise ([wx]); an optimal partition shows
    that the total weight is <= 2k ([W_upper]); if a new bin (u, x) exceeded T, every bin of the new
    entry would weigh >= 2 and that bin >= 3 ([cert_sum], [cert_full], [cert_lower], [pp_eq]).
    The way the bins of the two entries are matched (largest with smallest) is used only through its
    anti-monotonicity ([matching_AM]), so ties between sums or spreads need no special treatment. *)
From Prtpy Require Import Base.Prelude Base.Perms Model.Binner Model.KK Model.Objectives
  Spec.Partition Proofs.BaseLemmas Proofs.BinnerLemmas Proofs.KKProofs Proofs.RatioProofs
  Proofs.CKKOptimal Proofs.GreedyProofs Oracle.Reach Proofs.OracleSpec Proofs.ObjectivesProofs
  Proofs.CoveringProofs Proofs.KKRatioProofs.
From Coq Require Import Sorting.Sorted ZifyBool.

(** ---- 1. weights ---- *)
Definition wx (T x a : Z) : Z := if a <? x then 0 else if T <? a + x then 2 else 1.
Definition W (T x : Z) (l : list Z) : Z := zsum (map (wx T x) l).

Lemma wx_nonneg T x a : 0 <= wx T x a.
Proof. unfold wx. destruct (a <? x); [lia|]. destruct (T <? a + x); lia. Qed.

Lemma W_nil T x : W T x [] = 0.
Proof. reflexivity. Qed.

Lemma W_cons T x a l : W T x (a :: l) = wx T x a + W T x l.
Proof. reflexivity. Qed.

Lemma W_app T x l1 l2 : W T x (l1 ++ l2) = W T x l1 + W T x l2.
Proof. unfold W. rewrite map_app, zsum_app. reflexivity. Qed.

Lemma W_perm T x l1 l2 : Permutation l1 l2 -> W T x l1 = W T x l2.
Proof. intros P. unfold W. apply zsum_perm, Permutation_map, P. Qed.

Lemma W_nonneg T x l : 0 <= W T x l.
Proof. induction l as [|a t IH]; [rewrite W_nil; lia|]. rewrite W_cons. pose proof (wx_nonneg T x a). lia. Qed.

Lemma W_ge_cnt T x l : cnt_ge x l <= W T x l.
Proof.
  induction l as [|a t IH]; [cbn; lia|]. rewrite W_cons, cnt_ge_cons. unfold ind_ge, wx.
  destruct (x <=? a) eqn:E1; destruct (a <? x) eqn:E2; try lia; destruct (T <? a + x); lia.
Qed.

(** upper side: the optimum *)
Definition Pw (T x l wl : Z) : Prop :=
  0 <= wl /\ 0 <= l /\ (wl = 1 -> x <= l /\ T < 3 * l) /\
  (wl = 2 -> T < l + x \/ 2 * T < 3 * l) /\ (3 <= wl -> T < l).

Lemma Pw_step T x a l wl : 0 <= x -> T < 3 * x -> 0 <= a ->
  Pw T x l wl -> Pw T x (l + a) (wl + wx T x a).
Proof.
  unfold Pw, wx. intros Hx HTx Ha (H0 & H1 & H2 & H3 & H4).
  destruct (a <? x) eqn:E1; [|destruct (T <? a + x) eqn:E2]; lia.
Qed.

Lemma W_upper k T x vs s : 0 <= x -> T < 3 * x -> Forall (fun v => 0 <= v) vs ->
  Attainable k vs s -> Forall (fun a => a <= T) s -> W T x vs <= 2 * Z.of_nat k.
Proof.
  intros Hx HTx Hpos Hs HT.
  destruct (weights_along (Pw T x) (wx T x) k vs s) as (t & H1 & H2 & H3).
  - unfold Pw. lia.
  - eapply Forall_impl; [|exact Hpos]. intros a Ha l wl Hl. apply Pw_step; assumption.
  - exact Hs.
  - unfold W. rewrite <- H3.
    assert (Ht : Forall (fun b => b <= 2) t).
    { apply (Forall2_transfer (Pw T x) (fun a => a <= T) (fun b => b <= 2)) with (s := s); auto.
      unfold Pw. intros a b Hab Ha. lia. }
    pose proof (zsum_le_bound 2 t Ht) as H4. rewrite H2 in H4. lia.
Qed.

(** lower side: a group of values >= x whose sum exceeds T - x weighs at least 2 *)
Definition Pl (T x l wl : Z) : Prop := 0 <= wl /\ (wl = 0 -> l <= 0) /\ (wl = 1 -> l + x <= T).

Lemma W_Pl T x l : Forall (fun a => x <= a) l -> Pl T x (zsum l) (W T x l).
Proof.
  induction 1 as [|a t Ha Ht IH]; [unfold Pl; cbn; lia|].
  rewrite W_cons, zsum_cons. unfold Pl, wx in *.
  destruct (a <? x) eqn:E1; [lia|]. destruct (T <? a + x) eqn:E2; lia.
Qed.

Lemma W_heavy T x l : x <= T -> Forall (fun a => x <= a) l -> T - x < zsum l -> 2 <= W T x l.
Proof. intros HxT Hl Hs. pose proof (W_Pl T x l Hl) as H. unfold Pl in H. lia. Qed.

(** ---- 2. lists: pairwise relations, sorted insertion, matchings ---- *)
Fixpoint PW {X} (R : X -> X -> Prop) (l : list X) : Prop :=
  match l with [] => True | x :: t => Forall (R x) t /\ PW R t end.

Lemma PW_perm {X} (R : X -> X -> Prop) : (forall x y, R x y -> R y x) ->
  forall l l', Permutation l l' -> PW R l -> PW R l'.
Proof.
  intros Hsym l l' P. induction P as [|x l l' P IH|x y l|l l' l'' P1 IH1 P2 IH2]; intros H.
  - exact H.
  - destruct H as [H1 H2]. split; [eapply Permutation_Forall; eassumption|apply IH; exact H2].
  - destruct H as [H1 [H2 H3]]. apply Forall_cons_iff in H1. destruct H1 as [Hyx H1].
    split; [constructor; [apply Hsym; exact Hyx|exact H2]|split; assumption].
  - apply IH2, IH1, H.
Qed.

Lemma PW_tail {X} (R : X -> X -> Prop) x l : PW R (x :: l) -> PW R l.
Proof. intros [_ H]. exact H. Qed.

Lemma PW_in {X} (R : X -> X -> Prop) : (forall x y, R x y -> R y x) ->
  forall l x y l1 l2, PW R l -> l = l1 ++ x :: l2 -> In y (l1 ++ l2) -> R x y.
Proof.
  intros Hsym l x y l1 l2 H E Hy. subst l.
  assert (P : Permutation (l1 ++ x :: l2) (x :: l1 ++ l2)) by (symmetry; apply Permutation_middle).
  pose proof (PW_perm R Hsym _ _ P H) as [H1 _]. rewrite Forall_forall in H1. apply H1. exact Hy.
Qed.

Lemma in_two {X} (x y : X) l : In x l -> In y l -> x <> y ->
  exists l1 l2 l3, l = l1 ++ x :: l2 ++ y :: l3 \/ l = l1 ++ y :: l2 ++ x :: l3.
Proof.
  intros Hx Hy Hne. destruct (in_split x l Hx) as (l1 & l2 & E). subst l.
  apply in_app_or in Hy. destruct Hy as [Hy|[Hy|Hy]]; [|congruence|].
  - destruct (in_split y l1 Hy) as (m1 & m2 & E). subst l1.
    exists m1, m2, l2. right. rewrite <- app_assoc. reflexivity.
  - destruct (in_split y l2 Hy) as (m1 & m2 & E). subst l2.
    exists l1, m1, m2. left. reflexivity.
Qed.

Lemma SSorted_combine {X Y} (R1 : X -> X -> Prop) (R2 : Y -> Y -> Prop) : forall l1 l2,
  StronglySorted R1 l1 -> StronglySorted R2 l2 ->
  StronglySorted (fun p q => R1 (fst p) (fst q) /\ R2 (snd p) (snd q)) (combine l1 l2).
Proof.
  induction l1 as [|x t IH]; intros [|y t2] H1 H2; cbn [combine]; try constructor.
  - apply IH; [inversion H1; assumption|inversion H2; assumption].
  - inversion H1 as [|x' t' _ Hx]; subst. inversion H2 as [|y' t2' _ Hy]; subst.
    rewrite Forall_forall in *. intros [p q] Hin. cbn [fst snd]. split.
    + apply Hx. eapply in_combine_l. exact Hin.
    + apply Hy. eapply in_combine_r. exact Hin.
Qed.

Lemma SSorted_total {X} (R : X -> X -> Prop) l : StronglySorted R l -> (forall x, R x x) ->
  forall x y, In x l -> In y l -> R x y \/ R y x.
Proof.
  intros Hs Hrefl. induction Hs as [|a t Ht IH Ha]; intros x y Hx Hy; [destruct Hx|].
  rewrite Forall_forall in Ha. destruct Hx as [Ex|Hx]; destruct Hy as [Ey|Hy]; subst.
  - left. apply Hrefl.
  - left. apply Ha. exact Hy.
  - right. apply Ha. exact Hx.
  - apply IH; assumption.
Qed.

Lemma zsum_ge_with_one {X} (g : X -> Z) b l x0 : Forall (fun x => b <= g x) l -> In x0 l ->
  b + 1 <= g x0 -> Z.of_nat (length l) * b + 1 <= zsum (map g l).
Proof.
  intros HF Hin H0. destruct (in_split x0 l Hin) as (l1 & l2 & E). subst l.
  apply Forall_app in HF. destruct HF as [HF1 HF2]. apply Forall_cons_iff in HF2. destruct HF2 as [_ HF2].
  rewrite map_app, zsum_app. cbn [map]. rewrite zsum_cons.
  assert (G1 : Forall (fun a => b <= a) (map g l1)) by (rewrite Forall_map; exact HF1).
  assert (G2 : Forall (fun a => b <= a) (map g l2)) by (rewrite Forall_map; exact HF2).
  pose proof (zsum_ge_bound b _ G1) as B1. pose proof (zsum_ge_bound b _ G2) as B2.
  rewrite map_length in B1, B2. rewrite app_length. cbn [length]. lia.
Qed.

Section Heap0.
  Context {A : Type}.
  Lemma PW_heap_insert (R : @hentry A -> @hentry A -> Prop) : (forall x y, R x y -> R y x) ->
    forall e h, PW R h -> Forall (R e) h -> PW R (heap_insert e h).
  Proof.
    intros Hsym e h H1 H2. apply (PW_perm R Hsym (e :: h)); [symmetry; apply heap_insert_perm|].
    split; assumption.
  Qed.

  (** zip_combine as a map over the list of matched pairs *)
  Definition cb (p : bin A * bin A) : bin A := combine_bin (fst p) (snd p).

  Lemma zip_combine_map : forall b1 b2 : bins A, length b1 = length b2 ->
    zip_combine b1 b2 = map cb (combine b1 b2).
  Proof.
    induction b1 as [|x t IH]; intros [|y t2] H; cbn [length] in H; try discriminate; [reflexivity|].
    cbn [zip_combine combine map]. f_equal. apply IH. lia.
  Qed.

  Lemma sums_sorted_bins (b : bins A) : StronglySorted Z.le (sums b) ->
    StronglySorted (fun x y : bin A => fst x <= fst y) b.
  Proof.
    unfold sums. induction b as [|bn b IH]; intros H; [constructor|].
    cbn [map] in H. inversion H as [|x t H1 H2]; subst. constructor; [apply IH; exact H1|].
    rewrite Forall_map in H2. exact H2.
  Qed.

  (** the matching of the bins of two entries: anti-monotone in the sums *)
  Definition AM (p q : bin A * bin A) : Prop :=
    fst (fst p) <= fst (fst q) /\ fst (snd q) <= fst (snd p).
  Definition matching (a f : bins A) : list (bin A * bin A) := combine a (rev f).

  Lemma matching_AM (a f : bins A) : StronglySorted Z.le (sums a) -> StronglySorted Z.le (sums f) ->
    forall p q, In p (matching a f) -> In q (matching a f) -> AM p q \/ AM q p.
  Proof.
    intros Sa Sf. unfold matching, AM.
    apply (SSorted_total (fun p q : bin A * bin A => fst (fst p) <= fst (fst q) /\ fst (snd q) <= fst (snd p))).
    - apply (SSorted_combine (fun x y : bin A => fst x <= fst y) (fun x y : bin A => fst y <= fst x)).
      + apply sums_sorted_bins. exact Sa.
      + apply SSorted_rev. apply sums_sorted_bins. exact Sf.
    - intros x. lia.
  Qed.

  Lemma matching_fst (a f : bins A) : length a = length f -> map fst (matching a f) = a.
  Proof. intros H. apply map_fst_combine. rewrite rev_length. exact H. Qed.

  Lemma matching_snd (a f : bins A) : length a = length f -> map snd (matching a f) = rev f.
  Proof. intros H. apply map_snd_combine. rewrite rev_length. exact H. Qed.

  Lemma matching_length (a f : bins A) : length a = length f -> length (matching a f) = length a.
  Proof. intros H. rewrite <- (matching_fst a f H) at 2. rewrite map_length. reflexivity. Qed.

  Lemma kk_combine_matching (a f : bins A) : length a = length f ->
    kk_combine a f = map cb (matching a f).
  Proof. intros H. unfold kk_combine, matching. apply zip_combine_map. rewrite rev_length. exact H. Qed.

  Lemma matching_in (a f : bins A) p : In p (matching a f) -> In (fst p) a /\ In (snd p) f.
  Proof.
    destruct p as [x y]. intros H. split.
    - eapply in_combine_l. exact H.
    - apply in_rev. eapply in_combine_r. exact H.
  Qed.

  Lemma matching_has_fst (a f : bins A) bn : length a = length f -> In bn a ->
    exists p, In p (matching a f) /\ fst p = bn.
  Proof.
    intros H Hin. rewrite <- (matching_fst a f H) in Hin. apply in_map_iff in Hin.
    destruct Hin as (p & E & Hp). exists p. split; assumption.
  Qed.

  Lemma matching_has_snd (a f : bins A) bn : length a = length f -> In bn f ->
    exists p, In p (matching a f) /\ snd p = bn.
  Proof.
    intros H Hin. apply in_rev in Hin. rewrite <- (matching_snd a f H) in Hin. apply in_map_iff in Hin.
    destruct Hin as (p & E & Hp). exists p. split; assumption.
  Qed.
End Heap0.

(** ---- 3. bins made of large and small items ---- *)
Section Struct.
  Context {A : Type} (valueof : A -> Z).
  Variables (k : nat) (T G : Z).
  Hypothesis Hk2 : (2 <= k)%nat.
  Hypothesis HG0 : 0 <= G.
  Hypothesis HGT : 3 * G <= T < 3 * G + 3.

  (** T is the optimum, G = T / 3, a value is large when it exceeds G.
      [bv], [allv]: the values of a bin, of all bins; [nLb], [nLt]: how many of them are large;
      [pureb]: large values only; [lowb]: within G of the smallest sum [bmin]; [okb]: low, or pure and <= T;
      [Bk]: the form of the dirty first entry; [PUk]: the form of a clean entry of large items;
      [fullL] / [nonfullL]: every bin / not every bin holds a large value;
      [lower b b']: the large values of b are at most those of b'; [nonunit]: at least two items. *)
  Definition bv (bn : bin A) : list Z := map valueof (snd bn).
  Definition allv (b : bins A) : list Z := map valueof (contents b).
  Definition pureb (bn : bin A) : Prop := Forall (fun v => G < v) (bv bn).
  Definition nLb (bn : bin A) : Z := cnt_gt G (bv bn).
  Definition nLt (b : bins A) : Z := cnt_gt G (allv b).
  Definition bmin (b : bins A) : Z := zmin (sums b).
  Definition lowb (b : bins A) (bn : bin A) : Prop := fst bn - bmin b <= G.
  Definition okb (b : bins A) (bn : bin A) : Prop := lowb b bn \/ (pureb bn /\ fst bn <= T).
  Definition Bk (b : bins A) : Prop :=
    Forall (okb b) b /\ (nLt b <= Z.of_nat k -> Forall (fun bn => nLb bn <= 1) b).
  Definition hasempty (b : bins A) : Prop := exists bn, In bn b /\ snd bn = [].
  Definition PUk (b : bins A) : Prop :=
    Forall (fun bn => pureb bn /\ fst bn <= T) b /\
    (hasempty b -> Forall (fun bn => (length (snd bn) <= 1)%nat) b).
  Definition fullL (b : bins A) : Prop := Forall (fun bn => 1 <= nLb bn) b.
  Definition nonfullL (b : bins A) : Prop := exists bn, In bn b /\ nLb bn = 0.
  Definition lower (b b' : bins A) : Prop :=
    forall v v', In v (allv b) -> In v' (allv b') -> G < v -> G < v' -> v <= v'.
  Definition nonunit (b : bins A) : Prop := (2 <= length (contents b))%nat.
  (** well-formed bins with non-negative values *)
  Definition gb (bn : bin A) : Prop := fst bn = zsum (bv bn) /\ Forall (fun v => 0 <= v) (bv bn).
  Definition gbs (b : bins A) : Prop := Forall gb b.

  Lemma allv_concat (b : bins A) : allv b = concat (map bv b).
  Proof.
    unfold allv, contents, lists, bv. rewrite concat_map, map_map. reflexivity.
  Qed.

  Lemma allv_cons (bn : bin A) b : allv (bn :: b) = bv bn ++ allv b.
  Proof. rewrite !allv_concat. reflexivity. Qed.

  Lemma allv_nil : allv [] = [].
  Proof. reflexivity. Qed.

  Lemma allv_app (b1 b2 : bins A) : allv (b1 ++ b2) = allv b1 ++ allv b2.
  Proof. unfold allv. rewrite contents_app, map_app. reflexivity. Qed.

  Lemma allv_perm (b1 b2 : bins A) : Permutation b1 b2 -> Permutation (allv b1) (allv b2).
  Proof. intros P. unfold allv. apply Permutation_map, contents_perm, P. Qed.

  Lemma allv_in (b : bins A) bn v : In bn b -> In v (bv bn) -> In v (allv b).
  Proof.
    intros Hb Hv. rewrite allv_concat. apply in_concat. exists (bv bn). split; [|exact Hv].
    apply in_map. exact Hb.
  Qed.

  Lemma allv_in_inv (b : bins A) v : In v (allv b) -> exists bn, In bn b /\ In v (bv bn).
  Proof.
    rewrite allv_concat. intros H. apply in_concat in H. destruct H as (l & Hl & Hv).
    apply in_map_iff in Hl. destruct Hl as (bn & E & Hb). subst l. exists bn. split; assumption.
  Qed.

  Lemma nLt_cons (bn : bin A) b : nLt (bn :: b) = nLb bn + nLt b.
  Proof. unfold nLt, nLb. rewrite allv_cons, cnt_gt_app. reflexivity. Qed.

  Lemma nLt_sum (b : bins A) : nLt b = zsum (map nLb b).
  Proof. induction b as [|bn b IH]; [reflexivity|]. rewrite nLt_cons, IH. reflexivity. Qed.

  Lemma nLt_perm (b1 b2 : bins A) : Permutation b1 b2 -> nLt b1 = nLt b2.
  Proof. intros P. unfold nLt. apply cnt_gt_perm, allv_perm, P. Qed.

  Lemma nLb_nonneg (bn : bin A) : 0 <= nLb bn.
  Proof. unfold nLb. pose proof (cnt_gt_bounds G (bv bn)). lia. Qed.

  Lemma nLt_nonneg (b : bins A) : 0 <= nLt b.
  Proof. unfold nLt. pose proof (cnt_gt_bounds G (allv b)). lia. Qed.

  Lemma nLt_in (b : bins A) bn : In bn b -> nLb bn <= nLt b.
  Proof.
    intros Hin. destruct (in_split bn b Hin) as (l1 & l2 & E). subst b.
    unfold nLt. rewrite allv_app, allv_cons, !cnt_gt_app. fold (nLb bn).
    pose proof (cnt_gt_bounds G (allv l1)). pose proof (cnt_gt_bounds G (allv l2)). lia.
  Qed.

  Lemma W_allv x (b : bins A) : W T x (allv b) = zsum (map (fun bn => W T x (bv bn)) b).
  Proof.
    induction b as [|bn b IH]; [reflexivity|]. rewrite allv_cons, W_app, IH. reflexivity.
  Qed.

  (** facts about a single good bin *)
  Lemma gb_nonneg (bn : bin A) : gb bn -> 0 <= fst bn.
  Proof. intros [E H]. rewrite E. apply zsum_nonneg. exact H. Qed.

  Lemma gb_empty (bn : bin A) : gb bn -> snd bn = [] -> fst bn = 0.
  Proof. intros [E _] H. rewrite E. unfold bv. rewrite H. reflexivity. Qed.

  Lemma gb_ge_item (bn : bin A) v : gb bn -> In v (bv bn) -> v <= fst bn.
  Proof. intros [E H] Hv. rewrite E. apply in_le_zsum; assumption. Qed.

  Lemma gb_single (bn : bin A) x : gb bn -> snd bn = [x] -> fst bn = valueof x.
  Proof. intros [E _] H. rewrite E. unfold bv. rewrite H. cbn. lia. Qed.

  Lemma pureb_pos (bn : bin A) : gb bn -> pureb bn -> snd bn <> [] -> G < fst bn.
  Proof.
    intros Hg Hp Hne. destruct (snd bn) as [|x t] eqn:E; [congruence|].
    assert (Hin : In (valueof x) (bv bn)) by (unfold bv; rewrite E; left; reflexivity).
    pose proof (gb_ge_item bn _ Hg Hin). unfold pureb in Hp. rewrite Forall_forall in Hp.
    specialize (Hp _ Hin). lia.
  Qed.

  Lemma pureb_nLb (bn : bin A) : pureb bn -> nLb bn = Z.of_nat (length (snd bn)).
  Proof. intros Hp. unfold nLb. rewrite cnt_gt_all by exact Hp. unfold bv. rewrite map_length. reflexivity. Qed.

  Lemma nLb_zero_pure_empty (bn : bin A) : pureb bn -> nLb bn = 0 -> snd bn = [].
  Proof. intros Hp H. rewrite (pureb_nLb bn Hp) in H. destruct (snd bn); [reflexivity|cbn [length] in H; lia]. Qed.

  Lemma nLb_pos_item (bn : bin A) : 1 <= nLb bn -> exists v, In v (bv bn) /\ G < v.
  Proof. intros H. apply cnt_gt_ex. exact H. Qed.

  Lemma nLb_zero_small (bn : bin A) v : nLb bn = 0 -> In v (bv bn) -> v <= G.
  Proof.
    intros H Hv. destruct (Z_lt_le_dec G v) as [Hlt|Hle]; [|exact Hle].
    pose proof (cnt_gt_in G v (bv bn) Hv Hlt). unfold nLb in H. lia.
  Qed.

  Lemma lg_T x : G < x -> T < 3 * x.
  Proof. lia. Qed.

  Lemma full_or_not (b : bins A) : nonfullL b \/ fullL b.
  Proof.
    induction b as [|bn b IH]; [right; constructor|].
    destruct (Z.eq_dec (nLb bn) 0) as [E|E].
    - left. exists bn. split; [left; reflexivity|exact E].
    - destruct IH as [(bn' & Hin & E')|IH].
      + left. exists bn'. split; [right; exact Hin|exact E'].
      + right. constructor; [pose proof (nLb_nonneg bn); lia|exact IH].
  Qed.

  Lemma zsum_ge_len (g : bin A -> Z) (b : bins A) : Forall (fun bn => 1 <= g bn) b ->
    Z.of_nat (length b) <= zsum (map g b).
  Proof.
    intros H. assert (H' : Forall (fun a => 1 <= a) (map g b)) by (rewrite Forall_map; exact H).
    pose proof (zsum_ge_bound 1 _ H') as B. rewrite map_length in B. lia.
  Qed.

  Lemma all_one (g : bin A -> Z) (b : bins A) : Forall (fun bn => 1 <= g bn) b ->
    zsum (map g b) <= Z.of_nat (length b) -> Forall (fun bn => g bn = 1) b.
  Proof.
    induction 1 as [|bn b Hbn Hb IH]; intros Hs; [constructor|].
    cbn [map length] in Hs. rewrite zsum_cons in Hs. pose proof (zsum_ge_len g b Hb) as Hl.
    constructor; [lia|]. apply IH. lia.
  Qed.

  Lemma all_zero (g : bin A -> Z) (b : bins A) : Forall (fun bn => 0 <= g bn) b ->
    zsum (map g b) <= 0 -> Forall (fun bn => g bn = 0) b.
  Proof.
    induction 1 as [|bn b Hbn Hb IH]; intros Hs; [constructor|].
    cbn [map] in Hs. rewrite zsum_cons in Hs.
    assert (H0 : 0 <= zsum (map g b)) by (apply zsum_nonneg; rewrite Forall_map; exact Hb).
    constructor; [lia|]. apply IH. lia.
  Qed.

  Lemma fullL_count (b : bins A) : fullL b -> Z.of_nat (length b) <= nLt b.
  Proof. intros H. rewrite nLt_sum. apply zsum_ge_len. exact H. Qed.

  Lemma fullL_exact (b : bins A) : fullL b -> nLt b <= Z.of_nat (length b) -> Forall (fun bn => nLb bn = 1) b.
  Proof. intros H Hc. apply all_one; [exact H|]. rewrite <- nLt_sum. exact Hc. Qed.

  Lemma fullL_nonunit (b : bins A) : length b = k -> fullL b -> nonunit b.
  Proof.
    intros HL H. unfold nonunit. assert (Hne : Forall (fun bn => snd bn <> []) b).
    { eapply Forall_impl; [|exact H]. intros bn Hbn E. unfold nLb, bv in Hbn. rewrite E in Hbn. cbn in Hbn. lia. }
    pose proof (contents_length_ge b Hne). lia.
  Qed.

  Lemma contents_two (l1 l2 l3 : bins A) (x y : bin A) : snd x <> [] -> snd y <> [] ->
    (2 <= length (contents (l1 ++ x :: l2 ++ y :: l3)))%nat.
  Proof.
    intros Hx Hy. rewrite contents_app.
    change (contents (x :: l2 ++ y :: l3)) with (snd x ++ contents (l2 ++ y :: l3)). rewrite contents_app.
    change (contents (y :: l3)) with (snd y ++ contents l3). rewrite !app_length.
    destruct (snd x); [congruence|]. destruct (snd y); [congruence|]. cbn [length]. lia.
  Qed.

  (** permutation invariance *)
  Lemma bmin_perm (b1 b2 : bins A) : Permutation b1 b2 -> bmin b1 = bmin b2.
  Proof. intros P. unfold bmin, sums. apply zmin_perm, Permutation_map, P. Qed.

  Lemma Bk_perm (b1 b2 : bins A) : Permutation b1 b2 -> Bk b1 -> Bk b2.
  Proof.
    intros P [H1 H2]. split.
    - eapply Permutation_Forall; [exact P|]. eapply Forall_impl; [|exact H1].
      intros bn Hbn. unfold okb, lowb in *. rewrite <- (bmin_perm _ _ P). exact Hbn.
    - intros Hc. rewrite <- (nLt_perm _ _ P) in Hc. eapply Permutation_Forall; [exact P|apply H2; exact Hc].
  Qed.

  Lemma PUk_perm (b1 b2 : bins A) : Permutation b1 b2 -> PUk b1 -> PUk b2.
  Proof.
    intros P [H1 H2]. split.
    - eapply Permutation_Forall; [exact P|exact H1].
    - intros (bn & Hin & E). eapply Permutation_Forall; [exact P|]. apply H2. exists bn.
      split; [eapply Permutation_in; [symmetry; exact P|exact Hin]|exact E].
  Qed.

  Lemma gbs_perm (b1 b2 : bins A) : Permutation b1 b2 -> gbs b1 -> gbs b2.
  Proof. intros P H. eapply Permutation_Forall; eassumption. Qed.

  Lemma lower_perm_l (b1 b2 b' : bins A) : Permutation b1 b2 -> lower b1 b' -> lower b2 b'.
  Proof.
    intros P H v v' Hv Hv'. apply H; [|exact Hv'].
    eapply Permutation_in; [symmetry; apply allv_perm; exact P|exact Hv].
  Qed.

  Lemma lower_perm_r (b b1 b2 : bins A) : Permutation b1 b2 -> lower b b1 -> lower b b2.
  Proof.
    intros P H v v' Hv Hv'. apply H; [exact Hv|].
    eapply Permutation_in; [symmetry; apply allv_perm; exact P|exact Hv'].
  Qed.

  Lemma fullL_perm (b1 b2 : bins A) : Permutation b1 b2 -> fullL b1 -> fullL b2.
  Proof. intros P H. eapply Permutation_Forall; eassumption. Qed.

  Lemma nonfullL_perm (b1 b2 : bins A) : Permutation b1 b2 -> nonfullL b1 -> nonfullL b2.
  Proof. intros P (bn & Hin & E). exists bn. split; [eapply Permutation_in; eassumption|exact E]. Qed.

  Lemma nonunit_perm (b1 b2 : bins A) : Permutation b1 b2 -> nonunit b1 -> nonunit b2.
  Proof. intros P H. unfold nonunit in *. rewrite <- (Permutation_length (contents_perm _ _ P)). exact H. Qed.

  (** clean entries made of large items are also fine as a dirty first entry *)
  Lemma PUk_Bk (b : bins A) : length b = k -> PUk b -> Bk b.
  Proof.
    intros HL [H1 H2]. split.
    - eapply Forall_impl; [|exact H1]. intros bn Hbn. right. exact Hbn.
    - intros Hc. destruct (full_or_not b) as [(bn & Hin & E)|Hf].
      + assert (He : hasempty b).
        { exists bn. split; [exact Hin|]. rewrite Forall_forall in H1. apply nLb_zero_pure_empty; [apply H1; exact Hin|exact E]. }
        specialize (H2 He). rewrite Forall_forall in *. intros bn' Hin'.
        rewrite (pureb_nLb bn') by (apply H1; exact Hin'). specialize (H2 bn' Hin'). lia.
      + rewrite <- HL in Hc. pose proof (fullL_exact b Hf Hc) as Hx.
        eapply Forall_impl; [|exact Hx]. intros bn' E. cbv beta in E. lia.
  Qed.

  Lemma lower_antisym (b b' : bins A) v v' : lower b b' -> lower b' b -> In v (allv b) -> In v' (allv b') ->
    G < v -> G < v' -> v = v'.
  Proof. intros H1 H2 Hv Hv' Hg Hg'. pose proof (H1 v v' Hv Hv' Hg Hg'). pose proof (H2 v' v Hv' Hv Hg' Hg). lia. Qed.

  (** ---- 4. combining two entries ---- *)
  Definition good (b : bins A) : Prop := length b = k /\ StronglySorted Z.le (sums b) /\ gbs b.

  Lemma bv_cb (p : bin A * bin A) : bv (cb p) = bv (fst p) ++ bv (snd p).
  Proof. unfold bv, cb, combine_bin. cbn [snd]. apply map_app. Qed.

  Lemma fst_cb (p : bin A * bin A) : fst (cb p) = fst (fst p) + fst (snd p).
  Proof. reflexivity. Qed.

  Lemma gb_cb (p : bin A * bin A) : gb (fst p) -> gb (snd p) -> gb (cb p).
  Proof.
    intros [E1 H1] [E2 H2]. split.
    - rewrite fst_cb, bv_cb, zsum_app. lia.
    - rewrite bv_cb. apply Forall_app. split; assumption.
  Qed.

  Lemma pureb_cb (p : bin A * bin A) : pureb (fst p) -> pureb (snd p) -> pureb (cb p).
  Proof. intros H1 H2. unfold pureb. rewrite bv_cb. apply Forall_app. split; assumption. Qed.

  Lemma nLb_cb (p : bin A * bin A) : nLb (cb p) = nLb (fst p) + nLb (snd p).
  Proof. unfold nLb. rewrite bv_cb, cnt_gt_app. reflexivity. Qed.

  Section Merge.
    Variables a f : bins A.
    Hypothesis Ga : good a.
    Hypothesis Gf : good f.
    Let M := matching a f.
    Let c := kk_combine a f.

    Lemma len_af : length a = length f.
    Proof. destruct Ga as (H1 & _). destruct Gf as (H2 & _). congruence. Qed.

    Lemma c_map : c = map cb M.
    Proof. apply kk_combine_matching, len_af. Qed.

    Lemma M_len : length M = k.
    Proof. unfold M. rewrite matching_length by apply len_af. apply Ga. Qed.

    Lemma M_in p : In p M -> In (fst p) a /\ In (snd p) f.
    Proof. apply matching_in. Qed.

    Lemma M_gb p : In p M -> gb (fst p) /\ gb (snd p).
    Proof.
      intros Hp. destruct (M_in p Hp) as [H1 H2]. destruct Ga as (_ & _ & Ba). destruct Gf as (_ & _ & Bf).
      unfold gbs in *. rewrite Forall_forall in Ba, Bf. split; [apply Ba|apply Bf]; assumption.
    Qed.

    Lemma M_AM p q : In p M -> In q M -> AM p q \/ AM q p.
    Proof. apply matching_AM; [apply Ga|apply Gf]. Qed.

    Lemma c_gbs : gbs c.
    Proof.
      rewrite c_map. unfold gbs. rewrite Forall_map. apply Forall_forall. intros p Hp.
      destruct (M_gb p Hp). apply gb_cb; assumption.
    Qed.

    Lemma c_len : length c = k.
    Proof. unfold c. rewrite kk_combine_length. apply Ga. Qed.

    Lemma c_allv : Permutation (allv c) (allv a ++ allv f).
    Proof.
      unfold allv, c. rewrite <- map_app. apply Permutation_map. apply kk_combine_contents, len_af.
    Qed.

    Lemma c_nLt : nLt c = nLt a + nLt f.
    Proof. unfold nLt. rewrite (cnt_gt_perm _ _ _ c_allv), cnt_gt_app. reflexivity. Qed.

    Lemma c_W x : W T x (allv c) = zsum (map (fun p => W T x (bv (fst p) ++ bv (snd p))) M).
    Proof.
      rewrite W_allv, c_map, map_map. f_equal. apply map_ext. intros p. rewrite bv_cb. reflexivity.
    Qed.

    Lemma c_W_split x : W T x (allv c) = W T x (allv a) + W T x (allv f).
    Proof. rewrite (W_perm _ _ _ _ c_allv), W_app. reflexivity. Qed.

    Lemma c_bmin : exists p, In p M /\ fst (cb p) = bmin c.
    Proof.
      assert (Hne : sums c <> []).
      { intros E. pose proof c_len as L. unfold sums in E. apply map_eq_nil in E. rewrite E in L. cbn in L. lia. }
      pose proof (zmin_in (sums c) Hne) as Hin. fold (bmin c) in Hin. unfold sums in Hin.
      apply in_map_iff in Hin. destruct Hin as (bn & E & Hbn). rewrite c_map in Hbn.
      apply in_map_iff in Hbn. destruct Hbn as (p & E2 & Hp). subst bn. exists p. split; assumption.
    Qed.

    Lemma bmin_le (b : bins A) bn : In bn b -> bmin b <= fst bn.
    Proof. intros H. unfold bmin. apply zmin_le_in. unfold sums. apply in_map. exact H. Qed.

    Lemma sp_ge (b : bins A) bn bn' : In bn b -> In bn' b -> fst bn - fst bn' <= sp (sums b).
    Proof.
      intros H1 H2. unfold sp.
      assert (fst bn <= zmax (sums b)) by (apply zmax_ge_in; unfold sums; apply in_map; exact H1).
      assert (zmin (sums b) <= fst bn') by (apply zmin_le_in; unfold sums; apply in_map; exact H2). lia.
    Qed.

    (** a low bin of [a] stays low when [f] has a small spread *)
    Lemma low_stays p : sp (sums f) <= G -> In p M -> lowb a (fst p) -> lowb c (cb p).
    Proof.
      intros Hsp Hp Hlow. destruct c_bmin as (q & Hq & Eq). unfold lowb in *. rewrite <- Eq, !fst_cb.
      destruct (M_in p Hp) as [Pa Pf]. destruct (M_in q Hq) as [Qa Qf].
      pose proof (bmin_le a (fst q) Qa). pose proof (sp_ge f (snd p) (snd q) Pf Qf).
      destruct (M_AM p q Hp Hq) as [[H1 H2]|[H1 H2]]; lia.
    Qed.

    (** roles: with [sw = false] the bins of [a] are the "upper" ones, with [sw = true] those of [f] *)
    Definition pu (sw : bool) (p : bin A * bin A) : bin A := if sw then snd p else fst p.
    Definition pl (sw : bool) (p : bin A * bin A) : bin A := if sw then fst p else snd p.
    Definition Ub (sw : bool) : bins A := if sw then f else a.
    Definition Lb (sw : bool) : bins A := if sw then a else f.

    Lemma roles_in sw p : In p M -> In (pu sw p) (Ub sw) /\ In (pl sw p) (Lb sw).
    Proof. intros Hp. destruct (M_in p Hp). destruct sw; cbn; split; assumption. Qed.

    Lemma roles_gb sw p : In p M -> gb (pu sw p) /\ gb (pl sw p).
    Proof. intros Hp. destruct (M_gb p Hp). destruct sw; cbn; split; assumption. Qed.

    Lemma roles_fst sw p : fst (cb p) = fst (pu sw p) + fst (pl sw p).
    Proof. rewrite fst_cb. destruct sw; cbn [pu pl]; lia. Qed.

    Lemma roles_W sw x p : W T x (bv (fst p) ++ bv (snd p)) = W T x (bv (pu sw p)) + W T x (bv (pl sw p)).
    Proof. rewrite W_app. destruct sw; cbn [pu pl]; lia. Qed.

    Lemma roles_AM sw p q : In p M -> In q M ->
      (fst (pu sw p) <= fst (pu sw q) /\ fst (pl sw q) <= fst (pl sw p)) \/
      (fst (pu sw q) <= fst (pu sw p) /\ fst (pl sw p) <= fst (pl sw q)).
    Proof.
      intros Hp Hq. destruct (M_AM p q Hp Hq) as [[H1 H2]|[H1 H2]]; destruct sw; cbn [pu pl]; lia.
    Qed.

    Lemma roles_has sw bn : In bn (Ub sw) -> exists p, In p M /\ pu sw p = bn.
    Proof. destruct sw; [apply matching_has_snd|apply matching_has_fst]; apply len_af. Qed.

    Lemma roles_contents sw : length (contents (map (pl sw) M)) = length (contents (Lb sw)).
    Proof.
      destruct sw; cbn [Lb].
      - change (map (pl true) M) with (map fst M). unfold M. rewrite (matching_fst a f len_af). reflexivity.
      - change (map (pl false) M) with (map snd M). unfold M. rewrite (matching_snd a f len_af).
        apply Permutation_length, rev_contents.
    Qed.

    Hypothesis HW : forall x, G < x -> W T x (allv a) + W T x (allv f) <= 2 * Z.of_nat k.
    Hypothesis HC : nLt a + nLt f <= 2 * Z.of_nat k.

    Lemma cert_sum x p0 : G < x -> In p0 M ->
      Forall (fun p => 2 <= W T x (bv (fst p) ++ bv (snd p))) M ->
      2 + 1 <= W T x (bv (fst p0) ++ bv (snd p0)) -> False.
    Proof.
      intros Hx Hp0 Hall H3.
      pose proof (zsum_ge_with_one (fun p => W T x (bv (fst p) ++ bv (snd p))) 2 M p0 Hall Hp0 H3) as HS.
      rewrite <- c_W, M_len, c_W_split in HS. specialize (HW x Hx). lia.
    Qed.

    (** the weight certificate: the upper bins all hold an item >= x, the lower bin of [p0] is the
        single item x, and the bin of [p0] exceeds T: impossible *)
    Lemma cert_full sw x p0 : G < x -> x <= T -> In p0 M -> bv (pl sw p0) = [x] ->
      T < fst (pu sw p0) + x ->
      (forall p, In p M -> 1 <= cnt_ge x (bv (pu sw p))) ->
      (forall p, In p M -> fst (pu sw p0) <= fst (pu sw p) -> Forall (fun v => x <= v) (bv (pu sw p))) ->
      (forall p, In p M -> cnt_ge x (bv (pl sw p)) = 0 -> fst (pl sw p) < x) ->
      False.
    Proof.
      intros Hx HxT Hp0 Ex Hbig U1 U2 L1.
      assert (E0 : fst (pl sw p0) = x).
      { destruct (roles_gb sw p0 Hp0) as [_ [E _]]. rewrite E, Ex. cbn. lia. }
      assert (Hup : forall p, In p M -> fst (pu sw p0) <= fst (pu sw p) -> 2 <= W T x (bv (pu sw p))).
      { intros p Hp Hle. apply W_heavy; [exact HxT|apply U2; assumption|].
        destruct (roles_gb sw p Hp) as [[E _] _]. rewrite <- E. lia. }
      assert (Hall : Forall (fun p => 2 <= W T x (bv (fst p) ++ bv (snd p))) M).
      { apply Forall_forall. intros p Hp. rewrite (roles_W sw).
        pose proof (W_nonneg T x (bv (pl sw p))) as N1. pose proof (cnt_ge_nonneg x (bv (pl sw p))) as N2.
        destruct (Z.eq_dec (cnt_ge x (bv (pl sw p))) 0) as [Ez|Enz].
        - pose proof (L1 p Hp Ez) as Hlt.
          destruct (roles_AM sw p p0 Hp Hp0) as [[H1 H2]|[H1 H2]]; [lia|].
          pose proof (Hup p Hp H1). lia.
        - pose proof (W_ge_cnt T x (bv (pu sw p))). pose proof (W_ge_cnt T x (bv (pl sw p))).
          pose proof (U1 p Hp). lia. }
      apply (cert_sum x p0 Hx Hp0 Hall).
      rewrite (roles_W sw). pose proof (Hup p0 Hp0 ltac:(lia)) as H2. rewrite Ex.
      assert (1 <= W T x [x]); [|lia]. unfold W, wx. cbn [map]. rewrite zsum_cons.
      destruct (x <? x) eqn:E1; [lia|]. destruct (T <? x + x); cbn; lia.
    Qed.

    Definition rel1 (b b' : bins A) : Prop :=
      (nonfullL b -> nonunit b' -> lower b b') /\ (fullL b -> fullL b' -> lower b b' \/ lower b' b).

    Lemma PUk_bin (b : bins A) bn : PUk b -> In bn b -> pureb bn /\ fst bn <= T.
    Proof. intros [H _] Hin. rewrite Forall_forall in H. apply H. exact Hin. Qed.

    Lemma pure_item_large (bn : bin A) v : pureb bn -> In v (bv bn) -> G < v.
    Proof. intros H Hv. unfold pureb in H. rewrite Forall_forall in H. apply H. exact Hv. Qed.

    Lemma nonfull_pure_empty (b : bins A) : PUk b -> nonfullL b -> hasempty b.
    Proof.
      intros Hb (bn & Hin & E). exists bn. split; [exact Hin|].
      apply nLb_zero_pure_empty; [apply (PUk_bin b bn Hb Hin)|exact E].
    Qed.

    Lemma single_bv (bn : bin A) x : snd bn = [x] -> bv bn = [valueof x].
    Proof. intros E. unfold bv. rewrite E. reflexivity. Qed.

    Lemma short_bin (bn : bin A) : (length (snd bn) <= 1)%nat -> snd bn = [] \/ exists x, snd bn = [x].
    Proof. destruct (snd bn) as [|x [|y t]]; cbn [length]; intros H; [left; reflexivity|right; exists x; reflexivity|lia]. Qed.

    Lemma short_below (bn : bin A) x : gb bn -> (length (snd bn) <= 1)%nat -> 0 < x ->
      cnt_ge x (bv bn) = 0 -> fst bn < x.
    Proof.
      intros Gb Hs Hx Hc. destruct (short_bin _ Hs) as [E|(y & E)].
      - rewrite (gb_empty _ Gb E). exact Hx.
      - rewrite (gb_single _ _ Gb E). rewrite (single_bv _ _ E) in Hc. cbn in Hc. unfold ind_ge in Hc.
        destruct (x <=? valueof y) eqn:E1; lia.
    Qed.

    Lemma single_large (b : bins A) bn x : In bn b -> gb bn -> pureb bn -> snd bn = [x] ->
      bv bn = [valueof x] /\ fst bn = valueof x /\ G < valueof x /\ In (valueof x) (allv b).
    Proof.
      intros Hin Gb Pb E. pose proof (single_bv _ _ E) as Ebv.
      split; [exact Ebv|split; [exact (gb_single _ _ Gb E)|split]].
      - apply (pure_item_large bn); [exact Pb|rewrite Ebv; left; reflexivity].
      - apply (allv_in _ bn); [exact Hin|rewrite Ebv; left; reflexivity].
    Qed.

    Lemma cert_lower sw p xx : In p M -> snd (pl sw p) = [xx] -> pureb (pl sw p) -> fst (pl sw p) <= T ->
      T < fst (cb p) -> fullL (Ub sw) -> lower (Lb sw) (Ub sw) ->
      (forall q, In q M -> fst (pu sw p) <= fst (pu sw q) -> pureb (pu sw q)) ->
      (forall q, In q M -> G < valueof xx -> cnt_ge (valueof xx) (bv (pl sw q)) = 0 ->
                 fst (pl sw q) < valueof xx) ->
      False.
    Proof.
      intros Hp E P2 T2 Hbig HF HL U2 L1. destruct (roles_in sw p Hp) as [_ I2].
      destruct (roles_gb sw p Hp) as [_ G2].
      destruct (single_large (Lb sw) _ xx I2 G2 P2 E) as (Ebv & Ex & Hx & Hxa). set (x := valueof xx) in *.
      assert (Hup : forall q v, In q M -> In v (bv (pu sw q)) -> G < v -> x <= v).
      { intros q v Hq Hv Hgv. destruct (roles_in sw q Hq) as [J1 _].
        apply HL; [exact Hxa|apply (allv_in _ (pu sw q)); assumption|exact Hx|exact Hgv]. }
      apply (cert_full sw x p); try assumption.
      - lia.
      - rewrite (roles_fst sw) in Hbig. lia.
      - intros q Hq. destruct (roles_in sw q Hq) as [J1 _].
        unfold fullL in HF. rewrite Forall_forall in HF. destruct (nLb_pos_item _ (HF _ J1)) as (v & Hv & Hgv).
        apply (cnt_ge_in x v); [exact Hv|exact (Hup q v Hq Hv Hgv)].
      - intros q Hq Hle. apply Forall_forall. intros v Hv. apply (Hup q v Hq Hv).
        apply (pure_item_large (pu sw q)); [apply U2; assumption|exact Hv].
      - intros q Hq. apply L1; assumption.
    Qed.

    (** both entries made of large items *)
    Section PP.
      Hypothesis Pa : PUk a.
      Hypothesis Pf : PUk f.
      Hypothesis Raf : rel1 a f.
      Hypothesis Rfa : rel1 f a.

      Lemma pp_pure p : In p M -> pureb (fst p) /\ pureb (snd p) /\ fst (fst p) <= T /\ fst (snd p) <= T.
      Proof.
        intros Hp. destruct (M_in p Hp) as [H1 H2].
        destruct (PUk_bin a _ Pa H1). destruct (PUk_bin f _ Pf H2). repeat split; assumption.
      Qed.

      Lemma pp_roles sw p : In p M ->
        pureb (pu sw p) /\ pureb (pl sw p) /\ fst (pu sw p) <= T /\ fst (pl sw p) <= T.
      Proof.
        intros Hp. destruct (pp_pure p Hp) as (P1 & P2 & T1 & T2). destruct sw; cbn [pu pl]; repeat split; assumption.
      Qed.

      Lemma pp_empty_side sw p : In p M -> fst (pu sw p) <= 0 -> snd (pu sw p) = [].
      Proof.
        intros Hp H0. destruct (pp_roles sw p Hp) as (P1 & _). destruct (roles_gb sw p Hp) as [G1 _].
        destruct (snd (pu sw p)) eqn:E; [reflexivity|]. pose proof (pureb_pos (pu sw p) G1 P1 ltac:(congruence)). lia.
      Qed.

      (** if the new entry has an empty bin, no two items meet *)
      Lemma pp_S1 : hasempty c -> Forall (fun bn => (length (snd bn) <= 1)%nat) c.
      Proof.
        intros (bn & Hin & E). rewrite c_map in Hin. apply in_map_iff in Hin. destruct Hin as (p0 & E0 & Hp0).
        subst bn. unfold cb, combine_bin in E. cbn [snd] in E. apply app_eq_nil in E. destruct E as [E1 E2].
        destruct (M_in p0 Hp0) as [I1 I2]. destruct (M_gb p0 Hp0) as [G1 G2].
        pose proof (gb_empty _ G1 E1) as Z1. pose proof (gb_empty _ G2 E2) as Z2.
        assert (Ea : hasempty a) by (exists (fst p0); split; assumption).
        assert (Ef : hasempty f) by (exists (snd p0); split; assumption).
        destruct Pa as [_ Sa]. destruct Pf as [_ Sf]. specialize (Sa Ea). specialize (Sf Ef).
        rewrite Forall_forall in Sa, Sf.
        rewrite c_map, Forall_map. apply Forall_forall. intros p Hp. destruct (M_in p Hp) as [J1 J2].
        unfold cb, combine_bin. cbn [snd].
        destruct (M_AM p p0 Hp Hp0) as [[H1 H2]|[H1 H2]].
        - rewrite (pp_empty_side false p Hp ltac:(cbn [pu]; lia) : snd (fst p) = []). cbn [app]. apply Sf. exact J2.
        - rewrite (pp_empty_side true p Hp ltac:(cbn [pu]; lia) : snd (snd p) = []), app_nil_r. apply Sa. exact J1.
      Qed.

      (** one entry has a large item in every bin and is above the other *)
      Lemma pp_full sw p : fullL (Ub sw) -> lower (Lb sw) (Ub sw) ->
        Forall (fun bn => (length (snd bn) <= 1)%nat) (Lb sw) ->
        In p M -> snd (pl sw p) <> [] -> T < fst (cb p) -> False.
      Proof.
        intros HF HL HS Hp N2 Hbig. rewrite Forall_forall in HS.
        destruct (short_bin _ (HS _ (proj2 (roles_in sw p Hp)))) as [E|(xx & E)]; [congruence|].
        destruct (pp_roles sw p Hp) as (_ & P2 & _ & T2).
        apply (cert_lower sw p xx); try assumption.
        - intros q Hq _. apply (pp_roles sw q Hq).
        - intros q Hq Hx Hc. destruct (roles_in sw q Hq) as [_ J2]. destruct (roles_gb sw q Hq) as [_ Gq].
          apply short_below; [exact Gq|exact (HS _ J2)|lia|exact Hc].
      Qed.

      (** neither entry has a large item in every bin: two items can meet only if both entries
          have at least two items *)
      Lemma pp_nonunit sw p : hasempty (Ub sw) -> In p M -> snd (fst p) <> [] -> snd (snd p) <> [] ->
        nonunit (Lb sw).
      Proof.
        intros (bn0 & I0 & E0) Hp N1 N2.
        assert (N : snd (pu sw p) <> [] /\ snd (pl sw p) <> []) by (destruct sw; cbn [pu pl]; split; assumption).
        destruct (roles_has sw bn0 I0) as (p1 & Hp1 & F1).
        destruct (roles_gb sw p1 Hp1) as [G1 G1']. destruct (roles_gb sw p Hp) as [Gp Gp'].
        destruct (pp_roles sw p Hp) as (P1 & P2 & _).
        pose proof (pureb_pos _ Gp P1 (proj1 N)) as Pos1. pose proof (pureb_pos _ Gp' P2 (proj2 N)) as Pos2.
        assert (Z1 : fst (pu sw p1) = 0) by (apply gb_empty; [exact G1|rewrite F1; exact E0]).
        assert (N3 : snd (pl sw p1) <> []).
        { intros E. pose proof (gb_empty _ G1' E) as Z2.
          destruct (roles_AM sw p p1 Hp Hp1) as [[H1 H2]|[H1 H2]]; lia. }
        assert (Hne : p <> p1) by (intros E; subst p1; rewrite F1 in N; apply (proj1 N); exact E0).
        unfold nonunit. rewrite <- (roles_contents sw).
        destruct (in_two p p1 M Hp Hp1 Hne) as (l1 & l2 & l3 & [E|E]); rewrite E, map_app; cbn [map];
          rewrite map_app; cbn [map]; apply contents_two; try assumption; apply N.
      Qed.

      Lemma W_all_eq v l : T < v + v -> Forall (fun z => z = v) l -> W T v l = 2 * Z.of_nat (length l).
      Proof.
        intros Hv. induction 1 as [|z t Hz Ht IH]; [reflexivity|]. subst z. rewrite W_cons, IH. cbn [length].
        unfold wx. destruct (v <? v) eqn:E1; [lia|]. destruct (T <? v + v) eqn:E2; lia.
      Qed.

      (** all items equal *)
      Lemma pp_eq p : nonfullL a -> nonfullL f -> In p M -> snd (fst p) <> [] -> snd (snd p) <> [] ->
        T < fst (cb p) -> False.
      Proof.
        intros Na Nf Hp N1 N2 Hbig.
        pose proof (nonfull_pure_empty a Pa Na) as Ea. pose proof (nonfull_pure_empty f Pf Nf) as Ef.
        pose proof (proj1 Raf Na (pp_nonunit false p Ea Hp N1 N2)) as Laf.
        pose proof (proj1 Rfa Nf (pp_nonunit true p Ef Hp N1 N2)) as Lfa.
        pose proof (proj2 Pa Ea) as Sa. pose proof (proj2 Pf Ef) as Sf. rewrite Forall_forall in Sa, Sf.
        destruct (M_in p Hp) as [I1 I2]. destruct (M_gb p Hp) as [G1 G2].
        destruct (short_bin _ (Sa _ I1)) as [E|(uu & E1)]; [congruence|].
        destruct (short_bin _ (Sf _ I2)) as [E|(ww & E2)]; [congruence|].
        destruct (pp_pure p Hp) as (P1 & P2 & _).
        destruct (single_large a _ uu I1 G1 P1 E1) as (_ & _ & Hu & Iu).
        destruct (single_large f _ ww I2 G2 P2 E2) as (_ & _ & Hw & Iw).
        set (u := valueof uu) in *. set (w := valueof ww) in *.
        pose proof (lower_antisym a f u w Laf Lfa Iu Iw Hu Hw) as Euw.
        assert (Hbig2 : T < u + u).
        { rewrite fst_cb, (gb_single _ _ G1 E1), (gb_single _ _ G2 E2) in Hbig. fold u w in Hbig. lia. }
        assert (Hne : forall q, In q M -> snd (cb q) <> []).
        { intros q Hq E. assert (He : hasempty c) by (exists (cb q); split; [rewrite c_map; apply in_map; exact Hq|exact E]).
          pose proof (pp_S1 He) as HS. rewrite Forall_forall in HS.
          specialize (HS (cb p) ltac:(rewrite c_map; apply in_map; exact Hp)).
          unfold cb, combine_bin in HS. cbn [snd] in HS. rewrite E1, E2 in HS. cbn in HS. lia. }
        assert (Heq : forall q, In q M -> Forall (fun z => z = u) (bv (fst q) ++ bv (snd q))).
        { intros q Hq. destruct (M_in q Hq) as [J1 J2]. apply Forall_app. split; apply Forall_forall; intros v Hv.
          - rewrite Euw. apply (lower_antisym a f v w Laf Lfa); try assumption; [apply (allv_in _ (fst q)); assumption|].
            apply (pure_item_large (fst q)); [apply (PUk_bin a _ Pa J1)|exact Hv].
          - symmetry. apply (lower_antisym a f u v Laf Lfa); try assumption; [apply (allv_in _ (snd q)); assumption|].
            apply (pure_item_large (snd q)); [apply (PUk_bin f _ Pf J2)|exact Hv]. }
        assert (Hall : Forall (fun q => 2 <= W T u (bv (fst q) ++ bv (snd q))) M).
        { apply Forall_forall. intros q Hq. rewrite (W_all_eq u _ Hbig2 (Heq q Hq)).
          specialize (Hne q Hq). rewrite <- bv_cb. unfold bv. rewrite map_length.
          destruct (snd (cb q)); [congruence|cbn [length]; lia]. }
        apply (cert_sum u p Hu Hp Hall).
        rewrite (W_all_eq u _ Hbig2 (Heq p Hp)), (single_bv _ _ E1), (single_bv _ _ E2). cbn. lia.
      Qed.

      Lemma exact_short (b : bins A) : PUk b -> length b = k -> fullL b -> nLt b <= Z.of_nat k ->
        Forall (fun bn => (length (snd bn) <= 1)%nat) b.
      Proof.
        intros Pb HL Fb Hc. rewrite <- HL in Hc. pose proof (fullL_exact b Fb Hc) as Hx.
        rewrite Forall_forall in *. intros bn Hbn. specialize (Hx bn Hbn).
        rewrite (pureb_nLb bn (proj1 (PUk_bin b bn Pb Hbn))) in Hx. lia.
      Qed.

      Lemma pp_le p : In p M -> fst (cb p) <= T.
      Proof.
        intros Hp. destruct (pp_pure p Hp) as (P1 & P2 & T1 & T2). destruct (M_gb p Hp) as [G1 G2].
        destruct (snd (fst p)) eqn:E1; [rewrite fst_cb, (gb_empty _ G1 E1); lia|].
        destruct (snd (snd p)) eqn:E2; [rewrite fst_cb, (gb_empty _ G2 E2); lia|].
        destruct (Z_le_gt_dec (fst (cb p)) T) as [Hle|Hgt]; [exact Hle|exfalso].
        assert (N1 : snd (fst p) <> []) by (rewrite E1; discriminate).
        assert (N2 : snd (snd p) <> []) by (rewrite E2; discriminate).
        pose proof (proj1 Ga) as La. pose proof (proj1 Gf) as Lf.
        destruct (full_or_not a) as [Na|Fa]; destruct (full_or_not f) as [Nf|Ff].
        - apply (pp_eq p); try assumption. lia.
        - apply (pp_full true p); cbn [Ub Lb pu pl]; try assumption; [|apply (proj2 Pa); apply nonfull_pure_empty; assumption|lia].
          apply (proj1 Raf Na). apply fullL_nonunit; assumption.
        - apply (pp_full false p); cbn [Ub Lb pu pl]; try assumption; [|apply (proj2 Pf); apply nonfull_pure_empty; assumption|lia].
          apply (proj1 Rfa Nf). apply fullL_nonunit; assumption.
        - pose proof (fullL_count a Fa) as Ca. pose proof (fullL_count f Ff) as Cf. rewrite La in Ca. rewrite Lf in Cf.
          destruct (proj2 Raf Fa Ff) as [L|L].
          + apply (pp_full true p); cbn [Ub Lb pu pl]; try assumption; [|lia].
            apply exact_short; try assumption. lia.
          + apply (pp_full false p); cbn [Ub Lb pu pl]; try assumption; [|lia].
            apply exact_short; try assumption. lia.
      Qed.

      Lemma pp_PUk : PUk c.
      Proof.
        split; [|exact pp_S1]. rewrite c_map, Forall_map. apply Forall_forall. intros p Hp.
        destruct (pp_pure p Hp) as (P1 & P2 & _). split; [apply pureb_cb; assumption|apply pp_le; exact Hp].
      Qed.
    End PP.

    Lemma bmin_nonneg (b : bins A) : gbs b -> b <> [] -> 0 <= bmin b.
    Proof.
      intros Hg Hne. assert (Hs : sums b <> []) by (unfold sums; intros E; apply map_eq_nil in E; exact (Hne E)).
      pose proof (zmin_in (sums b) Hs) as Hin. fold (bmin b) in Hin. unfold sums in Hin.
      apply in_map_iff in Hin. destruct Hin as (bn & E & Hbn). rewrite <- E.
      unfold gbs in Hg. rewrite Forall_forall in Hg. apply gb_nonneg, Hg, Hbn.
    Qed.

    Lemma contents_nonempty_bin (b : bins A) : contents b <> [] -> exists bn, In bn b /\ snd bn <> [].
    Proof.
      induction b as [|bn b IH]; [intros H; exfalso; apply H; reflexivity|].
      change (contents (bn :: b)) with (snd bn ++ contents b). intros H.
      destruct (snd bn) eqn:E.
      - cbn [app] in H. destruct (IH H) as (bn' & Hin & Hne). exists bn'. split; [right; exact Hin|exact Hne].
      - exists bn. split; [left; reflexivity|rewrite E; discriminate].
    Qed.

    (** a first entry that may hold small items absorbs an entry of large items with a small spread *)
    Section BS.
      Hypothesis Ba : Bk a.
      Hypothesis Pf : PUk f.
      Hypothesis Hsp : sp (sums f) <= G.
      Hypothesis Hne : contents f <> [].
      Hypothesis Raf : rel1 a f.

      Lemma bs_f_nonempty bn : In bn f -> snd bn <> [].
      Proof.
        intros Hin E. destruct (contents_nonempty_bin f Hne) as (bn1 & Hin1 & Hne1).
        destruct Gf as (_ & _ & Bf). unfold gbs in Bf. rewrite Forall_forall in Bf.
        pose proof (gb_empty _ (Bf _ Hin) E) as Z0.
        pose proof (pureb_pos _ (Bf _ Hin1) (proj1 (PUk_bin f _ Pf Hin1)) Hne1) as Pos.
        pose proof (sp_ge f bn1 bn Hin1 Hin). lia.
      Qed.

      Lemma bs_f_full : fullL f.
      Proof.
        apply Forall_forall. intros bn Hin. rewrite (pureb_nLb bn (proj1 (PUk_bin f _ Pf Hin))).
        pose proof (bs_f_nonempty bn Hin). destruct (snd bn); [congruence|cbn [length]; lia].
      Qed.

      Lemma bs_f_count : Z.of_nat k <= nLt f.
      Proof. pose proof (fullL_count f bs_f_full) as H. rewrite (proj1 Gf) in H. exact H. Qed.

      Lemma bs_a_ne : a <> [].
      Proof. intros E. pose proof (proj1 Ga) as L. rewrite E in L. cbn in L. lia. Qed.

      (** the entry of large items is above the large items of the first entry *)
      Lemma bs_upper p : lower a f -> In p M -> G < fst (fst p) - bmin a -> pureb (fst p) -> fst (fst p) <= T ->
        T < fst (cb p) -> False.
      Proof.
        intros HL Hp Hnl P1 T1 Hbig. destruct (M_in p Hp) as [I1 _]. destruct (M_gb p Hp) as [G1 _].
        pose proof bs_f_count as Cf. destruct Ba as [Ok B2].
        assert (B2' : Forall (fun bn => nLb bn <= 1) a) by (apply B2; lia).
        rewrite Forall_forall in B2', Ok.
        pose proof (bmin_nonneg a (proj2 (proj2 Ga)) bs_a_ne) as Hm.
        assert (Hshort : forall bn, In bn a -> pureb bn -> (length (snd bn) <= 1)%nat).
        { intros bn Hbn Pb. pose proof (B2' bn Hbn) as H. rewrite (pureb_nLb bn Pb) in H. lia. }
        destruct (short_bin _ (Hshort _ I1 P1)) as [E|(xx & E)]; [rewrite (gb_empty _ G1 E) in Hnl; lia|].
        apply (cert_lower true p xx); cbn [pu pl Ub Lb]; try assumption.
        - exact bs_f_full.
        - intros q Hq _. apply (PUk_bin f _ Pf), (M_in q Hq).
        - intros q Hq Hx Hc. destruct (M_in q Hq) as [J1 _]. destruct (M_gb q Hq) as [Gq _].
          destruct (Ok _ J1) as [Hlow|[Pq Tq]].
          + unfold lowb in Hlow. rewrite (gb_single _ _ G1 E) in Hnl. lia.
          + apply short_below; [exact Gq|exact (Hshort _ J1 Pq)|lia|exact Hc].
      Qed.

      (** the first entry has a large item in every bin and is above the entry of large items *)
      Lemma bs_lower p : lower f a -> fullL a -> In p M -> G < fst (fst p) - bmin a -> T < fst (cb p) -> False.
      Proof.
        intros HL Fa Hp Hnl Hbig. destruct (M_in p Hp) as [_ I2].
        pose proof (fullL_count a Fa) as Ca. rewrite (proj1 Ga) in Ca. destruct Ba as [Ok _].
        rewrite Forall_forall in Ok.
        assert (HS : Forall (fun bn => (length (snd bn) <= 1)%nat) f).
        { apply exact_short; [exact Pf|apply Gf|exact bs_f_full|lia]. }
        rewrite Forall_forall in HS.
        destruct (short_bin _ (HS _ I2)) as [E|(xx & E)]; [exfalso; exact (bs_f_nonempty _ I2 E)|].
        destruct (PUk_bin f _ Pf I2) as [P2 T2].
        apply (cert_lower false p xx); cbn [pu pl Ub Lb]; try assumption.
        - intros q Hq Hle. destruct (Ok _ (proj1 (M_in q Hq))) as [Hlow|[Pq _]]; [unfold lowb in Hlow; lia|exact Pq].
        - intros q Hq Hx Hc. destruct (M_in q Hq) as [_ J2]. destruct (M_gb q Hq) as [_ Gq].
          apply short_below; [exact Gq|exact (HS _ J2)|lia|exact Hc].
      Qed.

      Lemma bs_ok p : In p M -> okb c (cb p).
      Proof.
        intros Hp. destruct (M_in p Hp) as [I1 I2]. pose proof (proj1 Ba) as Ok. rewrite Forall_forall in Ok.
        destruct (Z_le_gt_dec (fst (fst p) - bmin a) G) as [Hlow|Hnl].
        { left. apply low_stays; assumption. }
        destruct (Ok _ I1) as [Hlow|[P1 T1]]; [unfold lowb in Hlow; lia|].
        right. split; [apply pureb_cb; [exact P1|apply (PUk_bin f _ Pf I2)]|].
        destruct (Z_le_gt_dec (fst (cb p)) T) as [Hle|Hgt]; [exact Hle|exfalso].
        pose proof (fullL_nonunit f (proj1 Gf) bs_f_full) as Uf.
        destruct (full_or_not a) as [Na|Fa].
        - apply (bs_upper p); try assumption; [apply (proj1 Raf Na Uf)|lia|lia].
        - destruct (proj2 Raf Fa bs_f_full) as [L|L].
          + apply (bs_upper p); try assumption; lia.
          + apply (bs_lower p); try assumption; lia.
      Qed.

      Lemma bs_Bk : Bk c.
      Proof.
        split.
        - rewrite c_map, Forall_map. apply Forall_forall. intros p Hp. rewrite <- c_map. apply bs_ok. exact Hp.
        - intros Hc. rewrite c_nLt in Hc. pose proof bs_f_count as Cf. pose proof (nLt_nonneg a) as Na.
          assert (Za : Forall (fun bn => nLb bn = 0) a).
          { apply all_zero; [apply Forall_forall; intros bn _; apply nLb_nonneg|rewrite <- nLt_sum; lia]. }
          assert (Of : Forall (fun bn => nLb bn = 1) f).
          { apply fullL_exact; [exact bs_f_full|rewrite (proj1 Gf); lia]. }
          rewrite Forall_forall in Za, Of. rewrite c_map, Forall_map. apply Forall_forall. intros p Hp.
          destruct (M_in p Hp) as [I1 I2]. rewrite nLb_cb, (Za _ I1), (Of _ I2). lia.
      Qed.
    End BS.
  End Merge.

  (** ---- 5. absorbing a single small item ---- *)
  Definition unitbins (x : A) : bins A := repeat empty_bin (k - 1) ++ [(valueof x, [x])].

  Lemma combine_bin_empty (bn : bin A) : combine_bin bn empty_bin = bn.
  Proof. destruct bn as [z l]. unfold combine_bin, empty_bin. cbn [fst snd]. rewrite app_nil_r. f_equal. lia. Qed.

  Lemma zip_combine_empty : forall (b : bins A) n, zip_combine b (repeat empty_bin n) = b.
  Proof.
    induction b as [|bn b IH]; intros [|n]; cbn [repeat zip_combine]; try reflexivity.
    rewrite combine_bin_empty, IH. reflexivity.
  Qed.

  Lemma combine_unit (a1 : bin A) (a' : bins A) x :
    kk_combine (a1 :: a') (unitbins x) = (fst a1 + valueof x, snd a1 ++ [x]) :: a'.
  Proof.
    unfold kk_combine, unitbins. rewrite rev_app_distr, rev_repeat. cbn [rev app zip_combine].
    rewrite zip_combine_empty. reflexivity.
  Qed.

  Lemma abs_Bk (a : bins A) x : good a -> Bk a -> 0 <= valueof x <= G -> Bk (kk_combine a (unitbins x)).
  Proof.
    intros (La & Sa & Ba) [Ok B2] Hx. destruct a as [|a1 a']; [cbn in La; lia|].
    rewrite combine_unit. set (y := valueof x) in *. set (nb := (fst a1 + y, snd a1 ++ [x]) : bin A).
    match goal with |- Bk ?l => set (cl := l) end.
    assert (Em : bmin (a1 :: a') = fst a1) by (unfold bmin, sums; cbn [map]; symmetry; exact (hd_sorted_zmin _ Sa)).
    assert (Hmin : fst a1 <= bmin cl).
    { unfold bmin. apply zmin_glb; [discriminate|]. unfold cl, sums. cbn [map]. constructor; [cbn; lia|].
      unfold sums in Sa. cbn [map] in Sa. inversion Sa as [|z t _ Hz]; subst. exact Hz. }
    assert (Enb : nLb nb = nLb a1).
    { unfold nLb, nb, bv. cbn [snd]. rewrite map_app, cnt_gt_app. cbn [map]. fold y.
      unfold cnt_gt. cbn. unfold ind_gt. destruct (G <? y) eqn:E; lia. }
    assert (Ent : nLt cl = nLt (a1 :: a')) by (unfold cl; rewrite !nLt_cons, Enb; reflexivity).
    apply Forall_cons_iff in Ok. destruct Ok as [Ok1 Ok']. split.
    - change (Forall (okb cl) (nb :: a')). constructor.
      + left. unfold lowb. change (fst nb) with (fst a1 + y). lia.
      + eapply Forall_impl; [|exact Ok']. intros bn [Hl|Hp]; [left|right; exact Hp].
        unfold lowb in *. rewrite Em in Hl. lia.
    - rewrite Ent. intros Hc. specialize (B2 Hc).
      apply Forall_cons_iff in B2. destruct B2 as [B21 B2']. change (Forall (fun bn => nLb bn <= 1) (nb :: a')).
      constructor; [lia|exact B2'].
  Qed.

  Lemma unitbins_good x : 0 <= valueof x -> good (unitbins x).
  Proof.
    intros Hx. unfold good, unitbins. split; [|split].
    - rewrite app_length, repeat_length. cbn [length]. lia.
    - unfold sums. rewrite map_app, map_repeat_eq. cbn [map fst empty_bin]. apply unit_sorted. exact Hx.
    - unfold gbs. apply Forall_app. split.
      + apply Forall_forall. intros bn Hbn. apply repeat_spec in Hbn. subst bn. split; [reflexivity|constructor].
      + constructor; [|constructor]. split; [cbn; lia|constructor; [exact Hx|constructor]].
  Qed.

  Lemma unitbins_allv x : allv (unitbins x) = [valueof x].
  Proof.
    unfold unitbins. rewrite allv_app. replace (allv (repeat empty_bin (k - 1))) with (@nil Z).
    - reflexivity.
    - induction (k - 1)%nat as [|n IH]; [reflexivity|]. cbn [repeat]. rewrite allv_cons. exact IH.
  Qed.

  (** ---- 6. the relations between entries ---- *)
  Definition Rel (b b' : bins A) : Prop := rel1 b b' /\ rel1 b' b.

  Lemma Rel_sym b b' : Rel b b' -> Rel b' b.
  Proof. intros [H1 H2]. split; assumption. Qed.

  Lemma lower_nolarge_l (b b' : bins A) : nLt b <= 0 -> lower b b'.
  Proof. intros H v v' Hv _ Hg _. pose proof (cnt_gt_in G v (allv b) Hv Hg). unfold nLt in H. lia. Qed.

  Lemma lower_nolarge_r (b b' : bins A) : nLt b' <= 0 -> lower b b'.
  Proof. intros H v v' _ Hv' _ Hg. pose proof (cnt_gt_in G v' (allv b') Hv' Hg). unfold nLt in H. lia. Qed.

  Lemma lower_union_l (c a f r : bins A) : Permutation (allv c) (allv a ++ allv f) ->
    lower a r -> lower f r -> lower c r.
  Proof.
    intros P H1 H2 v v' Hv Hv'. pose proof (Permutation_in _ P Hv) as Hv2. apply in_app_or in Hv2.
    destruct Hv2 as [Hv2|Hv2]; [apply H1|apply H2]; assumption.
  Qed.

  Lemma lower_union_r (c a f r : bins A) : Permutation (allv c) (allv a ++ allv f) ->
    lower r a -> lower r f -> lower r c.
  Proof.
    intros P H1 H2 v v' Hv Hv'. pose proof (Permutation_in _ P Hv') as Hv2. apply in_app_or in Hv2.
    destruct Hv2 as [Hv2|Hv2]; [apply H1|apply H2]; assumption.
  Qed.

  Lemma rel_merge (a f r c : bins A) : length r = k -> length a = k -> length f = k ->
    Permutation (allv c) (allv a ++ allv f) -> (nonfullL c -> nonfullL a /\ nonfullL f) ->
    Rel a r -> Rel f r -> nLt a + nLt f + nLt r <= 2 * Z.of_nat k ->
    (nonfullL r -> ~ nonunit a -> lower r a) -> (nonfullL r -> ~ nonunit f -> lower r f) -> Rel c r.
  Proof.
    intros Lr La Lf P Hnf [Rar Rra] [Rfr Rrf] Hc Ua Uf.
    pose proof (nLt_nonneg a) as Na. pose proof (nLt_nonneg f) as Nf. pose proof (nLt_nonneg r) as Nr.
    assert (Hboth : fullL r -> (lower c r \/ lower r c)).
    { intros Fr. pose proof (fullL_count r Fr) as Cr. rewrite Lr in Cr.
      destruct (full_or_not a) as [Hna|Fa].
      - destruct (full_or_not f) as [Hnf'|Ff].
        + left. pose proof (fullL_nonunit r Lr Fr) as Ur.
          apply (lower_union_l c a f r P); [apply (proj1 Rar Hna Ur)|apply (proj1 Rfr Hnf' Ur)].
        + pose proof (fullL_count f Ff) as Cf. rewrite Lf in Cf.
          destruct (proj2 Rfr Ff Fr) as [L|L].
          * left. apply (lower_union_l c a f r P); [apply lower_nolarge_l; lia|exact L].
          * right. apply (lower_union_r c a f r P); [apply lower_nolarge_r; lia|exact L].
      - pose proof (fullL_count a Fa) as Ca. rewrite La in Ca.
        destruct (proj2 Rar Fa Fr) as [L|L].
        + left. apply (lower_union_l c a f r P); [exact L|apply lower_nolarge_l; lia].
        + right. apply (lower_union_r c a f r P); [exact L|apply lower_nolarge_r; lia]. }
    split; split.
    - intros Hn Ur. destruct (Hnf Hn) as [Hna Hnf']. apply (lower_union_l c a f r P); [apply (proj1 Rar Hna Ur)|apply (proj1 Rfr Hnf' Ur)].
    - intros _ Fr. apply Hboth. exact Fr.
    - intros Hn _. apply (lower_union_r c a f r P).
      + destruct (le_lt_dec 2 (length (contents a))) as [H|H]; [apply (proj1 Rra Hn H)|apply Ua; [exact Hn|unfold nonunit; lia]].
      + destruct (le_lt_dec 2 (length (contents f))) as [H|H]; [apply (proj1 Rrf Hn H)|apply Uf; [exact Hn|unfold nonunit; lia]].
    - intros Fr _. destruct (Hboth Fr) as [L|L]; [right|left]; exact L.
  Qed.

  Lemma combine_nonfull (a f : bins A) : good a -> good f -> nonfullL (kk_combine a f) -> nonfullL a /\ nonfullL f.
  Proof.
    intros Ga Gf (bn & Hin & E). rewrite (c_map a f Ga Gf) in Hin. apply in_map_iff in Hin.
    destruct Hin as (p & Ep & Hp). subst bn. rewrite nLb_cb in E.
    pose proof (nLb_nonneg (fst p)). pose proof (nLb_nonneg (snd p)). destruct (M_in a f p Hp) as [I1 I2].
    split; [exists (fst p)|exists (snd p)]; split; try assumption; lia.
  Qed.

  (** an entry with at most one item is above the large items of a clean entry of smaller spread
      that has an empty bin *)
  Lemma unit_lower (r a : bins A) : PUk r -> nonfullL r -> gbs r -> gbs a -> a <> [] ->
    ~ nonunit a -> sp (sums r) <= sp (sums a) -> lower r a.
  Proof.
    intros Pr Nr Gr Ga Hna Ua Hsp v v' Hv Hv' Hg Hg'.
    (* v <= spread of r *)
    destruct (nonfull_pure_empty r Pr Nr) as (bn0 & I0 & E0).
    destruct (allv_in_inv r v Hv) as (bn & Hbn & Hvb).
    unfold gbs in Gr, Ga. rewrite Forall_forall in Gr, Ga.
    pose proof (gb_ge_item bn v (Gr _ Hbn) Hvb) as H1. pose proof (gb_empty _ (Gr _ I0) E0) as H2.
    pose proof (sp_ge r bn bn0 Hbn I0) as H3.
    (* spread of a <= v' *)
    assert (Ea : allv a = [v']).
    { unfold nonunit in Ua. unfold allv in *. destruct (contents a) as [|x [|y t]]; cbn [length] in Ua; [destruct Hv'| |lia].
      cbn [map] in *. destruct Hv' as [E|[]]. rewrite E. reflexivity. }
    assert (Hs : zsum (sums a) = v').
    { assert (Hw : wf valueof a) by (unfold wf; apply Forall_forall; intros b Hb; apply (proj1 (Ga _ Hb))).
      rewrite (wf_total valueof a Hw). fold (allv a). rewrite Ea. cbn. lia. }
    assert (Hpos : Forall (fun z => 0 <= z) (sums a)).
    { unfold sums. rewrite Forall_map. apply Forall_forall. intros b Hb. apply gb_nonneg, Ga, Hb. }
    assert (Hne : sums a <> []) by (unfold sums; intros E; apply map_eq_nil in E; exact (Hna E)).
    pose proof (zmax_le_zsum _ Hpos) as H4.
    assert (H5 : 0 <= zmin (sums a)) by (apply zmin_glb; assumption).
    unfold sp in Hsp, H3. lia.
  Qed.

  (** ---- 7. the heap invariant ---- *)
  Variable items : list A.
  Hypothesis HWi : forall x, G < x -> W T x (map valueof items) <= 2 * Z.of_nat k.
  Hypothesis HCi : cnt_gt G (map valueof items) <= 2 * Z.of_nat k.

  Notation sv e := (sums (snd e)).
  (** [hgood]: a well-formed entry holding an item; [SUk]: a single item of value <= G;
      [Struct]: the entries are pairwise in [Rel] and all [clean], or the first is [Bk] and the others are
      clean of spread <= G. *)
  Definition hgood (e : @hentry A) : Prop := base k e /\ gbs (snd e) /\ contents (snd e) <> [].
  Definition SUk (e : @hentry A) : Prop := exists x, snd e = unitbins x /\ 0 <= valueof x <= G.
  Definition clean (e : @hentry A) : Prop := SUk e \/ PUk (snd e).
  Definition RelE (e e' : @hentry A) : Prop := Rel (snd e) (snd e').
  Definition Struct (h : @heap A) : Prop :=
    PW RelE h /\
    (Forall clean h \/
     exists B rest, h = B :: rest /\ Bk (snd B) /\ Forall clean rest /\ Forall (small G) rest).
  Definition Inv43 (h : @heap A) : Prop :=
    Forall hgood h /\ heap_inv valueof k items h /\ keysorted h /\ (Forall (small G) h \/ Struct h).

  Lemma RelE_sym e e' : RelE e e' -> RelE e' e.
  Proof. apply Rel_sym. Qed.

  Lemma hgood_good e : hgood e -> good (snd e).
  Proof. intros (B & Gb & _). split; [apply (base_len_bins k e B)|split; [apply B|exact Gb]]. Qed.

  Lemma hgood_ne e : hgood e -> snd e <> [].
  Proof. intros H E. pose proof (proj1 (hgood_good e H)) as L. rewrite E in L. cbn in L. lia. Qed.

  Lemma small_sp e : hgood e -> (small G e <-> sp (sv e) <= G).
  Proof.
    intros H. split.
    - intros Hs. apply spread_sp; [|exact Hs]. unfold sums. intros E. apply map_eq_nil in E. exact (hgood_ne e H E).
    - apply sp_spread.
  Qed.

  Lemma SU_sums x : sums (unitbins x) = repeat 0 (k - 1) ++ [valueof x].
  Proof. unfold unitbins, sums. rewrite map_app, map_repeat_eq. reflexivity. Qed.

  Lemma SU_small e : SUk e -> sp (sv e) <= G.
  Proof. intros (x & E & Hx). rewrite E, SU_sums. pose proof (unit_spread (k - 1) (valueof x) ltac:(lia)). lia. Qed.

  Lemma SU_nLt e : SUk e -> nLt (snd e) = 0.
  Proof.
    intros (x & E & Hx). rewrite E. unfold nLt. rewrite unitbins_allv. unfold cnt_gt. cbn. unfold ind_gt.
    destruct (G <? valueof x) eqn:E1; lia.
  Qed.

  (** the new entry *)
  Definition newe (a f : @hentry A) : @hentry A := pushed (kk_combine (snd a) (snd f)).

  Lemma newe_perm a f : Permutation (snd (newe a f)) (kk_combine (snd a) (snd f)).
  Proof. unfold newe, pushed. cbn [snd]. apply sort_bins_perm. Qed.

  Lemma newe_hgood a f : hgood a -> hgood f -> hgood (newe a f).
  Proof.
    intros Ha Hf. pose proof (hgood_good a Ha) as Ga. pose proof (hgood_good f Hf) as Gf.
    split; [apply new_base; [apply Ha|apply Hf]|split].
    - apply (gbs_perm (kk_combine (snd a) (snd f))); [symmetry; apply newe_perm|apply c_gbs; assumption].
    - intros E. pose proof (contents_perm _ _ (newe_perm a f)) as P. rewrite E in P.
      pose proof (kk_combine_contents (snd a) (snd f) (len_af _ _ Ga Gf)) as P2.
      pose proof (Permutation_length P) as L1. pose proof (Permutation_length P2) as L2.
      rewrite app_length in L2. cbn [length] in L1. destruct Ha as (_ & _ & Na).
      destruct (contents (snd a)); [congruence|cbn [length] in L2; lia].
  Qed.

  Lemma newe_allv a f : hgood a -> hgood f -> Permutation (allv (snd (newe a f))) (allv (snd a) ++ allv (snd f)).
  Proof.
    intros Ha Hf. rewrite (allv_perm _ _ (newe_perm a f)). apply c_allv; apply hgood_good; assumption.
  Qed.

  (** weights and counts of the two first entries *)
  Lemma heap_contents_in (r : @hentry A) h : In r h ->
    exists l1 l2, Permutation (heap_contents h) (contents (snd r) ++ l1 ++ l2).
  Proof.
    intros Hin. destruct (in_split r h Hin) as (h1 & h2 & E). subst h.
    exists (heap_contents h1), (heap_contents h2).
    rewrite (heap_contents_perm _ _ (Permutation_sym (Permutation_middle h1 h2 r))), heap_contents_cons.
    apply Permutation_app_head. unfold heap_contents. rewrite map_app, concat_app. reflexivity.
  Qed.

  Lemma top_W a f rest x : heap_inv valueof k items (a :: f :: rest) -> G < x ->
    W T x (allv (snd a)) + W T x (allv (snd f)) <= 2 * Z.of_nat k.
  Proof.
    intros [_ P] Hx. specialize (HWi x Hx). rewrite <- (W_perm T x _ _ (Permutation_map valueof P)) in HWi.
    rewrite !heap_contents_cons, !map_app, !W_app in HWi. fold (allv (snd a)) (allv (snd f)) in HWi.
    pose proof (W_nonneg T x (map valueof (heap_contents rest))). lia.
  Qed.

  Lemma top_C a f rest : heap_inv valueof k items (a :: f :: rest) ->
    nLt (snd a) + nLt (snd f) <= 2 * Z.of_nat k /\
    forall r, In r rest -> nLt (snd a) + nLt (snd f) + nLt (snd r) <= 2 * Z.of_nat k.
  Proof.
    intros [_ P]. rewrite <- (cnt_gt_perm G _ _ (Permutation_map valueof P)) in HCi.
    rewrite !heap_contents_cons, !map_app, !cnt_gt_app in HCi. fold (allv (snd a)) (allv (snd f)) in HCi.
    fold (nLt (snd a)) (nLt (snd f)) in HCi. split.
    - pose proof (cnt_gt_bounds G (map valueof (heap_contents rest))). lia.
    - intros r Hr. destruct (heap_contents_in r rest Hr) as (l1 & l2 & P2).
      rewrite (cnt_gt_perm G _ _ (Permutation_map valueof P2)), !map_app, !cnt_gt_app in HCi.
      fold (allv (snd r)) in HCi. fold (nLt (snd r)) in HCi.
      pose proof (cnt_gt_bounds G (map valueof l1)). pose proof (cnt_gt_bounds G (map valueof l2)). lia.
  Qed.

  Lemma sorted_sp (e r : @hentry A) h : keysorted (e :: h) -> hgood e -> hgood r -> In r h -> sp (sv r) <= sp (sv e).
  Proof.
    intros HS He Hr Hin. destruct (keysorted_tail e h HS) as [_ HF]. rewrite Forall_forall in HF.
    specialize (HF r Hin). destruct He as ((_ & _ & Ke) & _). destruct Hr as ((_ & _ & Kr) & _). lia.
  Qed.

  Lemma sorted_small (e : @hentry A) h : keysorted (e :: h) -> Forall hgood (e :: h) -> sp (sv e) <= G ->
    Forall (small G) (e :: h).
  Proof.
    intros HS HG He. rewrite Forall_forall in *. intros r Hr. apply (small_sp r (HG r Hr)).
    destruct Hr as [<-|Hr]; [exact He|].
    pose proof (sorted_sp e r h HS (HG e (or_introl eq_refl)) (HG r (or_intror Hr)) Hr). lia.
  Qed.

  (** relations of the new entry with the others *)
  Lemma newe_rel a f rest : Forall hgood (a :: f :: rest) -> heap_inv valueof k items (a :: f :: rest) ->
    keysorted (a :: f :: rest) -> PW RelE (a :: f :: rest) -> Forall clean rest ->
    Forall (RelE (newe a f)) rest.
  Proof.
    intros HG HI HS HP HC.
    pose proof (Forall_inv HG) as Ha. pose proof (Forall_inv (Forall_inv_tail HG)) as Hf.
    pose proof (Forall_inv_tail (Forall_inv_tail HG)) as Hr.
    destruct HP as [Pa [Pf _]]. apply Forall_cons_iff in Pa. destruct Pa as [_ Pa].
    destruct (top_C a f rest HI) as [_ Hcnt].
    pose proof (hgood_good a Ha) as Ga. pose proof (hgood_good f Hf) as Gf.
    rewrite Forall_forall in *. intros r Hin.
    pose proof (hgood_good r (Hr r Hin)) as Gr.
    assert (Hlow : forall e, hgood e -> sp (sv r) <= sp (sv e) -> nonfullL (snd r) -> ~ nonunit (snd e) -> lower (snd r) (snd e)).
    { intros e He Hsp Hn Hu. destruct (HC r Hin) as [Hsu|Hpu].
      - apply lower_nolarge_l. rewrite (SU_nLt r Hsu). lia.
      - apply unit_lower; try assumption; [apply (Hr r Hin)|apply He|apply hgood_ne; exact He]. }
    apply (rel_merge (snd a) (snd f) (snd r) (snd (newe a f))).
    - apply Gr.
    - apply Ga.
    - apply Gf.
    - apply newe_allv; assumption.
    - intros Hn. apply combine_nonfull; try assumption. eapply nonfullL_perm; [apply newe_perm|exact Hn].
    - apply Pa. exact Hin.
    - apply Pf. exact Hin.
    - apply Hcnt. exact Hin.
    - apply (Hlow a Ha). apply (sorted_sp a r (f :: rest)); [exact HS|exact Ha|apply (Hr r Hin)|right; exact Hin].
    - apply (Hlow f Hf). destruct (keysorted_tail a _ HS) as [HS' _].
      apply (sorted_sp f r rest); [exact HS'|exact Hf|apply (Hr r Hin)|exact Hin].
  Qed.

  Lemma finish_dirty new rest : hgood new -> Forall hgood rest -> Bk (snd new) -> Forall clean rest ->
    Forall (small G) rest -> PW RelE rest -> Forall (RelE new) rest ->
    Forall (small G) (heap_insert new rest) \/ Struct (heap_insert new rest).
  Proof.
    intros Hn Hr HB HC HSm HP HR. destruct (Z_le_gt_dec (sp (sv new)) G) as [Hs|Hb].
    - left. apply heap_insert_Forall; [exact HSm|]. apply (small_sp new Hn). exact Hs.
    - right. rewrite heap_insert_front.
      + split; [split; assumption|]. right. exists new, rest. split; [reflexivity|split; [exact HB|split; assumption]].
      + rewrite Forall_forall in *. intros y Hy. pose proof (proj1 (small_sp y (Hr y Hy)) (HSm y Hy)) as Hy2.
        destruct Hn as ((_ & _ & Kn) & _). destruct (Hr y Hy) as ((_ & _ & Ky) & _). lia.
  Qed.

  Lemma step_Inv43 a f rest : Inv43 (a :: f :: rest) -> Inv43 (heap_push rest (kk_combine (snd a) (snd f))).
  Proof.
    intros (HG & HI & HS & Hcase).
    pose proof (kk_step_inv valueof k items a f rest HI) as HI'.
    rewrite heap_push_pushed in *. fold (newe a f) in *.
    pose proof (Forall_inv HG) as Ha. pose proof (Forall_inv (Forall_inv_tail HG)) as Hf.
    pose proof (Forall_inv_tail (Forall_inv_tail HG)) as Hr.
    pose proof (newe_hgood a f Ha Hf) as Hnew.
    destruct (keysorted_tail a _ HS) as [HS1 _]. destruct (keysorted_tail f _ HS1) as [HS2 _].
    assert (HBase : Forall (base k) (a :: f :: rest)).
    { eapply Forall_impl; [|exact HG]. intros e He. apply He. }
    assert (Hsmall : Forall (small G) (a :: f :: rest) -> Forall (small G) (heap_insert (newe a f) rest)).
    { intros H. pose proof (step_small G HG0 k a f rest HBase H) as H2. rewrite heap_push_pushed in H2. exact H2. }
    split; [apply heap_insert_Forall; assumption|split; [exact HI'|split; [apply heap_insert_sorted; exact HS2|]]].
    destruct Hcase as [Hsm|[HP Hform]]; [left; apply Hsmall; exact Hsm|].
    destruct (Z_le_gt_dec (sp (sv a)) G) as [Hsa|Hba]; [left; exact (Hsmall (sorted_small a _ HS HG Hsa))|].
    pose proof (hgood_good a Ha) as Ga. pose proof (hgood_good f Hf) as Gf.
    assert (HW : forall x, G < x -> W T x (allv (snd a)) + W T x (allv (snd f)) <= 2 * Z.of_nat k).
    { intros x Hx. apply (top_W a f rest x HI Hx). }
    destruct (top_C a f rest HI) as [HC _].
    assert (Raf : RelE a f). { destruct HP as [Pa _]. apply (Forall_inv Pa). }
    assert (HPr : PW RelE rest) by (apply (PW_tail RelE f), (PW_tail RelE a), HP).
    assert (Habs : forall x, snd f = unitbins x -> 0 <= valueof x <= G -> Bk (snd a) -> Bk (snd (newe a f))).
    { intros x E Hx HB. apply (Bk_perm (kk_combine (snd a) (snd f))); [symmetry; apply newe_perm|].
      rewrite E. apply abs_Bk; assumption. }
    assert (Hrsm : sp (sv f) <= G -> Forall (small G) rest).
    { intros Hsf. exact (Forall_inv_tail (sorted_small f rest HS1 (Forall_inv_tail HG) Hsf)). }
    destruct Hform as [Hall|(B & rest' & E & HB & Hcl & Hsm)].
    - pose proof (Forall_inv Hall) as Ca. pose proof (Forall_inv (Forall_inv_tail Hall)) as Cf.
      pose proof (Forall_inv_tail (Forall_inv_tail Hall)) as Cr.
      pose proof (newe_rel a f rest HG HI HS HP Cr) as HR.
      destruct Ca as [Sa|Pa]; [pose proof (SU_small a Sa); lia|].
      destruct Cf as [(x & Ex & Hx)|Pf].
      + apply finish_dirty; try assumption.
        * apply (Habs x Ex Hx). apply PUk_Bk; [apply Ga|exact Pa].
        * apply Hrsm. apply SU_small. exists x. split; assumption.
      + right. split.
        * apply PW_heap_insert; [intros u v; apply RelE_sym|exact HPr|exact HR].
        * left. apply heap_insert_Forall; [exact Cr|]. right.
          apply (PUk_perm (kk_combine (snd a) (snd f))); [symmetry; apply newe_perm|].
          apply pp_PUk; try assumption; [apply Raf|apply (RelE_sym _ _ Raf)].
    - injection E as E1 E2. subst B rest'.
      pose proof (Forall_inv Hcl) as Cf. pose proof (Forall_inv_tail Hcl) as Cr.
      pose proof (Forall_inv_tail Hsm) as Smr.
      pose proof (newe_rel a f rest HG HI HS HP Cr) as HR.
      apply finish_dirty; try assumption.
      destruct Cf as [(x & Ex & Hx)|Pf].
      + apply (Habs x Ex Hx HB).
      + apply (Bk_perm (kk_combine (snd a) (snd f))); [symmetry; apply newe_perm|].
        assert (Hspf : sp (sv f) <= G) by (apply (proj1 (small_sp f Hf)); apply (Forall_inv Hsm)).
        assert (Hcf : contents (snd f) <> []) by apply Hf.
        pose proof (proj1 Raf) as Raf1.
        apply bs_Bk; assumption.
  Qed.

  (** what the invariant says about a heap with a single entry *)
  Lemma Inv43_single (e : @hentry A) : Inv43 [e] -> zmax (sv e) <= T \/ zmax (sv e) - zmin (sv e) <= G.
  Proof.
    intros (HG & _ & _ & Hcase). pose proof (Forall_inv HG) as He.
    destruct Hcase as [Hsm|[_ Hform]].
    - right. change (sp (sv e) <= G). apply (proj1 (small_sp e He)). exact (Forall_inv Hsm).
    - assert (HB : sp (sv e) <= G \/ Bk (snd e)).
      { destruct Hform as [Hall|(B & rest' & E & HB & _)].
        - destruct (Forall_inv Hall) as [Su|Pu].
          + left. apply SU_small. exact Su.
          + right. apply PUk_Bk; [apply (hgood_good e He)|exact Pu].
        - injection E as E1 E2. subst B. right. exact HB. }
      destruct HB as [Hs|HB]; [right; exact Hs|].
      destruct (Z_le_gt_dec (zmax (sv e) - zmin (sv e)) G) as [Hle|Hgt]; [right; exact Hle|left].
      assert (Hne : sv e <> []) by (unfold sums; intros E; apply map_eq_nil in E; exact (hgood_ne e He E)).
      pose proof (zmax_in (sv e) Hne) as Hin. unfold sums in Hin. apply in_map_iff in Hin.
      destruct Hin as (bn & Ebn & Hbn). destruct HB as [Ok _]. rewrite Forall_forall in Ok.
      destruct (Ok bn Hbn) as [Hlow|[_ HT]].
      + unfold lowb, bmin in Hlow. unfold sums in *. lia.
      + unfold sums in *. lia.
  Qed.

  (** ---- 8. the initial heap ---- *)
  Definition isunit (e : @hentry A) : Prop :=
    exists x, e = pushed (singleton_bins valueof true k x) /\ snd e = unitbins x /\ 0 <= valueof x <= T.

  Lemma unitbins_sorted x : 0 <= valueof x -> key_sorted (@fst Z (list A)) (unitbins x).
  Proof.
    intros Hx. unfold key_sorted, unitbins. induction (k - 1)%nat as [|n IH]; cbn [repeat app]; [repeat constructor|].
    constructor; [exact IH|]. apply Forall_app. split.
    - apply Forall_forall. intros bn Hbn. apply repeat_spec in Hbn. subst bn. cbn. lia.
    - constructor; [cbn; lia|constructor].
  Qed.

  Lemma singleton_unitbins x : 0 <= valueof x -> snd (pushed (singleton_bins valueof true k x)) = unitbins x.
  Proof.
    intros Hx. unfold pushed. cbn [snd].
    assert (E : singleton_bins valueof true k x = unitbins x).
    { unfold singleton_bins, add_item, new_bins, unitbins.
      assert (Er : repeat (@empty_bin A) k = repeat empty_bin (k - 1) ++ [empty_bin]).
      { replace k with ((k - 1) + 1)%nat at 1 by lia. rewrite repeat_app. reflexivity. }
      rewrite Er. rewrite <- (repeat_length (@empty_bin A) (k - 1)) at 1. rewrite update_app_r.
      unfold add_to_bin, empty_bin. cbn [fst snd app]. rewrite Z.add_0_l. reflexivity. }
    rewrite E. unfold sort_bins. apply sort_asc_id. apply unitbins_sorted. exact Hx.
  Qed.

  Lemma unitbins_contents x : contents (unitbins x) = [x].
  Proof.
    unfold unitbins. rewrite contents_app. replace (contents (repeat (@empty_bin A) (k - 1))) with (@nil A).
    - reflexivity.
    - induction (k - 1)%nat as [|n IH]; [reflexivity|]. cbn [repeat].
      change (contents (empty_bin :: repeat (@empty_bin A) n)) with (snd (@empty_bin A) ++ contents (repeat (@empty_bin A) n)).
      rewrite <- IH. reflexivity.
  Qed.

  Lemma HT0 : 0 <= T.
  Proof. lia. Qed.

  Lemma isunit_hgood e : isunit e -> hgood e.
  Proof.
    intros (x & E & Es & Hx). split; [rewrite E; apply entry_base|split].
    - rewrite Es. apply (unitbins_good x). lia.
    - rewrite Es, unitbins_contents. discriminate.
  Qed.

  Lemma unitbins_in x bn : In bn (unitbins x) -> bn = empty_bin \/ bn = (valueof x, [x]).
  Proof.
    unfold unitbins. intros H. apply in_app_or in H. destruct H as [H|[H|[]]].
    - left. apply repeat_spec in H. exact H.
    - right. symmetry. exact H.
  Qed.

  Lemma isunit_clean e : isunit e -> clean e.
  Proof.
    intros (x & E & Es & Hx). destruct (Z_le_gt_dec (valueof x) G) as [Hs|Hb].
    - left. exists x. split; [exact Es|lia].
    - right. rewrite Es. split.
      + apply Forall_forall. intros bn Hbn. destruct (unitbins_in x bn Hbn) as [Eb|Eb]; subst bn.
        * split; [constructor|cbn; apply HT0].
        * split; [constructor; [lia|constructor]|cbn; lia].
      + intros _. apply Forall_forall. intros bn Hbn. destruct (unitbins_in x bn Hbn) as [Eb|Eb]; subst bn; cbn; lia.
  Qed.

  Lemma isunit_rel e e' : isunit e -> isunit e' -> RelE e e'.
  Proof.
    assert (H1 : forall x y, rel1 (unitbins x) (unitbins y)).
    { intros x y. split.
      - intros _ Hu. unfold nonunit in Hu. rewrite unitbins_contents in Hu. cbn in Hu. lia.
      - intros Hf _. exfalso. unfold fullL, unitbins in Hf. apply Forall_app in Hf. destruct Hf as [Hf _].
        destruct (k - 1)%nat as [|n] eqn:En; [lia|]. cbn [repeat] in Hf. apply Forall_inv in Hf.
        unfold nLb, bv in Hf. cbn in Hf. lia. }
    intros (x & _ & Es & _) (y & _ & Es' & _). unfold RelE, Rel. rewrite Es, Es'. split; apply H1.
  Qed.

  Lemma PW_of_Forall {X} (P : X -> Prop) (R : X -> X -> Prop) l :
    (forall x y, P x -> P y -> R x y) -> Forall P l -> PW R l.
  Proof.
    intros HR. induction 1 as [|x t Hx Ht IH]; [exact I|]. split; [|exact IH].
    eapply Forall_impl; [|exact Ht]. intros y Hy. apply HR; assumption.
  Qed.

  Lemma initial_Inv43 : Forall (fun x => 0 <= valueof x <= T) items -> Inv43 (initial_heap valueof true k items).
  Proof.
    intros Hl. destruct (initial_heap_entries valueof k items) as [P HS].
    assert (HU : Forall isunit (initial_heap valueof true k items)).
    { eapply Permutation_Forall; [symmetry; exact P|]. rewrite Forall_map. eapply Forall_impl; [|exact Hl].
      intros x Hx. cbv beta in Hx. exists x. split; [reflexivity|split; [apply singleton_unitbins; lia|exact Hx]]. }
    split; [|split; [apply (initial_heap_inv valueof k items); lia|split; [exact HS|]]].
    - eapply Forall_impl; [|exact HU]. apply isunit_hgood.
    - right. split.
      + apply (PW_of_Forall isunit RelE); [apply isunit_rel|exact HU].
      + left. eapply Forall_impl; [|exact HU]. apply isunit_clean.
  Qed.

  Theorem kk_dichotomy_struct b : items <> [] -> Forall (fun x => 0 <= valueof x <= T) items ->
    kk valueof true k items = Ok b -> zmax (sums b) <= T \/ zmax (sums b) - zmin (sums b) <= G.
  Proof.
    intros Hne Hl Hkk.
    destruct (kk_run_inv valueof Inv43 k items b Hne step_Inv43 (initial_Inv43 Hl) Hkk) as (e & HI & ->).
    apply Inv43_single. exact HI.
  Qed.
End Struct.

(** ---- 9. the theorems ---- *)
Section KK43.
  Context {A : Type} (valueof : A -> Z).

  (** either the largest sum is at most the optimum, or the sums differ by at most a third of it *)
  Theorem kk_dichotomy_third k items b opt : (1 <= k)%nat -> items <> [] ->
    Forall (fun x => 0 <= valueof x) items -> kk valueof true k items = Ok b ->
    Opt MinLargest k (map valueof items) opt ->
    zmax (sums b) <= opt \/ zmax (sums b) - zmin (sums b) <= opt / 3.
  Proof.
    intros Hk Hne Hpos Hkk Hopt.
    pose proof (values_nonneg valueof items Hpos) as Hvs.
    pose proof (opt_minlargest_nonneg _ _ _ Hopt Hvs Hk) as H0.
    assert (HG0 : 0 <= opt / 3) by (apply Z.div_pos; lia).
    destruct (Nat.eq_dec k 1) as [E1|E1].
    - right. subst k. pose proof (kk_spread_k1 valueof items b Hne Hkk). lia.
    - assert (HGT : 3 * (opt / 3) <= opt < 3 * (opt / 3) + 3).
      { pose proof (Z.div_mod opt 3 ltac:(lia)). pose proof (Z.mod_pos_bound opt 3 ltac:(lia)). lia. }
      destruct (opt_minlargest_lower_bounds _ _ _ Hopt Hvs Hk) as [_ Hle].
      destruct Hopt as [(s & Hs & Ev) _]. rewrite value_MinLargest in Ev.
      assert (HsT : Forall (fun a => a <= opt) s) by (rewrite <- Ev; apply zmax_ge).
      apply (kk_dichotomy_struct valueof k opt (opt / 3) ltac:(lia) HG0 HGT items); try assumption.
      + intros x Hx. apply (W_upper k opt x (map valueof items) s); try assumption; lia.
      + destruct (Z_le_gt_dec (cnt_gt (opt / 3) (map valueof items)) (2 * Z.of_nat k)) as [Hc|Hc]; [exact Hc|].
        rewrite cnt_gt_ge in Hc.
        pose proof (pigeon 2 k (map valueof items) s (opt / 3 + 1) ltac:(lia) Hvs Hs ltac:(lia)). lia.
      + rewrite Forall_map in Hle. rewrite Forall_forall in *. intros x Hx. split; [apply Hpos|apply Hle]; exact Hx.
  Qed.

  (** Karmarkar-Karp's largest sum is at most (4/3 - 1/(3k)) times the optimum, for every k *)
  Theorem kk_ratio_43 k items b opt : (1 <= k)%nat -> items <> [] ->
    Forall (fun x => 0 <= valueof x) items -> kk valueof true k items = Ok b ->
    Opt MinLargest k (map valueof items) opt ->
    3 * Z.of_nat k * zmax (sums b) <= (4 * Z.of_nat k - 1) * opt.
  Proof.
    intros Hk Hne Hpos Hkk Hopt.
    pose proof (values_nonneg valueof items Hpos) as Hvs.
    pose proof (opt_minlargest_nonneg _ _ _ Hopt Hvs Hk) as H0.
    destruct (kk_partition valueof k items Hk Hne) as (b' & Hb' & Hpart).
    rewrite Hkk in Hb'. injection Hb' as <-.
    pose proof (gap_ratio 3 k (map valueof items) (sums b) opt (opt / 3) ltac:(lia) Hk Hvs
                  (partition_attainable valueof k items b Hpart) Hopt (Z.mul_div_le opt 3 ltac:(lia))
                  (kk_dichotomy_third k items b opt Hk Hne Hpos Hkk Hopt)).
    lia.
  Qed.

  (** flat corollaries *)
  Corollary kk_ratio_43_flat k items b opt : (1 <= k)%nat -> items <> [] ->
    Forall (fun x => 0 <= valueof x) items -> kk valueof true k items = Ok b ->
    Opt MinLargest k (map valueof items) opt -> 3 * zmax (sums b) <= 4 * opt.
  Proof.
    intros Hk Hne Hpos Hkk Hopt.
    pose proof (kk_ratio_43 k items b opt Hk Hne Hpos Hkk Hopt) as H.
    pose proof (values_nonneg valueof items Hpos) as Hvs.
    pose proof (opt_minlargest_nonneg _ _ _ Hopt Hvs Hk) as H0.
    assert (HK : 1 <= Z.of_nat k) by lia.
    apply (Z.mul_le_mono_pos_l _ _ (Z.of_nat k)); [lia|]. nia.
  Qed.

  (** k = 3: 11/9 *)
  Corollary kk_ratio_k3 items b opt : items <> [] ->
    Forall (fun x => 0 <= valueof x) items -> kk valueof true 3 items = Ok b ->
    Opt MinLargest 3 (map valueof items) opt -> 9 * zmax (sums b) <= 11 * opt.
  Proof.
    intros Hne Hpos Hkk Hopt.
    pose proof (kk_ratio_43 3 items b opt ltac:(lia) Hne Hpos Hkk Hopt) as H. cbn [Z.of_nat] in H. lia.
  Qed.
End KK43.

Theorem kk_ratio_43_statement_holds : kk_ratio_43_statement.
Proof. unfold kk_ratio_43_statement. intros A v k items b opt. apply kk_ratio_43. Qed.

(** ---- 10. examples and checks against the exact oracle ---- *)

(** the bound is attained for k = 2 (3,3,2,2,2: 7 against 6) and the dichotomy is sharp there:
    the largest sum exceeds the optimum and the spread is exactly opt / 3 *)
Example kk_43_attained_k2 :
  kk_sums 2 [3; 3; 2; 2; 2] = [5; 7] /\ optv 2 [3; 3; 2; 2; 2] = 6 /\ 3 * 2 * 7 = (4 * 2 - 1) * 6 /\ 7 - 5 = 6 / 3.
Proof. vm_compute. repeat split; reflexivity. Qed.

(** the instance on which the threshold "(2k+1)-th largest value" fails ([kk_dichotomy_2k_fails_k3]):
    sums 6, 7, 8, optimum 7; the spread 2 is at most 7 / 3 = 2 *)
Example kk_dichotomy_third_k3 :
  kk_sums 3 [6; 4; 3; 3; 2; 2; 1] = [6; 7; 8] /\ optv 3 [6; 4; 3; 3; 2; 2; 1] = 7 /\ 8 - 6 <= 7 / 3.
Proof. vm_compute. repeat split; try reflexivity. discriminate. Qed.

(** the theorem applied through the verified oracle *)
Example kk_43_example_k3 b : kk idZ true 3 [6; 4; 3; 3; 2; 2; 1] = Ok b -> 9 * zmax (sums b) <= 11 * 7.
Proof.
  intros H. apply (kk_ratio_k3 idZ [6; 4; 3; 3; 2; 2; 1] b 7); [discriminate| |exact H|].
  - repeat constructor; lia.
  - rewrite <- (proj1 (proj2 kk_dichotomy_third_k3)). apply optv_spec. lia.
Qed.

(** the dichotomy and the ratio on 300 pseudo-random instances, k = 1..4, up to 9 items *)
Definition check_third (k : nat) (vs : list Z) : bool :=
  let s := kk_sums k vs in (zmax s <=? optv k vs) || (zmax s - zmin s <=? optv k vs / 3).

Lemma check_third_holds k vs : (1 <= k)%nat -> vs <> [] -> Forall (fun v => 0 <= v) vs ->
  check_third k vs = true.
Proof.
  intros Hk Hne Hpos. destruct (kk_sums_spec k vs Hk Hne) as (b & Hb & E). unfold check_third. rewrite E.
  pose proof (kk_dichotomy_third idZ k vs b _ Hk Hne Hpos Hb (optv_spec k vs Hk)). lia.
Qed.

Lemma check_43_holds k vs : (1 <= k)%nat -> vs <> [] -> Forall (fun v => 0 <= v) vs ->
  check_43 k vs = true.
Proof.
  intros Hk Hne Hpos. destruct (kk_sums_spec k vs Hk Hne) as (b & Hb & E). unfold check_43. rewrite E.
  pose proof (kk_ratio_43 idZ k vs b _ Hk Hne Hpos Hb (optv_spec k vs Hk)). lia.
Qed.

Example kk_third_checks_random :
  forallb (fun s => let (k, vs) := inst43 s in check_third k vs && check_43 k vs)
          (map Z.of_nat (seq 1 300)) = true.
Proof.
  apply forallb_forall. intros s _.
  destruct (inst43_ok s) as (Hk & Hne & Hpos). destruct (inst43 s) as [k vs]. cbn [fst snd] in *.
  rewrite check_third_holds, check_43_holds by assumption. reflexivity.
Qed.

Check kk_dichotomy_third.
Check kk_ratio_43.
Check kk_ratio_43_statement_holds.
Check kk_ratio_43_flat.
Check kk_ratio_k3.

Print Assumptions kk_dichotomy_third.
Print Assumptions kk_ratio_43.
Print Assumptions kk_ratio_43_statement_holds.
Print Assumptions kk_ratio_43_flat.
Print Assumptions kk_ratio_k3.
Print Assumptions kk_43_example_k3.
