(** Proofs about Model/SNP.v: sequential number partitioning (snp) and, marginally, rnp.

    1. [find_diff_perm]            find_diff is the multiset difference (names determine items)
    2. [snp_partition]             snp returns a partition (C01)
    3. [snp_never_worse_than_kk]   the incumbent only improves
    4. [snp_optimal_from_ckk]      snp is optimal for MinDiff (C02), given 2-way optimality of ckk
       with the stand-alone arithmetic lemmas [smallest_bin_in_window] (Korf's window) and
       [balanced_two_minimises_spread] (the 2-way base case)
    5. [rnp_k2]; [rnp_dfs], the search of rnp for an odd number of bins (used by Proofs/RNPProofs.v)

    Section hypothesis [Hinj]: equal names mean equal items.  It holds in both uses of the
    library: plain numeric input (name = value = the item) and named input (distinct names).
    find_diff works on names (collections.Counter of the item names) and returns copies of
    the FIRST item carrying each name, so without [Hinj] it is not a multiset difference of
    items. *)
From Prtpy Require Import Base.Prelude Model.Binner Model.Objectives Model.KK Model.InExTree Model.SNP
  Spec.Partition Proofs.BaseLemmas Proofs.BinnerLemmas Proofs.KKProofs Proofs.EnumProofs
  Proofs.ObjectivesProofs Proofs.CoveringProofs.
From Coq Require Import ZifyBool.

(** ---- stand-alone facts about lists of integers ---- *)

Lemma spread_perm l1 l2 : Permutation l1 l2 -> spread l1 = spread l2.
Proof. intros P. unfold spread. rewrite (zmax_perm l1 l2 P), (zmin_perm l1 l2 P). reflexivity. Qed.

Lemma spread_nonneg l : 0 <= spread l.
Proof. unfold spread. pose proof (zmin_le_zmax l). lia. Qed.

(** one element set aside, the others bounded by M *)
Lemma zsum_pull x l M : In x l -> Forall (fun y => y <= M) l ->
  zsum l <= x + (Z.of_nat (length l) - 1) * M.
Proof.
  intros Hin HM. destruct (in_split _ _ Hin) as (l1 & l2 & E). subst l.
  apply Forall_app in HM. destruct HM as [HM1 HM2]. apply Forall_inv_tail in HM2.
  pose proof (zsum_le_bound _ _ HM1) as G1. pose proof (zsum_le_bound _ _ HM2) as G2.
  rewrite zsum_app, app_length. cbn [length zsum fold_right]. fold (zsum l2). nia.
Qed.

(** Korf's window: in a partition of total [zsum s] into [length s] bins whose spread is at
    most d, the smallest bin lies in [ (t - (k-1) d) / k , t / k ]. *)
Theorem smallest_bin_in_window : forall (s : list Z) (d : Z), s <> [] -> spread s <= d ->
  let k := Z.of_nat (length s) in
  k * zmin s <= zsum s /\ zsum s - (k - 1) * d <= k * zmin s.
Proof.
  intros s d Hne Hd k. subst k. split.
  - apply zsum_ge_bound. apply zmin_le.
  - pose proof (zsum_pull (zmin s) s (zmax s) (zmin_in s Hne) (zmax_ge s)) as G.
    unfold spread in Hd.
    assert (Hk : 1 <= Z.of_nat (length s)) by (destruct s; [congruence|cbn [length]; lia]).
    nia.
Qed.

(** the 2-way base case: with the total of the two bins fixed, the more balanced pair gives
    the smaller overall spread together with any fixed other sums *)
Theorem balanced_two_minimises_spread : forall (a b a' b' : Z) (p : list Z),
  a + b = a' + b' -> spread [a; b] <= spread [a'; b'] ->
  spread ([a; b] ++ p) <= spread ([a'; b'] ++ p).
Proof.
  intros a b a' b' p Hs Hd. unfold spread in *. cbn [zmax zmin zmax_list zmin_list] in Hd. cbn [app].
  pose proof (zmax_ge (a' :: b' :: p)) as FM. pose proof (zmin_le (a' :: b' :: p)) as Fm.
  inversion FM as [|? ? M1 FM1]; subst. inversion FM1 as [|? ? M2 FM2]; subst.
  inversion Fm as [|? ? m1 Fm1]; subst. inversion Fm1 as [|? ? m2 Fm2]; subst.
  assert (HM : zmax (a :: b :: p) <= zmax (a' :: b' :: p)).
  { apply zmax_lub; [discriminate|]. constructor; [lia|]. constructor; [lia|exact FM2]. }
  assert (Hm : zmin (a' :: b' :: p) <= zmin (a :: b :: p)).
  { apply zmin_glb; [discriminate|]. constructor; [lia|]. constructor; [lia|exact Fm2]. }
  lia.
Qed.

(** ---- generic list helpers ---- *)

Lemma concat_perm {T} (l1 l2 : list (list T)) : Permutation l1 l2 -> Permutation (concat l1) (concat l2).
Proof.
  induction 1 as [|x l l' HP IH|x y l|l l' l'' HP1 IH1 HP2 IH2]; cbn [concat].
  - apply Permutation_refl.
  - apply Permutation_app_head. exact IH.
  - rewrite !app_assoc. apply Permutation_app_tail. apply Permutation_app_comm.
  - etransitivity; eassumption.
Qed.

(** positional sub-collections *)
Inductive sub {T} : list T -> list T -> Prop :=
| sub_nil : sub [] []
| sub_take x s l : sub s l -> sub (x :: s) (x :: l)
| sub_skip x s l : sub s l -> sub s (x :: l).

Lemma sub_nil_inv {T} (s : list T) : sub s [] -> s = [].
Proof. intros H. inversion H as [E1 E2| |]. reflexivity. Qed.

Lemma sub_perm {T} (s l : list T) : sub s l -> exists ex, Permutation (s ++ ex) l.
Proof.
  induction 1 as [|x s l H IH|x s l H IH].
  - exists []. apply Permutation_refl.
  - destruct IH as (ex & P). exists ex. cbn [app]. apply perm_skip. exact P.
  - destruct IH as (ex & P). exists (x :: ex). rewrite <- P. symmetry. apply Permutation_middle.
Qed.

(** every sub-multiset is realised by some positional sub-collection *)
Lemma multiset_sub {T} : forall (l c ex : list T), Permutation (c ++ ex) l ->
  exists s, sub s l /\ Permutation s c.
Proof.
  induction l as [|y l IH]; intros c ex P.
  - apply Permutation_sym, Permutation_nil in P. apply app_eq_nil in P. destruct P as [-> _].
    exists []. split; [constructor|apply Permutation_refl].
  - assert (Hin : In y (c ++ ex)) by (eapply Permutation_in; [symmetry; exact P|left; reflexivity]).
    apply in_app_or in Hin. destruct Hin as [Hin|Hin].
    + destruct (in_split _ _ Hin) as (c1 & c2 & E). subst c.
      assert (P' : Permutation ((c1 ++ c2) ++ ex) l).
      { apply (Permutation_cons_inv (a := y)). rewrite <- P. rewrite <- !app_assoc. cbn [app].
        apply Permutation_middle. }
      destruct (IH _ _ P') as (s & Hs & Ps). exists (y :: s). split; [constructor; exact Hs|].
      rewrite Ps. apply Permutation_middle.
    + destruct (in_split _ _ Hin) as (e1 & e2 & E). subst ex.
      assert (P' : Permutation (c ++ e1 ++ e2) l).
      { apply (Permutation_cons_inv (a := y)). rewrite <- P. rewrite app_assoc.
        rewrite (app_assoc c e1 (y :: e2)). apply Permutation_middle. }
      destruct (IH _ _ P') as (s & Hs & Ps). exists s. split; [constructor; exact Hs|exact Ps].
Qed.

(** the bookkeeping of the inclusion/exclusion searches: [cur] and the items still to be
    decided stay inside [base] when the next item is taken, or skipped, and at the start *)
Lemma within_take {T} (base cur r : list T) x :
  (exists ex, Permutation (cur ++ (x :: r) ++ ex) base) -> exists ex, Permutation ((cur ++ [x]) ++ r ++ ex) base.
Proof. intros (ex & P). exists ex. rewrite <- P, <- app_assoc. reflexivity. Qed.

Lemma within_skip {T} (base cur r : list T) x :
  (exists ex, Permutation (cur ++ (x :: r) ++ ex) base) -> exists ex, Permutation (cur ++ r ++ ex) base.
Proof.
  intros (ex & P). exists (x :: ex). rewrite <- P. apply Permutation_app_head. cbn [app].
  symmetry. apply Permutation_middle.
Qed.

Lemma within_start {T} (key : T -> Z) (l : list T) : exists ex, Permutation ([] ++ sort_desc key l ++ ex) l.
Proof. exists []. cbn [app]. rewrite app_nil_r. apply sort_desc_perm. Qed.

Section SNPProofs.
  Context {A : Type} (valueof nameof : A -> Z).
  Hypothesis Hinj : forall x y : A, nameof x = nameof y -> x = y.

  Local Notation vsum := (vsum valueof).
  Local Notation nonneg := (Forall (fun x : A => 0 <= valueof x)).

  (** ------------------------------------------------------------------ *)
  (** * 1. find_diff                                                      *)
  (** ------------------------------------------------------------------ *)

  Lemma A_eq_dec (x y : A) : {x = y} + {x <> y}.
  Proof.
    destruct (Z.eq_dec (nameof x) (nameof y)) as [E|E].
    - left. apply Hinj. exact E.
    - right. intros Hxy. apply E. rewrite Hxy. reflexivity.
  Qed.

  Lemma item_eqb_eq x y : item_eqb nameof x y = true <-> x = y.
  Proof.
    unfold item_eqb. rewrite Z.eqb_eq. split; [apply Hinj|intros ->; reflexivity].
  Qed.

  Lemma count_occ_b_eq x l : count_occ_b nameof x l = count_occ A_eq_dec l x.
  Proof.
    unfold count_occ_b. induction l as [|y t IH]; cbn [filter count_occ length]; [reflexivity|].
    destruct (item_eqb nameof x y) eqn:E.
    - apply item_eqb_eq in E. subst y. destruct (A_eq_dec x x) as [_|N]; [|congruence].
      cbn [length]. rewrite IH. reflexivity.
    - destruct (A_eq_dec y x) as [Eyx|_]; [|exact IH].
      subst y. assert (H : item_eqb nameof x x = true) by (apply item_eqb_eq; reflexivity). congruence.
  Qed.

  Lemma existsb_item_In x seen : existsb (item_eqb nameof x) seen = true <-> In x seen.
  Proof.
    rewrite existsb_exists. split.
    - intros (y & Hy & E). apply item_eqb_eq in E. subst y. exact Hy.
    - intros H. exists x. split; [exact H|apply item_eqb_eq; reflexivity].
  Qed.

  Lemma distinct_in_order_In x : forall l seen,
    In x (distinct_in_order nameof l seen) <-> In x l /\ ~ In x seen.
  Proof using Hinj.
    clear valueof. (* [tauto] would put it into the proof term *)
    induction l as [|y t IH]; intros seen; cbn [distinct_in_order In].
    - tauto.
    - destruct (existsb (item_eqb nameof y) seen) eqn:E.
      + apply existsb_item_In in E. rewrite IH. split.
        * intros [H1 H2]. tauto.
        * intros [[H1|H1] H2]; [subst y; contradiction|tauto].
      + assert (Hy : ~ In y seen) by (rewrite <- existsb_item_In; congruence).
        cbn [In]. rewrite IH. cbn [In]. split.
        * intros [H|[H1 H2]]; [subst y; tauto|tauto].
        * intros [[H1|H1] H2]; [tauto|].
          destruct (A_eq_dec y x) as [Eyx|Nyx]; [tauto|right; tauto].
  Qed.

  Lemma distinct_in_order_nodup : forall l seen, NoDup (distinct_in_order nameof l seen).
  Proof using Hinj.
    clear valueof.
    induction l as [|y t IH]; intros seen; cbn [distinct_in_order]; [constructor|].
    destruct (existsb (item_eqb nameof y) seen); [apply IH|].
    constructor; [|apply IH]. rewrite distinct_in_order_In. cbn [In]. tauto.
  Qed.

  Lemma count_flat_repeat (n : A -> nat) x : forall l, NoDup l ->
    count_occ A_eq_dec (flat_map (fun y => repeat y (n y)) l) x = if in_dec A_eq_dec x l then n x else O.
  Proof.
    induction l as [|y t IH]; intros ND; cbn [flat_map]; [reflexivity|].
    inversion ND as [|y' t' Hy Ht]; subst y' t'. rewrite count_occ_app, (IH Ht).
    destruct (A_eq_dec x y) as [E|N].
    - subst y. rewrite (count_occ_repeat_eq A_eq_dec (n x) (eq_refl x)).
      destruct (in_dec A_eq_dec x t) as [I|_]; [contradiction|].
      destruct (in_dec A_eq_dec x (x :: t)) as [_|NI]; [lia|exfalso; apply NI; left; reflexivity].
    - rewrite (count_occ_repeat_neq A_eq_dec (n y) N).
      destruct (in_dec A_eq_dec x t) as [I|NI]; destruct (in_dec A_eq_dec x (y :: t)) as [I'|NI']; try reflexivity.
      + exfalso. apply NI'. right. exact I.
      + exfalso. destruct I' as [E|I']; [apply N; symmetry; exact E|contradiction].
  Qed.

  Lemma find_diff_count items cur x :
    count_occ A_eq_dec (find_diff nameof items cur) x =
    (count_occ A_eq_dec items x - count_occ A_eq_dec cur x)%nat.
  Proof.
    unfold find_diff. rewrite count_flat_repeat by apply distinct_in_order_nodup.
    destruct (in_dec A_eq_dec x (distinct_in_order nameof items [])) as [I|NI].
    - rewrite !count_occ_b_eq. reflexivity.
    - rewrite distinct_in_order_In in NI.
      assert (Hx : ~ In x items) by (intros H; apply NI; split; [exact H|intros []]).
      apply (count_occ_not_In A_eq_dec) in Hx. rewrite Hx. reflexivity.
  Qed.

  Theorem find_diff_perm : forall items cur,
    (exists rest', Permutation (cur ++ rest') items) ->
    Permutation (cur ++ find_diff nameof items cur) items.
  Proof.
    intros items cur (rest' & P). rewrite (Permutation_count_occ A_eq_dec) in *. intros x.
    specialize (P x). rewrite count_occ_app in *. rewrite find_diff_count. lia.
  Qed.

  (** ------------------------------------------------------------------ *)
  (** * 2. snp returns a partition (C01)                                  *)
  (** ------------------------------------------------------------------ *)

  Local Notation snp_rec := (snp_rec valueof nameof true).
  Local Notation bin_of := (bin_of valueof true).
  Local Notation find_diff := (find_diff nameof).

  (** the inner depth-first search of [snp_rec], with the recursive call abstracted *)
  Definition snp_dfs (next : list A -> bins A -> bins A) (kz t : Z)
    : list A -> list A -> bins A -> bins A :=
    fix dfs (rest cur : list A) (best : bins A) : bins A :=
      if (t <? kz * vsum cur) || (kz * (vsum cur + vsum rest) <? t - (kz - 1) * bins_spread best)
      then best
      else match rest with
           | [] => next cur best
           | x :: r => dfs r cur (dfs r (cur ++ [x]) best)
           end.

  Definition dfs_pruned (kz t : Z) (rest cur : list A) (best : bins A) : bool :=
    (t <? kz * vsum cur) || (kz * (vsum cur + vsum rest) <? t - (kz - 1) * bins_spread best).

  Lemma snp_dfs_nil next kz t cur best :
    snp_dfs next kz t [] cur best = if dfs_pruned kz t [] cur best then best else next cur best.
  Proof. reflexivity. Qed.

  Lemma snp_dfs_cons next kz t x r cur best :
    snp_dfs next kz t (x :: r) cur best =
    if dfs_pruned kz t (x :: r) cur best then best
    else snp_dfs next kz t r cur (snp_dfs next kz t r (cur ++ [x]) best).
  Proof. reflexivity. Qed.

  Definition snp_next (n : nat) (prior : bins A) (items : list A) (cur : list A) (b : bins A) : bins A :=
    snp_rec (S (S n)) (prior ++ [bin_of cur]) (find_diff items cur) b.

  Lemma snp_rec_unfold3 n prior items best :
    snp_rec (S (S (S n))) prior items best =
    snp_dfs (snp_next n prior items) (Z.of_nat (S (S (S n)))) (vsum items) (sort_desc valueof items) [] best.
  Proof. reflexivity. Qed.

  Lemma snp_rec_unfold2 prior items best :
    snp_rec 2 prior items best =
    match ckk valueof nameof true 2 items with
    | Ok two => if spread (sums two ++ sums prior) <? bins_spread best then two ++ prior else best
    | Err _ => best
    end.
  Proof. reflexivity. Qed.

  Lemma ckk_nil k : ckk valueof nameof true (S (S k)) [] = Err OtherError.
  Proof. reflexivity. Qed.

  Lemma bin_of_eq l : bin_of l = (vsum l, l).
  Proof. unfold SNP.bin_of. rewrite fold_add_to_bin. reflexivity. Qed.

  Lemma bin_of_wf l : wf_bin valueof (bin_of l).
  Proof. rewrite bin_of_eq. reflexivity. Qed.

  (** any property of the incumbent that every recursive call preserves is preserved by the
      search; [cur] stays a sub-collection of [base] *)
  Lemma snp_dfs_preserves (P : bins A -> Prop) (base : list A) next kz t :
    (forall c b, (exists ex, Permutation (c ++ ex) base) -> P b -> P (next c b)) ->
    forall rest cur b, (exists ex, Permutation (cur ++ rest ++ ex) base) -> P b ->
      P (snp_dfs next kz t rest cur b).
  Proof.
    intros Hnext. induction rest as [|x r IH]; intros cur b Hsub Pb;
      [rewrite snp_dfs_nil|rewrite snp_dfs_cons]; destruct (dfs_pruned _ _ _ _ _); try exact Pb.
    - apply Hnext; [|exact Pb]. destruct Hsub as (ex & HP). exists ex. exact HP.
    - apply IH; [exact (within_skip _ _ _ _ Hsub)|].
      apply IH; [exact (within_take _ _ _ _ Hsub)|exact Pb].
  Qed.

  Lemma snp_rec_partition k orig : forall kc prior items' best,
    is_partition valueof k orig best -> wf valueof prior -> (length prior + kc = k)%nat ->
    Permutation (contents prior ++ items') orig ->
    is_partition valueof k orig (snp_rec kc prior items' best).
  Proof.
    induction kc as [|kc IH]; intros prior items' best Hbest Hwf Hlen HP; [exact Hbest|].
    destruct kc as [|[|n]]; [exact Hbest| |].
    - rewrite snp_rec_unfold2. destruct items' as [|y ys]; [rewrite ckk_nil; exact Hbest|].
      destruct (ckk_partition valueof nameof 2 (y :: ys)) as (two & E & P2 & L2 & W2); [lia|discriminate|].
      rewrite E. destruct (spread (sums two ++ sums prior) <? bins_spread best); [|exact Hbest].
      split; [|split].
      + rewrite contents_app, P2. rewrite <- HP. apply Permutation_app_comm.
      + rewrite app_length. lia.
      + apply Forall_app. split; assumption.
    - rewrite snp_rec_unfold3. apply (snp_dfs_preserves _ items').
      + intros c b Hc Pb. unfold snp_next. apply IH; [exact Pb| | |].
        * apply Forall_app. split; [exact Hwf|]. constructor; [apply bin_of_wf|constructor].
        * rewrite app_length. cbn [length]. lia.
        * rewrite contents_app. unfold contents at 2, lists. cbn [map concat]. rewrite bin_of_eq. cbn [snd].
          rewrite app_nil_r, <- app_assoc. rewrite (find_diff_perm items' c Hc). exact HP.
      + apply within_start.
      + exact Hbest.
  Qed.

  Theorem snp_partition : forall k items, (1 <= k)%nat -> items <> [] ->
    exists b, snp valueof nameof true k items = Ok b /\ is_partition valueof k items b.
  Proof.
    intros k items Hk Hne. destruct (kk_partition valueof k items Hk Hne) as (best & E & Hbest).
    unfold snp. rewrite E. destruct (bins_spread best =? 0).
    - exists best. split; [reflexivity|exact Hbest].
    - eexists. split; [reflexivity|]. apply snp_rec_partition; [exact Hbest|constructor|cbn [length]; lia|].
      apply Permutation_refl.
  Qed.

  (** ------------------------------------------------------------------ *)
  (** * 3. the incumbent only improves                                    *)
  (** ------------------------------------------------------------------ *)

  Lemma snp_dfs_le next kz t :
    (forall c b, bins_spread (next c b) <= bins_spread b) ->
    forall rest cur b, bins_spread (snp_dfs next kz t rest cur b) <= bins_spread b.
  Proof.
    intros Hnext. induction rest as [|x r IH]; intros cur b;
      [rewrite snp_dfs_nil|rewrite snp_dfs_cons]; destruct (dfs_pruned _ _ _ _ _); try lia.
    - apply Hnext.
    - pose proof (IH cur (snp_dfs next kz t r (cur ++ [x]) b)) as H1.
      pose proof (IH (cur ++ [x]) b) as H2. lia.
  Qed.

  Lemma snp_rec_le : forall kc prior items' best,
    bins_spread (snp_rec kc prior items' best) <= bins_spread best.
  Proof.
    induction kc as [|kc IH]; intros prior items' best; [cbn [SNP.snp_rec]; lia|].
    destruct kc as [|[|n]]; [cbn [SNP.snp_rec]; lia| |].
    - rewrite snp_rec_unfold2. destruct (ckk valueof nameof true 2 items') as [two|e]; [|lia].
      destruct (spread (sums two ++ sums prior) <? bins_spread best) eqn:E; [|lia].
      unfold bins_spread at 1. rewrite sums_app. lia.
    - rewrite snp_rec_unfold3. apply snp_dfs_le. intros c b. unfold snp_next. apply IH.
  Qed.

  Theorem snp_never_worse_than_kk : forall k items b bk,
    snp valueof nameof true k items = Ok b -> kk valueof true k items = Ok bk ->
    bins_spread b <= bins_spread bk.
  Proof.
    intros k items b bk Hs Hk. unfold snp in Hs. rewrite Hk in Hs.
    destruct (bins_spread bk =? 0); injection Hs as <-; [lia|apply snp_rec_le].
  Qed.

  (** ------------------------------------------------------------------ *)
  (** * 4. optimality (C02), given 2-way optimality of ckk                *)
  (** ------------------------------------------------------------------ *)

  Definition ckk2_optimal_statement : Prop :=
    forall items b, items <> [] -> nonneg items ->
      ckk valueof nameof true 2 items = Ok b ->
      Opt MinDiff 2 (map valueof items) (value MinDiff (sums b) false).

  (** ---- 4a. partitions as lists of lists versus [Attainable] ---- *)
  Definition tsums (T : list (list A)) : list Z := map vsum T.

  Lemma vsum_perm l1 l2 : Permutation l1 l2 -> vsum l1 = vsum l2.
  Proof. intros P. unfold InExTree.vsum. apply zsum_perm, Permutation_map, P. Qed.

  Lemma vsum_concat T : vsum (concat T) = zsum (tsums T).
  Proof.
    induction T as [|l T IH]; cbn [concat tsums map]; [reflexivity|].
    rewrite vsum_app, IH. reflexivity.
  Qed.

  Lemma nonneg_vsum l : nonneg l -> 0 <= vsum l.
  Proof. intros H. unfold InExTree.vsum. apply zsum_nonneg. rewrite Forall_map. exact H. Qed.

  Lemma lists_attainable k items T : length T = k -> Permutation (concat T) items ->
    Attainable k (map valueof items) (tsums T).
  Proof.
    intros HL HP. set (b := map (fun l => (vsum l, l)) T : bins A).
    assert (Hs : sums b = tsums T) by (unfold sums, b, tsums; rewrite map_map; reflexivity).
    rewrite <- Hs. apply partition_attainable. split; [|split].
    - unfold contents, lists, b. rewrite map_map. cbn [snd]. rewrite map_id. exact HP.
    - unfold b. rewrite map_length. exact HL.
    - unfold wf, b. rewrite Forall_map. apply Forall_forall. intros l _. reflexivity.
  Qed.

  Lemma lrun_lists : forall items ps (T0 : list (list A)),
    map fst ps = map valueof items -> Forall (fun p : Z * nat => (snd p < length T0)%nat) ps ->
    exists T1, length T1 = length T0 /\ Permutation (concat T1) (concat T0 ++ items) /\
               lrun ps (tsums T0) = tsums T1.
  Proof.
    induction items as [|x its IH]; intros ps T0 Hm Hf.
    - destruct ps as [|p ps]; [|discriminate]. exists T0. rewrite app_nil_r.
      split; [reflexivity|split; [apply Permutation_refl|reflexivity]].
    - destruct ps as [|[v i] ps]; [discriminate|]. cbn [map fst] in Hm. injection Hm as Hv Hm.
      inversion Hf as [|p ps' Hi Hf']; subst p ps'. cbn [snd] in Hi.
      destruct (IH ps (update i (cons x) T0) Hm) as (T1 & HL & HP & HR).
      { rewrite update_length. exact Hf'. }
      exists T1. split; [rewrite HL; apply update_length|split].
      + rewrite HP. rewrite (concat_update_cons x T0 i Hi). cbn [app]. apply Permutation_middle.
      + rewrite <- HR. unfold lrun. cbn [fold_left]. f_equal. unfold CoveringProofs.lstep. cbn [fst snd].
        unfold tsums. symmetry. apply map_update. intros l. rewrite vsum_cons. subst v. lia.
  Qed.

  Lemma attainable_lists k items s : Attainable k (map valueof items) s ->
    exists T, length T = k /\ Permutation (concat T) items /\ tsums T = s.
  Proof.
    intros H. apply Attainable_pairs in H. destruct H as (ps & Hm & Hf & Hs).
    destruct (lrun_lists items ps (repeat [] k) Hm) as (T1 & HL & HP & HR).
    { rewrite repeat_length. exact Hf. }
    exists T1. rewrite repeat_length in HL. split; [exact HL|split].
    - rewrite HP, concat_repeat_nil. apply Permutation_refl.
    - rewrite <- HR, <- Hs. f_equal. unfold tsums. rewrite map_repeat_eq. reflexivity.
  Qed.

  (** a smallest bin can be put first *)
  Lemma smallest_first : forall T : list (list A), T <> [] ->
    exists c T', Permutation T (c :: T') /\ Forall (fun l => vsum c <= vsum l) T'.
  Proof.
    induction T as [|l T IH]; intros Hne; [congruence|].
    destruct T as [|l' T].
    - exists l, []. split; [apply Permutation_refl|constructor].
    - destruct IH as (c & T' & HP & HF); [discriminate|].
      destruct (Z_le_gt_dec (vsum l) (vsum c)) as [Hle|Hgt].
      + exists l, (c :: T'). split; [apply perm_skip; exact HP|].
        constructor; [exact Hle|]. eapply Forall_impl; [|exact HF]. cbv beta. intros a Ha. lia.
      + exists c, (l :: T'). split.
        * rewrite HP. apply perm_swap.
        * constructor; [lia|exact HF].
  Qed.

  Lemma sub_vsum s l : sub s l -> nonneg l -> nonneg s /\ vsum s <= vsum l.
  Proof.
    induction 1 as [|x s l H IH|x s l H IH]; intros Hl.
    - split; [constructor|lia].
    - inversion Hl as [|x' l' Hx Hl']; subst x' l'. destruct (IH Hl') as [N L].
      split; [constructor; assumption|]. rewrite !vsum_cons. lia.
    - inversion Hl as [|x' l' Hx Hl']; subst x' l'. destruct (IH Hl') as [N L].
      split; [exact N|]. rewrite vsum_cons. lia.
  Qed.

  (** ---- 4b. the search is exhaustive relative to its final incumbent ---- *)
  Section DfsComplete.
    Variables (next : list A -> bins A -> bins A) (kz t : Z) (base : list A).
    Variable Psi : list A -> Z -> Prop.
    Hypothesis Hkz : 1 <= kz.
    Hypothesis Hbase : nonneg base.
    Hypothesis Psi_mono : forall c d d', Psi c d -> d' <= d -> Psi c d'.
    Hypothesis Psi_upper : forall c d, t < kz * vsum c -> Psi c d.
    Hypothesis Psi_lower : forall c d, kz * vsum c < t - (kz - 1) * d -> Psi c d.
    Hypothesis next_le : forall c b, bins_spread (next c b) <= bins_spread b.
    Hypothesis next_ok : forall c b, (exists ex, Permutation (c ++ ex) base) -> kz * vsum c <= t ->
      Psi c (bins_spread (next c b)).

    Lemma snp_dfs_complete : forall rest cur b,
      (exists ex, Permutation (cur ++ rest ++ ex) base) ->
      forall s, sub s rest -> Psi (cur ++ s) (bins_spread (snp_dfs next kz t rest cur b)).
    Proof.
      induction rest as [|x r IH]; intros cur b Hsub s Hs.
      - rewrite (sub_nil_inv s Hs), app_nil_r, snp_dfs_nil. unfold dfs_pruned. rewrite vsum_nil, Z.add_0_r.
        destruct (t <? kz * vsum cur) eqn:E1; cbn [orb]; [apply Psi_upper; lia|].
        destruct (kz * vsum cur <? t - (kz - 1) * bins_spread b) eqn:E2; [apply Psi_lower; lia|].
        destruct Hsub as (ex & HP). cbn [app] in HP.
        apply next_ok; [exists ex; exact HP|lia].
      - assert (Hrest : nonneg (x :: r)).
        { destruct Hsub as (ex & HP). apply Permutation_sym in HP.
          pose proof (Permutation_Forall HP Hbase) as HF.
          apply Forall_app in HF. destruct HF as [_ HF]. apply Forall_app in HF. apply HF. }
        destruct (sub_vsum s _ Hs Hrest) as [N L]. apply nonneg_vsum in N.
        rewrite snp_dfs_cons. unfold dfs_pruned.
        destruct (t <? kz * vsum cur) eqn:E1; cbn [orb].
        { apply Psi_upper. rewrite vsum_app. nia. }
        destruct (kz * (vsum cur + vsum (x :: r)) <? t - (kz - 1) * bins_spread b) eqn:E2.
        { apply Psi_lower. rewrite vsum_app. nia. }
        inversion Hs as [|x' s' l' Hs'|x' s' l' Hs']; subst.
        + (* x taken: found in the first sub-search; the second only lowers the incumbent *)
          apply (Psi_mono _ (bins_spread (snp_dfs next kz t r (cur ++ [x]) b))); [|apply (snp_dfs_le _ _ _ next_le)].
          replace (cur ++ x :: s') with ((cur ++ [x]) ++ s') by (rewrite <- app_assoc; reflexivity).
          apply IH; [exact (within_take _ _ _ _ Hsub)|exact Hs'].
        + apply IH; [exact (within_skip _ _ _ _ Hsub)|exact Hs'].
    Qed.
  End DfsComplete.

  (** ---- 4c. the recursion ---- *)

  (** what the search at one level owes to the targets whose smallest bin is [c] *)
  Definition owes (n : nat) (prior : bins A) (items' : list A) (c : list A) (d : Z) : Prop :=
    forall T', length T' = S (S n) -> Permutation (c ++ concat T') items' ->
      Forall (fun l => vsum c <= vsum l) T' ->
      d <= spread ((vsum c :: tsums T') ++ sums prior).

  Lemma owes_upper n prior items' c d :
    vsum items' < Z.of_nat (S (S (S n))) * vsum c -> owes n prior items' c d.
  Proof.
    intros H T' HL HP HF. exfalso.
    pose proof (vsum_perm _ _ HP) as Et. rewrite vsum_app, vsum_concat in Et.
    assert (G : Z.of_nat (length (tsums T')) * vsum c <= zsum (tsums T')).
    { apply zsum_ge_bound. unfold tsums. rewrite Forall_map. exact HF. }
    unfold tsums in G at 1. rewrite map_length, HL in G. lia.
  Qed.

  Lemma owes_lower n prior items' c d :
    Z.of_nat (S (S (S n))) * vsum c < vsum items' - (Z.of_nat (S (S (S n))) - 1) * d ->
    owes n prior items' c d.
  Proof.
    intros H T' HL HP HF.
    pose proof (vsum_perm _ _ HP) as Et. rewrite vsum_app, vsum_concat in Et.
    set (all := (vsum c :: tsums T') ++ sums prior) in *.
    assert (Hm : zmin all <= vsum c) by (apply zmin_le_in; left; reflexivity).
    assert (G : zsum (tsums T') <= Z.of_nat (length (tsums T')) * zmax all).
    { apply zsum_le_bound. apply Forall_forall. intros y Hy. apply zmax_ge_in.
      unfold all. cbn [app]. right. apply in_or_app. left. exact Hy. }
    unfold tsums in G at 2. rewrite map_length, HL in G. unfold spread.
    set (M := zmax all) in *. set (m := zmin all) in *. set (vc := vsum c) in *.
    set (S' := zsum (tsums T')) in *. set (t := vsum items') in *.
    clearbody M m vc S' t all. nia.
  Qed.

  Lemma snp_rec_optimal (Hckk : ckk2_optimal_statement) : forall kc, (2 <= kc)%nat ->
    forall prior items' best T,
      nonneg items' -> 0 < vsum items' -> length T = kc -> Permutation (concat T) items' ->
      bins_spread (snp_rec kc prior items' best) <= spread (tsums T ++ sums prior).
  Proof.
    induction kc as [|kc IH]; intros Hkc prior items' best T Hnn Hpos HL HP; [lia|].
    destruct kc as [|[|n]]; [lia| |].
    - (* two bins left: ckk *)
      rewrite snp_rec_unfold2.
      assert (Hne : items' <> []) by (intros ->; rewrite vsum_nil in Hpos; lia).
      destruct (ckk_partition valueof nameof 2 items') as (two & E & Hpart); [lia|exact Hne|].
      rewrite E. pose proof (Hckk items' two Hne Hnn E) as [_ Hopt].
      specialize (Hopt (tsums T) (lists_attainable 2 items' T HL HP)).
      assert (Hle : spread (sums two ++ sums prior) <= spread (tsums T ++ sums prior)).
      { destruct Hpart as (P2 & L2 & W2).
        pose proof (wf_total valueof two W2) as Etwo. fold (vsum (contents two)) in Etwo.
        rewrite (vsum_perm _ _ P2) in Etwo.
        pose proof (vsum_concat T) as ET. rewrite (vsum_perm _ _ HP) in ET.
        destruct two as [|[a la] [|[b lb] [|? ?]]]; try discriminate.
        destruct T as [|ta [|tb [|? ?]]]; try discriminate.
        cbn [tsums sums map fst zsum fold_right] in *.
        apply balanced_two_minimises_spread; [lia|].
        cbn [value] in Hopt. exact Hopt. }
      destruct (spread (sums two ++ sums prior) <? bins_spread best) eqn:Ec.
      + unfold bins_spread. rewrite sums_app. exact Hle.
      + lia.
    - (* at least three bins left: choose the next bin by depth-first search *)
      rewrite snp_rec_unfold3.
      destruct (smallest_first T) as (c0 & T' & PT & HF0); [intros ->; discriminate|].
      assert (PC : Permutation (c0 ++ concat T') (sort_desc valueof items')).
      { change (c0 ++ concat T') with (concat (c0 :: T')). rewrite <- (concat_perm _ _ PT), HP.
        symmetry. apply sort_desc_perm. }
      destruct (multiset_sub _ _ _ PC) as (s & Hs & Ps).
      assert (L1 : length T' = S (S n)).
      { apply Permutation_length in PT. cbn [length] in PT. lia. }
      assert (P1 : Permutation (s ++ concat T') items').
      { rewrite Ps, PC. apply sort_desc_perm. }
      assert (F1 : Forall (fun l => vsum s <= vsum l) T').
      { rewrite (vsum_perm _ _ Ps). exact HF0. }
      apply (Z.le_trans _ (spread ((vsum s :: tsums T') ++ sums prior))).
      + (* the search owes this bound to the target whose smallest bin is [s]: [Psi := owes n prior items']
           at T'; the four holes are the bullets below, in this order *)
        refine (snp_dfs_complete (snp_next n prior items') (Z.of_nat (S (S (S n)))) (vsum items') items'
                  (owes n prior items') ltac:(lia) Hnn _ (owes_upper n prior items') (owes_lower n prior items') _ _
                  (sort_desc valueof items') [] best _ s Hs T' L1 P1 F1).
        * (* Psi_mono *) intros c d d' H1 H2 T1 L1' P1' F1'. specialize (H1 T1 L1' P1' F1'). lia.
        * (* next_le *) intros c b. apply snp_rec_le.
        * (* next_ok *) intros c b Hc Hup T1 LT1 PT1 FT1. unfold snp_next.
          pose proof (find_diff_perm items' c Hc) as PF.
          assert (PT1' : Permutation (concat T1) (find_diff items' c)).
          { apply (Permutation_app_inv_l c). rewrite PT1, PF. apply Permutation_refl. }
          pose proof (Permutation_Forall (Permutation_sym PF) Hnn) as HFa.
          apply Forall_app in HFa. destruct HFa as [Hnc Hnn'].
          pose proof (vsum_perm _ _ PF) as Et. rewrite vsum_app in Et.
          pose proof (nonneg_vsum _ Hnc) as Hc0.
          assert (Hpos' : 0 < vsum (find_diff items' c)) by nia.
          rewrite (IH ltac:(lia) (prior ++ [bin_of c]) (find_diff items' c) b T1 Hnn' Hpos' LT1 PT1').
          apply Z.eq_le_incl, spread_perm.
          rewrite sums_app. cbn [sums map]. rewrite bin_of_eq. cbn [fst].
          rewrite app_assoc. cbn [app]. symmetry. apply Permutation_cons_append.
        * (* the premise on [cur ++ rest] *) apply within_start.
      + apply Z.eq_le_incl, spread_perm.
        apply Permutation_app_tail. rewrite (vsum_perm _ _ Ps).
        change (vsum c0 :: tsums T') with (tsums (c0 :: T')). symmetry.
        unfold tsums. apply Permutation_map. exact PT.
  Qed.

  (** all values zero: every partition is perfect *)
  Lemma zero_total_perfect k items (b : bins A) :
    is_partition valueof k items b -> nonneg items -> vsum items = 0 -> bins_spread b = 0.
  Proof.
    intros (HP & HL & HW) Hnn Hz.
    assert (Hnn' : nonneg (contents b)) by (eapply Permutation_Forall; [symmetry; exact HP|exact Hnn]).
    pose proof (sums_nonneg valueof b HW Hnn') as Hs.
    pose proof (wf_total valueof b HW) as Et. fold (vsum (contents b)) in Et.
    rewrite (vsum_perm _ _ HP), Hz in Et.
    assert (Hall : forall x, In x (sums b) -> x = 0).
    { revert Hs Et. generalize (sums b). intros l. induction l as [|y l IHl]; intros Hs Et x Hx; [destruct Hx|].
      inversion Hs as [|y' l' Hy Hl]; subst y' l'. cbn [zsum fold_right] in Et. fold (zsum l) in Et.
      pose proof (zsum_nonneg l Hl) as Hl0. destruct Hx as [<-|Hx]; [lia|]. apply IHl; [exact Hl|lia|exact Hx]. }
    unfold bins_spread, spread. destruct (sums b) as [|y l] eqn:E; [reflexivity|].
    rewrite (Hall (zmax (y :: l))) by (apply zmax_in; discriminate).
    rewrite (Hall (zmin (y :: l))) by (apply zmin_in; discriminate). reflexivity.
  Qed.

  Theorem snp_optimal_from_ckk : ckk2_optimal_statement ->
    forall k items b, (1 <= k)%nat -> items <> [] -> nonneg items ->
      snp valueof nameof true k items = Ok b ->
      Opt MinDiff k (map valueof items) (value MinDiff (sums b) false).
  Proof.
    intros Hckk k items b Hk Hne Hnn Hs.
    destruct (snp_partition k items Hk Hne) as (b' & Hs' & Hpart).
    rewrite Hs in Hs'. injection Hs' as <-.
    split.
    - exists (sums b). split; [apply partition_attainable; exact Hpart|reflexivity].
    - intros s Hatt. cbn [value]. change (zmax (sums b) - zmin (sums b)) with (bins_spread b).
      change (zmax s - zmin s) with (spread s).
      destruct (kk_partition valueof k items Hk Hne) as (best & E & Hbest).
      unfold snp in Hs. rewrite E in Hs. destruct (bins_spread best =? 0) eqn:E0.
      + injection Hs as <-. pose proof (spread_nonneg s). lia.
      + injection Hs as <-.
        assert (Hpos : 0 < vsum items).
        { pose proof (nonneg_vsum _ Hnn) as H0.
          destruct (Z.eq_dec (vsum items) 0) as [Ez|Nz]; [|lia].
          pose proof (zero_total_perfect k items best Hbest Hnn Ez). lia. }
        destruct (attainable_lists k items s Hatt) as (T & HL & HP & <-).
        destruct (Nat.eq_dec k 1) as [->|Hk1].
        * exfalso. destruct Hbest as (_ & HLb & _). destruct best as [|[x lx] [|? ?]]; try discriminate.
          unfold bins_spread, spread in E0. cbn in E0. lia.
        * pose proof (snp_rec_optimal Hckk k ltac:(lia) [] items best T Hnn Hpos HL HP) as G.
          cbn [sums map] in G. rewrite app_nil_r in G. exact G.
  Qed.

  (** ------------------------------------------------------------------ *)
  (** * 5. rnp (a known finding of the library for k >= 4)                *)
  (** ------------------------------------------------------------------ *)

  Theorem rnp_k2 : forall items,
    rnp valueof nameof true 2 items =
    match kk valueof true 2 items with
    | Err e => Err e
    | Ok best => if bins_spread best =? 0 then Ok best else ckk valueof nameof true 2 items
    end.
  Proof. reflexivity. Qed.

  (** the inner search of [rnp_rec] for an odd number of bins *)
  Definition rnp_dfs (next : list A -> bins A -> result (bins A)) (kz t d0 : Z)
    : list A -> list A -> bins A -> result (bins A) :=
    fix dfs (rest cur : list A) (best : bins A) : result (bins A) :=
      if (t <? kz * vsum cur) || (kz * (vsum cur + vsum rest) <? t - (kz - 1) * d0)
      then Ok best
      else match rest with
           | [] => next cur best
           | x :: r => match dfs r (cur ++ [x]) best with
                       | Err e => Err e
                       | Ok best1 => dfs r cur best1
                       end
           end.

End SNPProofs.

(** [Hinj] is needed: with two items of the same name and different values, find_diff
    duplicates the first of them and snp returns something that is not a partition. *)
Example snp_needs_names_determine_items :
  snp (@snd Z Z) (@fst Z Z) true 3 [(1, 5); (1, 3); (2, 4)] =
  Ok [(5, [(1, 5)]); (5, [(1, 5)]); (4, [(2, 4)])].
Proof. vm_compute. reflexivity. Qed.

Print Assumptions smallest_bin_in_window.
Print Assumptions balanced_two_minimises_spread.
Print Assumptions find_diff_perm.
Print Assumptions snp_partition.
Print Assumptions snp_never_worse_than_kk.
Print Assumptions snp_optimal_from_ckk.
Print Assumptions rnp_k2.
