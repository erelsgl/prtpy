(** Properties of the model of balanced.py (Model/Balanced.v): partition (C01), the sums-only run makes the same
    decisions (C06), names are irrelevant (C07), input order is irrelevant and scaling commutes (C18). *)
From Coq Require Import ZifyBool.
From Prtpy Require Import Base.Prelude Model.Binner Model.Balanced Spec.Partition Proofs.BaseLemmas Proofs.BinnerLemmas Proofs.GreedyProofs Proofs.MetaProofs Model.Output Proofs.EraseProofs.

(** the bidirectional order as a dealing rule (see [deal] in GreedyProofs): the cursor is the bin index
    and the direction *)
Definition by_zigzag (k : nat) (st : nat * bool) (_ : list Z) : nat * (nat * bool) :=
  (fst st, bidir_next k (fst st) (snd st)).

Lemma bidirectional_balanced_dealt {A} (valueof : A -> Z) keep k items :
  bidirectional_balanced valueof keep k items = dealt valueof (by_zigzag k) keep k items (O, true).
Proof.
  unfold bidirectional_balanced, dealt. generalize (@new_bins A k) as b, O as i, true as up.
  induction (sort_desc valueof items) as [|x t IH]; intros b i up; [reflexivity|].
  cbn [bidir_loop deal by_zigzag fst snd]. destruct (bidir_next k i up) as [i' up']. apply IH.
Qed.

Section BalancedProofs.
  Context {A : Type} (valueof : A -> Z).

  Lemma bidir_next_lt k ibin up : (ibin < k)%nat -> (fst (bidir_next k ibin up) < k)%nat.
  Proof.
    intros H. unfold bidir_next. destruct up.
    - destruct (Nat.ltb (k - 1) (S ibin)) eqn:E; cbn [fst]; lia.
    - destruct ibin; cbn [fst]; lia.
  Qed.

  Theorem bidirectional_balanced_partition : forall k items, (1 <= k)%nat ->
    is_partition valueof k items (bidirectional_balanced valueof true k items).
  Proof.
    intros k items Hk. rewrite bidirectional_balanced_dealt.
    apply (dealt_partition _ _ k (fun st => (fst st < k)%nat)); [|cbn [fst]; lia].
    intros st s Hst _. split; [exact Hst|]. apply bidir_next_lt. exact Hst.
  Qed.

  Theorem bidirectional_balanced_erase : forall k items,
    erase (bidirectional_balanced valueof true k items) = bidirectional_balanced valueof false k items.
  Proof. intros k items. rewrite !bidirectional_balanced_dealt. apply dealt_erase. Qed.

  Theorem bidirectional_balanced_names : forall k items,
    map_bins valueof (bidirectional_balanced valueof true k items) =
    bidirectional_balanced (fun v : Z => v) true k (map valueof items).
  Proof. intros k items. rewrite !bidirectional_balanced_dealt. apply dealt_names. Qed.

  Theorem C06_bidirectional_balanced : forall o k items, keeps o = false ->
    run_partition o (@bidirectional_balanced A) valueof k items = derive o (sums (bidirectional_balanced valueof true k items)).
  Proof.
    intros o k items Hk. unfold run_partition.
    apply (C06_schema (fun keep => bidirectional_balanced valueof keep k items)); [apply bidirectional_balanced_erase|exact Hk].
  Qed.
End BalancedProofs.

(** ---- input order is irrelevant; scaling commutes (C18) ---- *)
Theorem bidirectional_balanced_perm k vs1 vs2 : Permutation vs1 vs2 ->
  bidirectional_balanced id true k vs1 = bidirectional_balanced id true k vs2.
Proof. intros P. unfold bidirectional_balanced. rewrite (sort_desc_perm_eq vs1 vs2 P). reflexivity. Qed.

Theorem bidirectional_balanced_scale : forall c k vs, 0 < c ->
  bidirectional_balanced id true k (map (Z.mul c) vs) = scale_bins c (bidirectional_balanced id true k vs).
Proof. intros c k vs Hc. rewrite !bidirectional_balanced_dealt. apply dealt_scale; [exact Hc|reflexivity]. Qed.

Print Assumptions bidirectional_balanced_partition.
Print Assumptions bidirectional_balanced_erase.
Print Assumptions bidirectional_balanced_names.
Print Assumptions bidirectional_balanced_perm.
Print Assumptions bidirectional_balanced_scale.
Print Assumptions C06_bidirectional_balanced.
