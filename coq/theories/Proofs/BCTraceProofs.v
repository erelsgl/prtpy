(** The traced bin completion returns exactly what bin_completion returns. *)
From Prtpy Require Import Base.Prelude Model.Binner Model.Packing Model.BinCompletion Model.BinCompletionTrace.

Section P.
  Variable keep : bool.
  Variable C : Z.

  Lemma bc_inner_tr_fst : forall fuel bestn items b newbr tr,
    fst (bc_inner_tr keep C fuel bestn items b newbr tr) = bc_inner keep C fuel bestn items b newbr.
  Proof.
    induction fuel as [|f IH]; intros bestn items b newbr tr; [reflexivity|].
    cbn [bc_inner_tr bc_inner]. destruct items as [|x updated]; [reflexivity|].
    destruct (find_bin_completions x updated C) as [|c0 others]; cbv zeta;
      (destruct (plb_ge C _ _ _); [reflexivity|apply IH]).
  Qed.

  Lemma bc_outer_tr_fst : forall fuel lb queue best tr,
    fst (bc_outer_tr keep C fuel lb queue best tr) = bc_outer keep C fuel lb queue best.
  Proof.
    induction fuel as [|f IH]; intros lb queue best tr; [reflexivity|].
    cbn [bc_outer_tr bc_outer]. destruct queue as [|cb q]; [reflexivity|].
    pose proof (bc_inner_tr_fst (length (br_items cb)) (length best) (br_items cb) (br_bins cb) [] tr) as E.
    destruct (bc_inner_tr keep C (length (br_items cb)) (length best) (br_items cb) (br_bins cb) [] tr) as [[[i1 b1] n1] t1].
    cbn [fst] in E. rewrite <- E.
    destruct (Z.of_nat (length _) =? lb); [reflexivity|]. apply IH.
  Qed.

  Theorem bc_tr_result : forall fuel items, fst (bin_completion_tr keep C fuel items) = bin_completion keep C fuel items.
  Proof.
    intros fuel items. unfold bin_completion_tr, bin_completion.
    destruct (existsb _ items); [reflexivity|].
    destruct (best_fit_decreasing zid keep C _) as [bfd|e]; [|reflexivity].
    destruct (Z.of_nat (length bfd) =? _); [reflexivity|]. apply bc_outer_tr_fst.
  Qed.
End P.

Print Assumptions bc_tr_result.
