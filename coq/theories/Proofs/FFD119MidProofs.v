(** First-fit-decreasing <= 11/9 OPT + c for x (the first item of the last bin) in (2C/11, C/4], the range
    FFD119Proofs.v does not cover, except for the sliver 8C/41 < x <= C/5.

    Proved (b = bins of first_fit_decreasing, n = any number of bins of capacity C that can hold the
    values; hypotheses items <> [], values >= 0):

      ffd_119_ranges3         : with x = the first item of the last bin,
                                  11 x <= 2 C            ->  9 |b| <= 11 n + 8
                                  C < 4 x                ->  6 |b| <=  7 n + 5
                                  C < 5 x, 4 x <= C      ->  9 |b| <= 11 n + 13     (Section Quarter)
                                  2 C < 11 x, 41 x <= 8C ->  9 |b| <= 11 n + 16     (Section Fifth)
      ffd_ratio_11_9_partial2 : 9 |b| <= 11 n + 16 provided no value lies in (8C/41, C/5]

    Method.  Values below x weigh 0.  The values >= x of a bin (its "core": closed, i.e. x does not fit)
    are weighted BY THE BIN THEY SIT IN (Yue/Dosa style), which size-only weights cannot do.  Every bin
    but O(1) weighs >= FF, every feasible set of labelled values weighs <= OO, OO/FF = 11/9.
    The argument is proved once, for any relation [Lt] between the core of an earlier and of a later bin
    that is [later_like]: the first values decrease, the first value of the later core does not fit into
    the earlier one, nor does a value that has only the first value beside it among the values at
    least as large of its core (so: the second of two values, any value above C/3).  [Later] of
    first-fit-decreasing (NO value of the later core fits, from [sfit2]) is such a relation, and so is
    [LaterB] of best-fit-decreasing in BFD119MidProofs.v, which instantiates [quarter_of] / [fifth_of].
    Section Frame: labels (value, core, position), [Later], chains of cores; Section Rel: [later_like],
    its consequences and the three facts about companions of big values ([no_mix_gen],
    [boosted_vs_B1], [late_fits_contra]); Section Weights: the transport of the labels through the
    Packable witness (Permutation_map_inv, [lift_groups]) and the counting argument [count_of];
    Section Heavy: [heavy_by_kinds], all bins but a few are heavy, from a list of thresholds each of
    which is passed at most once along a chain.  Section Shape: [Wshape], the form of the weights of a
    core that the two ranges share (a table of natural weights, the weight of a single companion of a
    value above C/2, the weights of several companions), and the heavy side reduced to
    the cores without a value above C/2 ([shape_cases]).  [by_count]: such a core, by the number of its
    values above the threshold T of the class of its first value, of which m fit into a bin: m of them
    make it heavy ([weight_above]), fewer are values that all fit ([nofit_few]), which is what
    [heavy_by_kinds] asks of a deficient core.  [light_by_size] (Section Weights) splits the light side by
    the number of values.  What is left to each range is its table and the arithmetic of it; the tables
    ([nu_spec], [wp_spec], [nu5_spec], [wp5_spec], ...) are disjunctions that lia is given as hypotheses.
    Section Quarter (C < 5x, 4x <= C; FF = 36, OO = 44):
      classes of v <= C/2:  L (2v > C-x) 18,  M+ (3v > C) 14,  M- (3v > C-x) 12,  S 9;   v > C-x: 36;
      a bin whose first value b exceeds C/2 weighs exactly 36:
        [b; p]      : w p = 17 (L), 13 (M+), 13 or 12 (M-; 13 iff an M- and an S fit beside b),
                      10 or 9 (S; 10 iff 2x fit beside b);   w b = 36 - w p
        [b; p; q..] : w b = 18, companions 9 each.
      Deficient bins ([kinds4], by the class of the first value): L 30, M+ 32, M- 30; all values of the
      later bins lie below that class, total deficiency <= 6 + 4 + 6 ([heavy]).
    Section Fifth (2C < 11x, 41x <= 8C; FF = 180, OO = 220):
      classes L 90, M+ 72, M- 60, S+ (4v > C) 48, S- (4v > C-x) 45, T 36;  v > C-x: 180;
        [b; p]      : w p = 76 (L), 68 (M+), 65/60 (M-; 65 iff an M- and an S- fit beside b),
                      53/50/48 (S+; an S+ and an S- fit / two S- fit), 50/45 (S-; two S- fit), 36 (T)
        [b; p; q..] : companions natural, w b = 180 - their sum.
      Five kinds of deficient bins ([kinds5]), total deficiency <= 150 ([heavy5_of]).  The bound
      41 x <= 8 C is exactly what excludes two boosted M- with an S+ and an S- ([pat4]).
    The weights were found by linear programmes over labelled bin patterns.
    A [_partial] in a name marks a constant weaker than the published one, not an incomplete proof.

    OPEN: 8C/41 < x <= C/5.  There the tight families (b,m)^6 (m',m',m')^2 (s,s,s,s)^3 -> {b,m',s}^6
    {m,m,s,s}^3 (ratio exactly 11/9, exists for every x > 2C/11) force w m = 65, and {m,m,S+,S-} together
    with bins (S+,S+,S+,T) and T^5 then needs weights of S+, S-, T that depend on the kind of bin they
    fill and on relations between two bins without big value; class-based weights are infeasible
    (the linear programme over them has value 1.2226 > 11/9). *)
From Prtpy Require Import Base.Prelude Model.Binner Model.Packing Spec.Partition
  Proofs.BaseLemmas Proofs.BinnerLemmas Proofs.PackingProofs Proofs.FFDRatioProofs
  Proofs.BCOptimalProofs Proofs.FFD119Proofs Oracle.Reach Proofs.OracleSpec.
From Coq Require Import ZifyBool Sorting.Sorted.

(** ---- a symmetric relation on all pairs of a list ---- *)
Section Pairs.
  Context {T : Type} (R : T -> T -> Prop).

  Fixpoint AllPairs (l : list T) : Prop :=
    match l with
    | [] => True
    | a :: t => Forall (R a) t /\ AllPairs t
    end.

  Lemma AllPairs_app l1 l2 : AllPairs (l1 ++ l2) <->
    AllPairs l1 /\ AllPairs l2 /\ Forall (fun a => Forall (R a) l2) l1.
  Proof.
    induction l1 as [|a l1 IH]; cbn [app AllPairs].
    - split; [intros H; split; [exact I|split; [exact H|constructor]]|intros (_ & H & _); exact H].
    - rewrite IH. split.
      + intros (Ha & H1 & H2 & H3). apply Forall_app in Ha. destruct Ha as [Ha1 Ha2].
        split; [split; assumption|split; [exact H2|constructor; assumption]].
      + intros ((Ha1 & H1) & H2 & H3). apply Forall_cons_iff in H3. destruct H3 as [Ha2 H3].
        split; [apply Forall_app; split; assumption|split; [exact H1|split; assumption]].
  Qed.

  Hypothesis Rsym : forall a b, R a b -> R b a.

  Lemma AllPairs_perm l l' : Permutation l l' -> AllPairs l -> AllPairs l'.
  Proof.
    intros P. induction P as [|a l l' P IH|a b l|l l' l'' P1 IH1 P2 IH2]; cbn [AllPairs].
    - auto.
    - intros [H1 H2]. split; [eapply Permutation_Forall; eassumption|apply IH; exact H2].
    - intros (H1 & H2 & H3). apply Forall_cons_iff in H1. destruct H1 as [Hab H1].
      split; [constructor; [apply Rsym; exact Hab|exact H2]|split; assumption].
    - auto.
  Qed.

  Lemma AllPairs_concat_elim (G : list (list T)) : AllPairs (concat G) -> Forall AllPairs G.
  Proof.
    induction G as [|g G IH]; cbn [concat]; intros H; [constructor|].
    apply AllPairs_app in H. destruct H as (H1 & H2 & _). constructor; [exact H1|apply IH; exact H2].
  Qed.

  Lemma AllPairs_filter (f : T -> bool) l : AllPairs l -> AllPairs (filter f l).
  Proof.
    induction l as [|a l IH]; cbn [filter AllPairs]; [auto|]. intros [H1 H2].
    destruct (f a); [cbn [AllPairs]; split; [|apply IH; exact H2]|apply IH; exact H2].
    apply Forall_forall. intros b Hb. apply filter_In in Hb. destruct Hb as [Hb _].
    rewrite Forall_forall in H1. apply H1. exact Hb.
  Qed.
End Pairs.

(** ---- lifting a grouping of the values to labelled values ---- *)
Lemma map_eq_concat {T U : Type} (f : T -> U) : forall (G : list (list U)) (l : list T),
  map f l = concat G -> exists G', l = concat G' /\ map (map f) G' = G.
Proof.
  induction G as [|g G IH]; intros l H; cbn [concat] in H.
  - apply map_eq_nil in H. subst l. exists []. split; reflexivity.
  - apply map_eq_app in H. destruct H as (l1 & l2 & E & H1 & H2). subst l.
    destruct (IH l2 H2) as (G' & E2 & HG). exists (l1 :: G'). cbn [concat map].
    rewrite E2, H1, HG. split; reflexivity.
Qed.

Lemma lift_groups {T U : Type} (f : T -> U) (L : list T) (G : list (list U)) :
  Permutation (concat G) (map f L) ->
  exists G', map (map f) G' = G /\ Permutation L (concat G').
Proof.
  intros P. destruct (Permutation_map_inv f L P) as (l3 & E & P3).
  destruct (map_eq_concat f G l3 (eq_sym E)) as (G' & E3 & HG).
  exists G'. split; [exact HG|]. rewrite <- E3. exact P3.
Qed.

(** a list can be sorted by a key *)
Lemma exists_sorted {T : Type} (key : T -> Z) (l : list T) :
  exists l', Permutation l l' /\ StronglySorted (fun a b => key b <= key a) l'.
Proof.
  induction l as [|a l (l' & P & S)]; [exists []; split; [constructor|constructor]|].
  assert (Hins : exists l'', Permutation (a :: l') l'' /\ StronglySorted (fun a b => key b <= key a) l'').
  { clear P l. induction S as [|b l' S IH Hb].
    - exists [a]. split; [apply Permutation_refl|constructor; [constructor|constructor]].
    - destruct (Z_le_dec (key b) (key a)) as [Hle|Hgt].
      + exists (a :: b :: l'). split; [apply Permutation_refl|].
        constructor; [constructor; assumption|]. constructor; [exact Hle|].
        eapply Forall_impl; [|exact Hb]. intros c Hc. cbv beta in Hc. lia.
      + destruct IH as (l'' & P & S'').
        exists (b :: l''). split.
        * apply Permutation_trans with (b :: a :: l'); [apply perm_swap|apply perm_skip; exact P].
        * constructor; [exact S''|]. eapply Permutation_Forall; [exact P|].
          constructor; [lia|exact Hb]. }
  destruct Hins as (l'' & P2 & S2). exists l''. split; [|exact S2].
  apply Permutation_trans with (a :: l'); [apply perm_skip; exact P|exact P2].
Qed.

Lemma zsum_map_ge (f : Z -> Z) m l : (forall v, m <= f v) -> m * Z.of_nat (length l) <= zsum (map f l).
Proof.
  intros H. induction l as [|a l IH]; [cbn; lia|]. cbn [map length].
  rewrite zsum_cons, Nat2Z.inj_succ. pose proof (H a). lia.
Qed.

Lemma nth_map_some {T U : Type} (f : T -> U) : forall (l : list T) k v d,
  nth_error l k = Some v -> nth k (map f l) d = f v.
Proof.
  induction l as [|a l IH]; intros k v d H; [destruct k; discriminate H|].
  destruct k as [|k]; cbn in *; [injection H as H; subst; reflexivity|apply IH; exact H].
Qed.

Lemma short_sum y h s : 0 < y -> Forall (fun v => y <= v <= h) s -> In y s -> zsum s < 3 * y ->
  zsum s <= y + h.
Proof.
  intros Hy HF Hin Hs. destruct s as [|a [|b [|c r]]].
  - destruct Hin.
  - rewrite zsum_cons, zsum_nil. apply Forall_cons_iff in HF. destruct HF as [Ha _].
    destruct Hin as [E|[]]. lia.
  - rewrite !zsum_cons, zsum_nil. apply Forall_cons_iff in HF. destruct HF as [Ha HF].
    apply Forall_cons_iff in HF. destruct HF as [Hb _]. destruct Hin as [E|[E|[]]]; lia.
  - exfalso. rewrite !zsum_cons in Hs. apply Forall_cons_iff in HF. destruct HF as [Ha HF].
    apply Forall_cons_iff in HF. destruct HF as [Hb HF]. apply Forall_cons_iff in HF. destruct HF as [Hc HF].
    assert (0 <= zsum r).
    { apply zsum_nonneg. eapply Forall_impl; [|exact HF]. intros z Hz. cbv beta in Hz. lia. }
    lia.
Qed.

(** ---- allowances: each pair (T, d) of a list contributes d to the bounds above T ---- *)
Fixpoint allow (ts : list (Z * Z)) (B : Z) : Z :=
  match ts with
  | [] => 0
  | (T, d) :: r => (if T <? B then d else 0) + allow r B
  end.

Lemma allow_nonneg ts B : Forall (fun p => 0 <= snd p) ts -> 0 <= allow ts B.
Proof.
  intros H. induction H as [|[T d] r Hd Hr IH]; cbn [allow]; [lia|]. cbn [snd] in Hd. destruct (T <? B); lia.
Qed.

Lemma allow_le ts B : Forall (fun p => 0 <= snd p) ts -> allow ts B <= zsum (map snd ts).
Proof.
  intros H. induction H as [|[T d] r Hd Hr IH]; cbn [allow map]; [rewrite zsum_nil; lia|].
  cbn [snd] in *. rewrite zsum_cons. destruct (T <? B); lia.
Qed.

Lemma allow_mono ts A B : Forall (fun p => 0 <= snd p) ts -> A <= B -> allow ts A <= allow ts B.
Proof.
  intros H HAB. induction H as [|[T d] r Hd Hr IH]; cbn [allow]; [lia|]. cbn [snd] in Hd.
  destruct (T <? A) eqn:E1; destruct (T <? B) eqn:E2; lia.
Qed.

Lemma allow_step ts T d B : Forall (fun p => 0 <= snd p) ts -> In (T, d) ts -> T < B ->
  d + allow ts T <= allow ts B.
Proof.
  intros H Hin HTB. induction H as [|[T' d'] r Hd Hr IH]; [destruct Hin|]. cbn [allow]. cbn [snd] in Hd.
  destruct Hin as [E|Hin].
  - injection E as E1 E2. subst T' d'. pose proof (allow_mono r T B Hr ltac:(lia)).
    destruct (T <? T) eqn:E1; destruct (T <? B) eqn:E2; lia.
  - specialize (IH Hin). destruct (T' <? T) eqn:E1; destruct (T' <? B) eqn:E2; lia.
Qed.

Definition label : Type := (Z * (list Z * nat))%type.
Definition lv (a : label) : Z := fst a.
Definition lc (a : label) : list Z := fst (snd a).
Definition lk (a : label) : nat := snd (snd a).

(** ---- the frame: cores, the relation between cores of different bins, chains of cores ---- *)
Section Frame.
  Variables C x : Z.
  Hypothesis Hxpos : 0 < x.
  Hypothesis HxC : x <= C.

  (** the values >= x of a bin that x does not fit into; the first value is the largest *)
  Definition okcore (c : list Z) : Prop :=
    Forall (fun v => x <= v) c /\ zsum c <= C /\ C < zsum c + x /\ Forall (fun v => v <= hd 0 c) c.

  (** ---- what two labelled values of the packing know about each other ---- *)
  Definition Later (c c' : list Z) : Prop :=
    Forall (fun y => C < zsum (sel y c) + y) c' /\ hd 0 c' <= hd 0 c.

  (** a labelled value of a closed bin *)
  Definition Vc (a : label) : Prop := okcore (lc a) /\ nth_error (lc a) (lk a) = Some (lv a).
  Definition Rc (a a' : label) : Prop :=
    lc a = lc a' \/ Later (lc a) (lc a') \/ Later (lc a') (lc a).

  Lemma Vc_ge a : Vc a -> x <= lv a.
  Proof.
    intros [(Hge & _) Hn]. apply nth_error_In in Hn. rewrite Forall_forall in Hge. apply Hge. exact Hn.
  Qed.

  Lemma Vc_le_hd a : Vc a -> lv a <= hd 0 (lc a).
  Proof.
    intros [(_ & _ & _ & Hh) Hn]. apply nth_error_In in Hn. rewrite Forall_forall in Hh. apply Hh. exact Hn.
  Qed.

  Lemma Vc_in a : Vc a -> In (lv a) (lc a).
  Proof. intros [_ Hn]. eapply nth_error_In. exact Hn. Qed.

  Lemma okcore2 b p : okcore [b; p] -> x <= b /\ x <= p /\ b + p <= C /\ C < b + p + x /\ p <= b.
  Proof.
    intros (Hge & Hs & Hc & Hh). rewrite !zsum_cons, zsum_nil in *.
    apply Forall_cons_iff in Hge. destruct Hge as [H1 Hge]. apply Forall_cons_iff in Hge. destruct Hge as [H2 _].
    apply Forall_cons_iff in Hh. destruct Hh as [_ Hh]. apply Forall_cons_iff in Hh. destruct Hh as [H3 _].
    cbn [hd] in H3. lia.
  Qed.

  Lemma Later_in c c' y : Later c c' -> In y c' -> C < zsum (sel y c) + y.
  Proof. intros [H _] Hy. rewrite Forall_forall in H. apply H. exact Hy. Qed.

  Definition nofit (P : Z -> Prop) (c : list Z) : Prop := forall y, P y -> zsum (sel y c) + y <= C.

  (** the cores of the bins, in order: each closed, each later one [Later] than the earlier ones *)
  Fixpoint chain (cs : list (list Z)) : Prop :=
    match cs with
    | [] => True
    | c :: r => okcore c /\ Forall (Later c) r /\ chain r
    end.

  Definition gv (g : list label) : Z := zsum (map lv g).
  Lemma gv_cons a g : gv (a :: g) = lv a + gv g.
  Proof. reflexivity. Qed.
  Lemma gv_perm g1 g2 : Permutation g1 g2 -> gv g1 = gv g2.
  Proof. intros P. unfold gv. apply zsum_perm. apply Permutation_map. exact P. Qed.

  Lemma gv_ge g : Forall Vc g -> x * Z.of_nat (length g) <= gv g.
  Proof.
    intros H. induction H as [|a g Ha Hg IH]; [cbn; lia|].
    rewrite gv_cons. cbn [length]. rewrite Nat2Z.inj_succ. pose proof (Vc_ge a Ha). lia.
  Qed.

  (** ---- what the proofs use of the relation between the core of an earlier and of a later bin ---- *)
  Section Rel.
    Variable Lt : list Z -> list Z -> Prop.

    (** [Rc] and [chain] above are the instances at [Later] *)
    Definition Rc_of (a a' : label) : Prop := lc a = lc a' \/ Lt (lc a) (lc a') \/ Lt (lc a') (lc a).

    Lemma Rc_of_sym a a' : Rc_of a a' -> Rc_of a' a.
    Proof.
      intros [H|[H|H]]; [left; symmetry; exact H|right; right; exact H|right; left; exact H].
    Qed.

    Fixpoint chain_of (cs : list (list Z)) : Prop :=
      match cs with
      | [] => True
      | c :: r => okcore c /\ Forall (Lt c) r /\ chain_of r
      end.

    Lemma chain_of_okcore : forall cs, chain_of cs -> Forall okcore cs.
    Proof.
      induction cs as [|c r IH]; intros H; [constructor|]. cbn [chain_of] in H. destruct H as (Ho & _ & Hr).
      constructor; [exact Ho|apply IH; exact Hr].
    Qed.

    (** With c the core of the earlier bin and c' that of the later one: the first values decrease; the
        first value of c' does not fit into c (counting the values at least as large); neither does a
        value y of c' that has, among the values >= y of c', only the first value beside it.
        [Later] has this since no value of c' fits; [LaterB] of BFD119MidProofs.v since best-fit put y
        into the fuller bin. *)
    Definition later_like : Prop := forall c c', okcore c' -> Lt c c' ->
      hd 0 c' <= hd 0 c /\ C < zsum (sel (hd 0 c') c) + hd 0 c' /\
      forall y, In y c' -> zsum (sel y c') <= hd 0 c' + y -> C < zsum (sel y c) + y.

    Hypothesis HLt : later_like.

    Lemma later_hd c c' : okcore c' -> Lt c c' -> hd 0 c' <= hd 0 c.
    Proof. intros O HL. exact (proj1 (HLt c c' O HL)). Qed.

    Lemma later_first c c' : okcore c' -> Lt c c' -> C < zsum (sel (hd 0 c') c) + hd 0 c'.
    Proof. intros O HL. exact (proj1 (proj2 (HLt c c' O HL))). Qed.

    (** the second value of a later core of two values does not fit *)
    Lemma later_second c b z : okcore [b; z] -> Lt c [b; z] -> C < zsum (sel z c) + z.
    Proof.
      intros O HL. pose proof (okcore2 _ _ O) as O'. destruct (HLt c _ O HL) as (_ & _ & H).
      apply H; [right; left; reflexivity|]. cbn [hd]. sel_cases z.
    Qed.

    (** a value above C/3 of a later core does not fit: at most two values of its core are as large *)
    Lemma later_third c c' y : okcore c' -> Lt c c' -> In y c' -> C < 3 * y -> C < zsum (sel y c) + y.
    Proof.
      intros O HL Hin Hy. destruct (HLt c c' O HL) as (_ & _ & H). apply H; [exact Hin|].
      destruct O as (Hge & Hsum & _ & Hhd).
      assert (Hnn : Forall (fun a => 0 <= a) c') by (eapply Forall_impl; [|exact Hge]; intros a Ha; cbv beta in Ha; lia).
      pose proof (zsum_sel_le y c' Hnn).
      assert (zsum (sel y c') <= y + hd 0 c'); [|lia].
      apply short_sum; [lia| | |lia].
      - apply Forall_forall. intros v Hv. unfold sel in Hv. apply filter_In in Hv. destruct Hv as [Hv Hyv].
        rewrite Forall_forall in Hhd. specialize (Hhd v Hv). cbv beta in Hhd. lia.
      - unfold sel. apply filter_In. split; [exact Hin|lia].
    Qed.

    (** two companions of big values: the larger one would have gone into the earlier bin *)
    Lemma no_mix_gen a1 a2 b1 z1 b2 z2 :
      lc a1 = [b1; z1] -> lc a2 = [b2; z2] -> okcore [b1; z1] -> okcore [b2; z2] ->
      b1 < b2 -> z2 < z1 -> b2 + z1 <= C -> Rc_of a1 a2 -> False.
    Proof.
      intros E1 E2 O1 O2 Hb Hz Hfit HR. pose proof (okcore2 _ _ O1). unfold Rc_of in HR. rewrite E1, E2 in HR.
      destruct HR as [E|[HL|HL]].
      - injection E as Eb Ez. lia.
      - apply (later_hd _ _ O2) in HL. cbn [hd] in HL. lia.
      - apply (later_second _ _ _ O1) in HL. revert HL. sel_cases z1.
    Qed.

    (** a boosted companion z (alone with b' in its bin) cannot share an optimal bin with b, whose only
        companion p is larger than z and fits with b', and a further value z' *)
    Lemma boosted_vs_B1 a az b p b' z z' :
      lc a = [b; p] -> lc az = [b'; z] -> okcore [b; p] -> okcore [b'; z] -> Rc_of a az ->
      C < 2 * b' -> x <= z' -> b + z + z' <= C -> z < p -> b' + p <= C -> False.
    Proof.
      intros E1 E2 O1 O2 HR Hb' Hz' Hsum Hzp Hfit.
      pose proof (okcore2 _ _ O1). pose proof (okcore2 _ _ O2). unfold Rc_of in HR. rewrite E1, E2 in HR.
      destruct HR as [E|[HL|HL]].
      - injection E as Eb Ez. lia.
      - apply (later_hd _ _ O2) in HL. cbn [hd] in HL. lia.
      - apply (later_second _ _ _ O1) in HL. revert HL. sel_cases p.
    Qed.

    (** a value above C/3 of a bin without a big value does not meet a companion z smaller than itself
        of a big value b' that it fits beside *)
    Lemma late_fits_contra au az b' z :
      Vc au -> 2 * hd 0 (lc au) <= C -> lc az = [b'; z] -> okcore [b'; z] -> C < 2 * b' ->
      z < lv au -> b' + lv au <= C -> C < 3 * lv au -> Rc_of au az -> False.
    Proof.
      intros Vu Hh E O Hb' Hz Hfit H3 HR. pose proof (Vc_le_hd au Vu) as Hle.
      unfold Rc_of in HR. rewrite E in HR. destruct HR as [E0|[HL|HL]].
      - rewrite E0 in Hh. cbn [hd] in Hh. lia.
      - apply (later_hd _ _ O) in HL. cbn [hd] in HL. lia.
      - pose proof (later_third _ _ _ (proj1 Vu) HL (Vc_in au Vu) H3) as HL'. revert HL'. sel_cases (lv au).
    Qed.
  End Rel.

  Lemma Later_like : later_like Later.
  Proof.
    intros c c' (_ & _ & Hcl & _) HL. split; [exact (proj2 HL)|].
    split; [|intros y Hy _; exact (Later_in c c' y HL Hy)].
    apply (Later_in c c' _ HL). destruct c' as [|a r]; [rewrite zsum_nil in Hcl; lia|left; reflexivity].
  Qed.

  Lemma Rc_sym a a' : Rc a a' -> Rc a' a.
  Proof. exact (Rc_of_sym Later a a'). Qed.

  Lemma chain_okcore : forall cs, chain cs -> Forall okcore cs.
  Proof. exact (chain_of_okcore Later). Qed.

  (** ---- a weighting of the cores: labelled values, their total, the counting argument ---- *)
  Section Weights.
    Variable Wc : list Z -> list Z.
    Hypothesis Wc_len : forall c, length (Wc c) = length c.
    Variables FF OO DD : Z.

    Definition wl (a : label) : Z := nth (lk a) (Wc (lc a)) 0.
    Definition cw (c : list Z) : Z := zsum (Wc c).
    Definition tw (cs : list (list Z)) : Z := zsum (map cw cs).
    Lemma tw_nil : tw [] = 0.
    Proof. reflexivity. Qed.
    Lemma tw_cons c r : tw (c :: r) = cw c + tw r.
    Proof. reflexivity. Qed.

    Definition Vl (a : label) : Prop := (lc a = [] /\ 0 <= lv a) \/ Vc a.
    Definition Rl (a a' : label) : Prop := lc a = [] \/ lc a' = [] \/ Rc a a'.
    Definition gw (g : list label) : Z := zsum (map wl g).

    Lemma gw_cons a g : gw (a :: g) = wl a + gw g.
    Proof. reflexivity. Qed.
    Lemma gw_app g1 g2 : gw (g1 ++ g2) = gw g1 + gw g2.
    Proof. unfold gw. rewrite map_app. apply zsum_app. Qed.
    Lemma gw_perm g1 g2 : Permutation g1 g2 -> gw g1 = gw g2.
    Proof. intros P. unfold gw. apply zsum_perm. apply Permutation_map. exact P. Qed.

    Lemma wl_nil a : lc a = [] -> wl a = 0.
    Proof.
      intros E. unfold wl. rewrite E. pose proof (Wc_len []) as Hl. destruct (Wc []); [|discriminate Hl].
      destruct (lk a); reflexivity.
    Qed.

  Definition cored (a : label) : bool := match lc a with [] => false | _ => true end.

  Lemma cored_true a : cored a = true <-> lc a <> [].
  Proof. unfold cored. destruct (lc a); split; congruence. Qed.

  (** ---- the labelled values of a packing ---- *)
  Fixpoint labs_from (c : list Z) (k : nat) (l : list Z) : list label :=
    match l with
    | [] => []
    | v :: r => (v, (c, k)) :: labs_from c (S k) r
    end.
  Definition labs (c : list Z) : list label := labs_from c 0 c.
  Definition lab_small (vs : list Z) : list label := map (fun v => (v, (@nil Z, 0%nat))) vs.

  Lemma labs_from_lv c : forall l k, map lv (labs_from c k l) = l.
  Proof. induction l as [|v r IH]; intros k; cbn [labs_from map]; [reflexivity|]. rewrite IH. reflexivity. Qed.

  Lemma labs_from_lc c : forall l k, Forall (fun a => lc a = c) (labs_from c k l).
  Proof. induction l as [|v r IH]; intros k; cbn [labs_from]; constructor; [reflexivity|apply IH]. Qed.

  Lemma labs_from_nth c : forall l k, (forall i, nth_error l i = nth_error c (k + i)) ->
    Forall (fun a => nth_error c (lk a) = Some (lv a)) (labs_from c k l).
  Proof.
    induction l as [|v r IH]; intros k H; cbn [labs_from]; constructor.
    - specialize (H 0%nat). cbn [nth_error] in H. rewrite Nat.add_0_r in H. symmetry. exact H.
    - apply IH. intros i. specialize (H (S i)). cbn [nth_error] in H. rewrite H. f_equal. lia.
  Qed.

  Lemma skipn_nth_cons (W : list Z) : forall k, (k < length W)%nat -> skipn k W = nth k W 0 :: skipn (S k) W.
  Proof.
    induction W as [|w W IH]; intros k Hk; [cbn [length] in Hk; lia|].
    destruct k as [|k]; [reflexivity|]. cbn [skipn nth length] in *. apply IH. lia.
  Qed.

  Lemma labs_from_gw c : forall l k, (length l + k = length (Wc c))%nat ->
    gw (labs_from c k l) = zsum (skipn k (Wc c)).
  Proof.
    induction l as [|v r IH]; intros k Hk; cbn [labs_from].
    - cbn [length] in Hk. rewrite skipn_all2; [reflexivity|lia].
    - cbn [length] in Hk. rewrite gw_cons, IH; [|lia]. rewrite (skipn_nth_cons _ k); [|lia].
      rewrite zsum_cons. reflexivity.
  Qed.

  Lemma labs_lv c : map lv (labs c) = c.
  Proof. apply labs_from_lv. Qed.

  Lemma labs_gw c : gw (labs c) = cw c.
  Proof. unfold labs, cw. rewrite labs_from_gw; [reflexivity|rewrite Wc_len; lia]. Qed.

  Lemma labs_Vc c : okcore c -> Forall Vc (labs c).
  Proof.
    intros Ho. pose proof (labs_from_lc c c 0) as H1.
    pose proof (labs_from_nth c c 0 (fun i => eq_refl)) as H2.
    apply Forall_forall. intros a Ha. rewrite Forall_forall in H1, H2.
    specialize (H1 a Ha). specialize (H2 a Ha). cbv beta in H1, H2. unfold Vc. rewrite H1. split; assumption.
  Qed.

  Lemma lab_small_lv vs : map lv (lab_small vs) = vs.
  Proof. unfold lab_small. rewrite map_map. cbn [lv fst]. apply map_id. Qed.

  Lemma lab_small_lc vs : Forall (fun a => lc a = []) (lab_small vs).
  Proof. unfold lab_small. rewrite Forall_map. apply Forall_forall. intros v _. reflexivity. Qed.

  Lemma lab_small_gw vs : gw (lab_small vs) = 0.
  Proof.
    induction vs as [|v vs IH]; [reflexivity|]. unfold lab_small in *. cbn [map]. rewrite gw_cons, IH.
    rewrite wl_nil; [lia|reflexivity].
  Qed.

  Lemma filter_split_perm (f : Z -> bool) l :
    Permutation (filter f l ++ filter (fun a => negb (f a)) l) l.
  Proof.
    induction l as [|a l IH]; [constructor|]. cbn [filter]. destruct (f a); cbn [negb app].
    - apply perm_skip. exact IH.
    - apply Permutation_sym. apply Permutation_cons_app. apply Permutation_sym. exact IH.
  Qed.
  Section Connect.
    Context {A : Type} (valueof : A -> Z).
    Notation vals bn := (map valueof (snd bn)).

    Definition core (bn : bin A) : list Z := sel x (vals bn).
    Definition lab_bin (bn : bin A) : list label :=
      labs (core bn) ++ lab_small (filter (fun v => negb (x <=? v)) (vals bn)).
    Definition LABt (t : bins A) : list label := concat (map lab_bin t).

    Lemma lab_bin_lv bn : Permutation (map lv (lab_bin bn)) (vals bn).
    Proof.
      unfold lab_bin. rewrite map_app, labs_lv, lab_small_lv. unfold core, sel. apply filter_split_perm.
    Qed.

    Lemma LABt_lv t : Permutation (map lv (LABt t)) (map valueof (contents t)).
    Proof.
      induction t as [|bn t IH]; [constructor|].
      unfold LABt in *. cbn [map concat]. rewrite contents_cons, !map_app.
      apply Permutation_app; [apply lab_bin_lv|exact IH].
    Qed.

    Lemma lab_bin_gw bn : gw (lab_bin bn) = cw (core bn).
    Proof. unfold lab_bin. rewrite gw_app, labs_gw, lab_small_gw. lia. Qed.

    Lemma LABt_gw t : gw (LABt t) = tw (map core t).
    Proof.
      induction t as [|bn t IH]; [reflexivity|].
      unfold LABt in *. cbn [map concat]. rewrite gw_app, lab_bin_gw, IH, tw_cons. reflexivity.
    Qed.

    (** every label of a bin carries the core of the bin or none *)
    Lemma lab_bin_lc bn : Forall (fun a => lc a = [] \/ lc a = core bn) (lab_bin bn).
    Proof.
      unfold lab_bin. apply Forall_app. split.
      - eapply Forall_impl; [|apply (labs_from_lc (core bn) (core bn) 0)]. intros a Ha. right. exact Ha.
      - eapply Forall_impl; [|apply lab_small_lc]. intros a Ha. left. exact Ha.
    Qed.

    Lemma LABt_lc t : Forall (fun a => lc a = [] \/ exists bn, In bn t /\ lc a = core bn) (LABt t).
    Proof.
      induction t as [|bn t IH]; [constructor|].
      unfold LABt in *. cbn [map concat]. apply Forall_app. split.
      - eapply Forall_impl; [|apply lab_bin_lc]. intros a [Ha|Ha]; [left; exact Ha|].
        right. exists bn. split; [left; reflexivity|exact Ha].
      - eapply Forall_impl; [|exact IH]. intros a [Ha|(bn' & Hin & Ha)]; [left; exact Ha|].
        right. exists bn'. split; [right; exact Hin|exact Ha].
    Qed.

    Lemma lab_bin_Vl bn : okcore (core bn) -> Forall (fun y => 0 <= valueof y) (snd bn) ->
      Forall Vl (lab_bin bn).
    Proof.
      intros Ho Hnn. unfold lab_bin. apply Forall_app. split.
      - eapply Forall_impl; [|apply (labs_Vc _ Ho)]. intros a Ha. right. exact Ha.
      - unfold lab_small. rewrite Forall_map. apply Forall_forall. intros v Hv. left. split; [reflexivity|].
        cbn [lv fst]. apply filter_In in Hv. destruct Hv as [Hv _]. apply in_map_iff in Hv.
        destruct Hv as (y & E & Hy). rewrite Forall_forall in Hnn. specialize (Hnn y Hy). cbv beta in Hnn. lia.
    Qed.

    Lemma in_contents_bin (t : bins A) bn y : In bn t -> In y (snd bn) -> In y (contents t).
    Proof.
      intros Hbn Hy. unfold contents, lists. apply in_concat. exists (snd bn). split; [|exact Hy].
      apply in_map. exact Hbn.
    Qed.

    Lemma LABt_Vl : forall t : bins A, Forall okcore (map core t) ->
      Forall (fun y => 0 <= valueof y) (contents t) -> Forall Vl (LABt t).
    Proof.
      induction t as [|bn t IH]; intros Ho Hnn; [constructor|].
      cbn [map] in Ho. apply Forall_cons_iff in Ho. destruct Ho as [Hob Ho].
      rewrite contents_cons in Hnn. apply Forall_app in Hnn. destruct Hnn as [Hnb Hnn].
      unfold LABt in *. cbn [map concat]. apply Forall_app. split; [apply lab_bin_Vl; assumption|apply IH; assumption].
    Qed.

    Lemma lab_small_Vl vs : Forall (fun v => 0 <= v) vs -> Forall Vl (lab_small vs).
    Proof.
      intros H. unfold lab_small. rewrite Forall_map. eapply Forall_impl; [|exact H].
      intros v Hv. left. split; [reflexivity|exact Hv].
    Qed.

    Lemma gw_concat_le (G : list (list label)) :
      Forall (fun g => gw g <= OO) G -> gw (concat G) <= OO * Z.of_nat (length G).
    Proof.
      intros H. induction H as [|g G Hg HG IH]; [cbn; lia|].
      cbn [concat length]. rewrite gw_app, Nat2Z.inj_succ, Z.mul_succ_r. lia.
    Qed.
    End Connect.

    (** a sorted feasible set of labelled values holds at most five (C < 6 x): its weight, by its size *)
    Lemma light_by_size (R : label -> label -> Prop) g : C < 6 * x -> 0 <= OO ->
      (forall a, Vc a -> wl a <= OO) ->
      (forall a b, Vc a -> Vc b -> R a b -> lv b <= lv a -> lv a + lv b <= C -> wl a + wl b <= OO) ->
      (forall a b c, Vc a -> Vc b -> Vc c -> R a b -> R a c -> R b c ->
         lv b <= lv a -> lv c <= lv b -> lv a + lv b + lv c <= C -> wl a + wl b + wl c <= OO) ->
      (forall a b c d, Vc a -> Vc b -> Vc c -> Vc d -> R a b -> R a c -> R a d -> R b c -> R b d -> R c d ->
         lv b <= lv a -> lv c <= lv b -> lv d <= lv c -> lv a + lv b + lv c + lv d <= C ->
         wl a + wl b + wl c + wl d <= OO) ->
      (forall a b c d e, Vc a -> Vc b -> Vc c -> Vc d -> Vc e ->
         lv b <= lv a -> lv c <= lv b -> lv d <= lv c -> lv e <= lv d -> lv a + lv b + lv c + lv d + lv e <= C ->
         wl a + wl b + wl c + wl d + wl e <= OO) ->
      Forall Vc g -> AllPairs R g -> StronglySorted (fun a b => lv b <= lv a) g -> gv g <= C -> gw g <= OO.
    Proof.
      intros H6 H0 G1 G2 G3 G4 G5 HV HR HS Hsum.
      destruct g as [|a [|b [|c [|d [|e [|f r]]]]]].
      - cbn. exact H0.
      - split_ge HV Va. unfold gw. cbn [map]. rewrite zsum_cons, zsum_nil. pose proof (G1 a Va). lia.
      - split_ge HV Va. split_ge HV Vb. cbn [AllPairs] in HR. destruct HR as (Ra & _). split_ge Ra Rab.
        inversion HS as [|a' l1 HS1 Ha]; subst. split_ge Ha Hab.
        unfold gv, gw in *. cbn [map] in *. rewrite !zsum_cons, zsum_nil in *.
        pose proof (G2 a b Va Vb Rab Hab ltac:(lia)). lia.
      - split_ge HV Va. split_ge HV Vb. split_ge HV Vv. cbn [AllPairs] in HR. destruct HR as (Ra & Rb & _).
        split_ge Ra Rab. split_ge Ra Rac. split_ge Rb Rbc.
        inversion HS as [|a' l1 HS1 Ha]; subst. split_ge Ha Hab. inversion HS1 as [|b' l2 HS2 Hb]; subst. split_ge Hb Hbc.
        unfold gv, gw in *. cbn [map] in *. rewrite !zsum_cons, zsum_nil in *.
        pose proof (G3 a b c Va Vb Vv Rab Rac Rbc Hab Hbc ltac:(lia)). lia.
      - split_ge HV Va. split_ge HV Vb. split_ge HV Vv. split_ge HV Vd. cbn [AllPairs] in HR. destruct HR as (Ra & Rb & Rc' & _).
        split_ge Ra Rab. split_ge Ra Rac. split_ge Ra Rad. split_ge Rb Rbc. split_ge Rb Rbd. split_ge Rc' Rcd.
        inversion HS as [|a' l1 HS1 Ha]; subst. split_ge Ha Hab. inversion HS1 as [|b' l2 HS2 Hb]; subst. split_ge Hb Hbc.
        inversion HS2 as [|c' l3 HS3 Hc]; subst. split_ge Hc Hcd.
        unfold gv, gw in *. cbn [map] in *. rewrite !zsum_cons, zsum_nil in *.
        pose proof (G4 a b c d Va Vb Vv Vd Rab Rac Rad Rbc Rbd Rcd Hab Hbc Hcd ltac:(lia)). lia.
      - split_ge HV Va. split_ge HV Vb. split_ge HV Vv. split_ge HV Vd. split_ge HV Ve.
        inversion HS as [|a' l1 HS1 Ha]; subst. split_ge Ha Hab. inversion HS1 as [|b' l2 HS2 Hb]; subst. split_ge Hb Hbc.
        inversion HS2 as [|c' l3 HS3 Hc]; subst. split_ge Hc Hcd. inversion HS3 as [|d' l4 HS4 Hd]; subst. split_ge Hd Hde.
        unfold gv, gw in *. cbn [map] in *. rewrite !zsum_cons, zsum_nil in *.
        pose proof (G5 a b c d e Va Vb Vv Vd Ve Hab Hbc Hcd Hde ltac:(lia)). lia.
      - exfalso. pose proof (gv_ge _ HV) as Hlen. cbn [length] in Hlen. lia.
    Qed.

    (** ---- the counting argument, for any relation [Lt] between the cores ---- *)
    Section Counting.
    Variable Lt : list Z -> list Z -> Prop.

    Definition Rl_of (a a' : label) : Prop := lc a = [] \/ lc a' = [] \/ Rc_of Lt a a'.
    Lemma Rl_of_sym a a' : Rl_of a a' -> Rl_of a' a.
    Proof. intros [H|[H|H]]; [right; left; exact H|left; exact H|right; right; apply Rc_of_sym; exact H]. Qed.

    (** dropping the values without a core *)
    Lemma drop_uncored g : Forall Vl g -> AllPairs Rl_of g ->
      let g1 := filter cored g in
      Forall Vc g1 /\ AllPairs (Rc_of Lt) g1 /\ gv g1 <= gv g /\ gw g1 = gw g.
    Proof.
      induction g as [|a g IH]; intros HV HR; cbn [filter].
      - cbn [AllPairs]. split; [constructor|split; [exact I|split; [lia|reflexivity]]].
      - apply Forall_cons_iff in HV. destruct HV as [Va HV]. cbn [AllPairs] in HR. destruct HR as [Ra HR].
        destruct (IH HV HR) as (I1 & I2 & I3 & I4). rewrite gv_cons, gw_cons.
        destruct (cored a) eqn:Ea.
        + apply cored_true in Ea. cbn [AllPairs]. rewrite gv_cons, gw_cons.
          split; [constructor; [destruct Va as [[E _]|Va]; [congruence|exact Va]|exact I1]|].
          split; [split; [|exact I2]|split; lia].
          apply Forall_forall. intros b Hb. apply filter_In in Hb. destruct Hb as [Hb Eb].
          apply cored_true in Eb. rewrite Forall_forall in Ra. destruct (Ra b Hb) as [H|[H|H]]; [congruence|congruence|exact H].
        + assert (E : lc a = []).
          { destruct (lc a) eqn:E; [reflexivity|]. exfalso. unfold cored in Ea. rewrite E in Ea. discriminate Ea. }
          rewrite (wl_nil a E). destruct Va as [[_ Va]|Va]; [|destruct Va as [(_ & _ & Hcl & _) _]; rewrite E, zsum_nil in Hcl; lia].
          split; [exact I1|split; [exact I2|split; lia]].
    Qed.

    (** what has to be shown about the weights *)
    Hypothesis Hlight_of : forall g, Forall Vc g -> AllPairs (Rc_of Lt) g ->
      StronglySorted (fun a b => lv b <= lv a) g -> gv g <= C -> gw g <= OO.
    Hypothesis Hheavy_of : forall cs, chain_of Lt cs -> FF * Z.of_nat (length cs) <= tw cs + DD.

    Lemma light_of g : Forall Vl g -> AllPairs Rl_of g -> gv g <= C -> gw g <= OO.
    Proof.
      intros HV HR Hsum. destruct (drop_uncored g HV HR) as (V1 & R1 & S1 & W1). cbv zeta in *.
      destruct (exists_sorted lv (filter cored g)) as (g2 & P & HS).
      rewrite <- W1, (gw_perm _ _ P). apply Hlight_of; [| |exact HS|].
      - eapply Permutation_Forall; [exact P|exact V1].
      - eapply (AllPairs_perm (Rc_of Lt) (Rc_of_sym Lt)); [exact P|exact R1].
      - rewrite <- (gv_perm _ _ P). lia.
    Qed.

    Section ConnectOf.
    Context {A : Type} (valueof : A -> Z).

    (** all labels of a chain of bins, followed by unlabelled values, are pairwise related *)
    Lemma LAB_pairs S : forall t, chain_of Lt (map (core valueof) t) -> AllPairs Rl_of (LABt valueof t ++ lab_small S).
    Proof.
      induction t as [|bn t IH]; intros Hch.
      - unfold LABt. cbn [map concat app]. pose proof (lab_small_lc S) as H.
        induction H as [|a l Ha Hl IHl]; cbn [AllPairs]; [exact I|]. split; [|exact IHl].
        apply Forall_forall. intros b _. left. exact Ha.
      - cbn [map chain_of] in Hch. destruct Hch as (Ho & HL & Hch). specialize (IH Hch).
        unfold LABt in *. cbn [map concat]. rewrite <- app_assoc. apply AllPairs_app. split; [|split; [exact IH|]].
        + pose proof (lab_bin_lc valueof bn) as H. induction H as [|a l Ha Hl IHl]; cbn [AllPairs]; [exact I|].
          split; [|exact IHl]. apply Forall_forall. intros b Hb. rewrite Forall_forall in Hl.
          destruct Ha as [Ha|Ha]; [left; exact Ha|]. destruct (Hl b Hb) as [Eb|Eb]; [right; left; exact Eb|].
          right; right. left. congruence.
        + apply Forall_forall. intros a Ha. pose proof (lab_bin_lc valueof bn) as H. rewrite Forall_forall in H.
          specialize (H a Ha). cbv beta in H.
          apply Forall_app. split.
          * apply Forall_forall. intros b Hb. pose proof (LABt_lc valueof t) as H2. rewrite Forall_forall in H2.
            specialize (H2 b Hb). cbv beta in H2.
            destruct H as [H|H]; [left; exact H|]. destruct H2 as [H2|(bn' & Hin & H2)]; [right; left; exact H2|].
            right; right. right; left. rewrite H, H2. rewrite Forall_forall in HL. apply HL.
            apply in_map. exact Hin.
          * eapply Forall_impl; [|apply lab_small_lc]. intros b Hb. right; left. exact Hb.
    Qed.

    Lemma count_of (t : bins A) (last : bin A) (items : list A) (n : nat) :
      chain_of Lt (map (core valueof) t) ->
      Forall (fun y => 0 <= valueof y) (contents (t ++ [last])) ->
      Permutation (contents (t ++ [last])) items -> Packable C (map valueof items) n ->
      FF * Z.of_nat (length t) <= OO * Z.of_nat n + DD.
    Proof.
      intros Hch Hnn Hp Hpack.
      rewrite contents_app in Hnn. apply Forall_app in Hnn. destruct Hnn as [Hnt Hnl].
      pose proof (Hheavy_of _ Hch) as Hheavy'. rewrite map_length in Hheavy'.
      set (LAB := LABt valueof t ++ lab_small (map valueof (contents [last]))).
      assert (HPL : Permutation (map lv LAB) (map valueof items)).
      { unfold LAB. rewrite map_app, lab_small_lv.
        apply Permutation_trans with (map valueof (contents (t ++ [last]))); [|apply Permutation_map; exact Hp].
        rewrite contents_app, map_app. apply Permutation_app_tail. apply LABt_lv. }
      apply packable_gpack in Hpack. destruct Hpack as (G & HL & HG & HF).
      assert (HG' : Permutation (concat G) (map lv LAB)).
      { apply Permutation_trans with (map valueof items); [exact HG|apply Permutation_sym; exact HPL]. }
      destruct (lift_groups lv LAB G HG') as (G' & EG & PG).
      assert (HV : Forall Vl LAB).
      { unfold LAB. apply Forall_app. split.
        - apply LABt_Vl; [apply (chain_of_okcore Lt); exact Hch|exact Hnt].
        - apply lab_small_Vl. rewrite Forall_map. exact Hnl. }
      assert (HR : AllPairs Rl_of LAB) by (apply LAB_pairs; exact Hch).
      assert (HV' : Forall Vl (concat G')) by (eapply Permutation_Forall; [exact PG|exact HV]).
      assert (HR' : AllPairs Rl_of (concat G')) by (eapply (AllPairs_perm Rl_of Rl_of_sym); [exact PG|exact HR]).
      assert (Hlight' : Forall (fun g => gw g <= OO) G').
      { pose proof (AllPairs_concat_elim Rl_of G' HR') as HRg.
        assert (HVg : Forall (Forall Vl) G').
        { clear - HV'. induction G' as [|g G' IH]; [constructor|]. cbn [concat] in HV'.
          apply Forall_app in HV'. destruct HV' as [H1 H2]. constructor; [exact H1|apply IH; exact H2]. }
        rewrite <- EG in HF. rewrite Forall_map in HF.
        clear - HRg HVg HF Hlight_of Wc_len HxC. induction G' as [|g G' IH]; [constructor|].
        apply Forall_cons_iff in HRg. destruct HRg as [R1 R2]. apply Forall_cons_iff in HVg. destruct HVg as [V1 V2].
        apply Forall_cons_iff in HF. destruct HF as [F1 F2].
        constructor; [apply light_of; assumption|apply IH; assumption]. }
      pose proof (gw_concat_le G' Hlight') as Hsum.
      assert (EL : length G' = n) by (rewrite <- HL, <- EG, map_length; reflexivity).
      rewrite EL in Hsum. rewrite <- (gw_perm _ _ PG) in Hsum.
      unfold LAB in Hsum. rewrite gw_app, lab_small_gw, LABt_gw in Hsum. lia.
    Qed.
    End ConnectOf.
    End Counting.

    Hypothesis Hlight : forall g, Forall Vc g -> AllPairs Rc g ->
      StronglySorted (fun a b => lv b <= lv a) g -> gv g <= C -> gw g <= OO.
    Lemma light g : Forall Vl g -> AllPairs Rl g -> gv g <= C -> gw g <= OO.
    Proof. exact (light_of Later Hlight g). Qed.

    Section ConnectFF.
    Context {A : Type} (valueof : A -> Z).
    Notation vals bn := (map valueof (snd bn)).
    (** the cores of the bins before the last one form a chain *)
    Lemma chain_cores (last : bin A) (x0 : A) : In x0 (snd last) -> valueof x0 = x ->
      forall t : bins A, closed valueof C x t -> sfit2 valueof C t -> wf valueof t -> feasible C t ->
      Forall (fun y => 0 <= valueof y) (contents t) -> hdesc valueof (t ++ [last]) ->
      chain (map (core valueof) t).
    Proof.
      intros Hx0 Ex. induction t as [|bn r IH]; intros Hcl Hsf Hw Hf Hnn Hh; [exact I|].
      unfold closed in Hcl. apply Forall_cons_iff in Hcl. destruct Hcl as [Hc Hcl].
      cbn [sfit2] in Hsf. destruct Hsf as [Hs1 Hsf].
      unfold wf in Hw. apply Forall_cons_iff in Hw. destruct Hw as [Hwb Hw].
      unfold feasible in Hf. apply Forall_cons_iff in Hf. destruct Hf as [Hfb Hf].
      rewrite contents_cons in Hnn. apply Forall_app in Hnn. destruct Hnn as [Hnb Hnn].
      cbn [app hdesc] in Hh. destruct Hh as [Hd Hh].
      destruct (hd_dom_elim valueof _ _ Hd) as (y0 & l0 & Es & Hdom).
      rewrite contents_cons, contents_app in Hdom. apply Forall_app in Hdom. destruct Hdom as [Hdb Hdom].
      apply Forall_app in Hdom. destruct Hdom as [Hdr Hdl].
      assert (Hxy0 : x <= valueof y0).
      { rewrite Forall_forall in Hdl. rewrite <- Ex. apply Hdl. rewrite contents_cons. apply in_or_app. left. exact Hx0. }
      assert (Ecore : core valueof bn = valueof y0 :: sel x (map valueof l0)).
      { unfold core. rewrite Es. cbn [map]. rewrite sel_cons. destruct (x <=? valueof y0) eqn:E; [reflexivity|lia]. }
      assert (Hvn : Forall (fun a => 0 <= a) (vals bn)) by (rewrite Forall_map; exact Hnb).
      cbn [map chain]. split; [|split; [|apply IH; assumption]].
      - (* the core of the bin *)
        unfold okcore. split; [apply sel_ge|]. split; [|split].
        + pose proof (zsum_sel_le x (vals bn) Hvn). unfold wf_bin in Hwb. unfold core. lia.
        + exact Hc.
        + assert (Ehd : hd 0 (core valueof bn) = valueof y0) by (rewrite Ecore; reflexivity).
          rewrite Ehd. unfold core. apply sel_incl. rewrite Forall_map. exact Hdb.
      - (* the later cores *)
        rewrite Forall_map. apply Forall_forall. intros bn' Hbn'. unfold Later. split.
        + apply Forall_forall. intros y Hy. unfold core, sel in Hy. apply filter_In in Hy. destruct Hy as [Hy Hxy].
          apply in_map_iff in Hy. destruct Hy as (y' & Ey & Hy').
          rewrite Forall_forall in Hs1. specialize (Hs1 y' (in_contents_bin r bn' y' Hbn' Hy')). cbv beta in Hs1.
          rewrite Ey in Hs1. unfold core. rewrite sel_sel; [exact Hs1|lia].
        + rewrite Ecore. cbn [hd]. destruct (core valueof bn') as [|h q] eqn:Ec; cbn [hd]; [lia|].
          assert (Hh' : In h (core valueof bn')) by (rewrite Ec; left; reflexivity).
          unfold core, sel in Hh'. apply filter_In in Hh'. destruct Hh' as [Hh' _].
          apply in_map_iff in Hh'. destruct Hh' as (y' & Ey & Hy').
          rewrite Forall_forall in Hdr. specialize (Hdr y' (in_contents_bin r bn' y' Hbn' Hy')). cbv beta in Hdr. lia.
    Qed.
    End ConnectFF.
  End Weights.

  (** ---- all bins but a few are heavy ---- *)
  (** A bin may weigh less than FF only if its first value is at most C/2 and, for one of finitely many
      thresholds T (in units of 1/s) with allowance d, it weighs at least FF - d, holds a value above T,
      and every value above T (and at most C/2) fits into it.  The first value of a later bin does not
      fit, so it is at most T, and so are all values of the later bins: each threshold is used once. *)
  Section Heavy.
    Variable Lt : list Z -> list Z -> Prop.
    Hypothesis HLt : later_like Lt.
    Variable Wc : list Z -> list Z.
    Variables FF s : Z.
    Variable ts : list (Z * Z).
    Hypothesis Hs : 0 < s.
    Hypothesis Hts : Forall (fun p => 0 <= snd p) ts.
    Hypothesis Hcases : forall c, okcore c -> FF <= cw Wc c \/
      (2 * hd 0 c <= C /\ exists T d, In (T, d) ts /\ FF <= cw Wc c + d /\
         Exists (fun v => T < s * v) c /\ nofit (fun v => T < s * v /\ 2 * v <= C) c).

    Lemma heavy_below : forall cs B, chain_of Lt cs -> Forall (Forall (fun v => s * v <= B)) cs ->
      FF * Z.of_nat (length cs) <= tw Wc cs + allow ts B.
    Proof.
      induction cs as [|c r IH]; intros B Hch HB.
      - rewrite tw_nil. cbn [length Z.of_nat]. pose proof (allow_nonneg ts B Hts). lia.
      - cbn [chain_of] in Hch. destruct Hch as (Ho & HL & Hch).
        apply Forall_cons_iff in HB. destruct HB as [HBc HB].
        rewrite tw_cons. cbn [length]. rewrite Nat2Z.inj_succ.
        destruct (Hcases c Ho) as [Hf|(Hh & T & d & Hin & Hw & HE & HF)]; [specialize (IH B Hch HB); lia|].
        assert (HTB : T < B).
        { apply Exists_exists in HE. destruct HE as (v & Hv & HT).
          rewrite Forall_forall in HBc. specialize (HBc v Hv). cbv beta in HBc. lia. }
        assert (HT : Forall (Forall (fun v => s * v <= T)) r).
        { pose proof (chain_of_okcore Lt r Hch) as Hor. apply Forall_forall. intros c' Hc'.
          rewrite Forall_forall in HL, Hor. specialize (HL c' Hc'). specialize (Hor c' Hc').
          pose proof (later_hd Lt HLt c c' Hor HL) as H1. pose proof (later_first Lt HLt c c' Hor HL) as H2.
          assert (Hhd : s * hd 0 c' <= T).
          { destruct (Z_le_gt_dec (s * hd 0 c') T) as [Hle|Hgt]; [exact Hle|exfalso].
            assert (HP : T < s * hd 0 c' /\ 2 * hd 0 c' <= C) by lia. specialize (HF _ HP). lia. }
          destruct Hor as (_ & _ & _ & Hmax). eapply Forall_impl; [|exact Hmax]. intros v Hv. cbv beta in Hv.
          pose proof (Z.mul_le_mono_nonneg_l v (hd 0 c') s ltac:(lia) Hv). lia. }
        specialize (IH T Hch HT). pose proof (allow_step ts T d B Hts Hin HTB). lia.
    Qed.

    Lemma heavy_by_kinds : forall cs, chain_of Lt cs ->
      FF * Z.of_nat (length cs) <= tw Wc cs + zsum (map snd ts).
    Proof.
      intros cs Hch. pose proof (allow_le ts (s * C) Hts).
      enough (HB : Forall (Forall (fun v => s * v <= s * C)) cs) by (pose proof (heavy_below cs (s * C) Hch HB); lia).
      eapply Forall_impl; [|exact (chain_of_okcore Lt cs Hch)]. intros c (Hge & Hsum & _ & _).
      apply Forall_forall. intros v Hv.
      assert (v <= zsum c).
      { apply in_le_zsum; [exact Hv|]. eapply Forall_impl; [|exact Hge]. intros z Hz. cbv beta in Hz. lia. }
      apply Z.mul_le_mono_nonneg_l; lia.
    Qed.
  End Heavy.


  (** ---- the weights of a core, in the shape common to the two ranges of x ---- *)
  (** A first value above C - x is alone and weighs FF.  A first value b above C/2 with a single companion
      p gives p the weight [wpf b p] and takes the rest of FF; with several companions Q the weights are
      [hf Q :: map cf Q].  In a core without a value above C/2 every value has its natural weight [nuf]. *)
  Section Shape.
    Variable FF : Z.
    Variables nuf cf : Z -> Z.
    Variable wpf : Z -> Z -> Z.
    Variable hf : list Z -> Z.

    Definition Wshape (c : list Z) : list Z :=
      match c with
      | [] => []
      | b :: Q =>
          if C <? 2 * b then
            if C - x <? b then FF :: map (fun _ => 0) Q
            else match Q with
                 | [p] => [FF - wpf b p; wpf b p]
                 | _ => hf Q :: map cf Q
                 end
          else map nuf c
      end.

    Lemma Wshape_length c : length (Wshape c) = length c.
    Proof.
      unfold Wshape. destruct c as [|b Q]; [reflexivity|].
      destruct (C <? 2 * b); [|apply map_length].
      destruct (C - x <? b); [cbn [length]; rewrite map_length; reflexivity|].
      destruct Q as [|p [|q Q]]; cbn [length]; rewrite ?map_length; reflexivity.
    Qed.

    Lemma Wshape_small c : 2 * hd 0 c <= C -> Wshape c = map nuf c.
    Proof.
      destruct c as [|b Q]; [reflexivity|]. cbn [hd Wshape]. intros H.
      destruct (C <? 2 * b) eqn:E; [lia|reflexivity].
    Qed.

    Notation wl := (wl Wshape).
    Notation cw := (cw Wshape).

    (** the kinds of a labelled value *)
    Lemma shape_kind c k v : okcore c -> nth_error c k = Some v ->
      (C - x < v /\ nth k (Wshape c) 0 = FF)
      \/ (exists p, c = [v; p] /\ k = 0%nat /\ C < 2 * v /\ v <= C - x /\ nth k (Wshape c) 0 = FF - wpf v p)
      \/ (exists Q, c = v :: Q /\ (2 <= length Q)%nat /\ C < 2 * v /\ v <= C - x /\ nth k (Wshape c) 0 = hf Q)
      \/ (exists b, c = [b; v] /\ k = 1%nat /\ C < 2 * b /\ b <= C - x /\ 2 * v <= C /\ nth k (Wshape c) 0 = wpf b v)
      \/ (2 * v <= C /\ C < 2 * hd 0 c /\ hd 0 c + v + x <= C /\ nth k (Wshape c) 0 = cf v)
      \/ (2 * v <= C /\ 2 * hd 0 c <= C /\ nth k (Wshape c) 0 = nuf v).
    Proof.
      intros (Hge & Hsum & Hcl & Hhd) Hn.
      assert (Hin : In v c) by (eapply nth_error_In; exact Hn).
      assert (Hvh : v <= hd 0 c) by (rewrite Forall_forall in Hhd; apply Hhd; exact Hin).
      assert (Hnn : Forall (fun z => 0 <= z) c) by (eapply Forall_impl; [|exact Hge]; intros z Hz; cbv beta in Hz; lia).
      destruct c as [|h Q]; [destruct k; discriminate Hn|]. cbn [hd] in *.
      split_ge Hge Hh. split_ge Hnn Hh0. rewrite zsum_cons in Hsum, Hcl.
      unfold Wshape. destruct (C <? 2 * h) eqn:EB.
      - destruct Q as [|p [|q Q]].
        + (* alone *)
          rewrite zsum_nil in Hcl. destruct k as [|k]; [|destruct k; discriminate Hn].
          cbn in Hn. injection Hn as Hn. subst v.
          left. destruct (C - x <? h) eqn:EZ; [|lia]. cbn [nth map]. lia.
        + split_ge Hge Hp. rewrite zsum_cons, zsum_nil in Hsum.
          destruct (C - x <? h) eqn:EZ; [lia|].
          destruct k as [|[|k]]; cbn in Hn.
          * injection Hn as Hn. subst v. right; left. exists p. cbn [nth]. repeat split; lia.
          * injection Hn as Hn. subst v. do 3 right; left. exists h. cbn [nth]. repeat split; lia.
          * destruct k; discriminate Hn.
        + split_ge Hge Hp. split_ge Hge Hq. split_ge Hnn Hp0. split_ge Hnn Hq0. rewrite !zsum_cons in Hsum.
          pose proof (zsum_nonneg Q Hnn) as HQ0.
          destruct (C - x <? h) eqn:EZ; [lia|].
          destruct k as [|k]; cbn [nth_error] in Hn.
          * injection Hn as Hn. subst v. do 2 right; left. exists (p :: q :: Q).
            cbn [nth length]. repeat split; lia.
          * do 4 right; left.
            assert (Hv : h + v + x <= C).
            { apply nth_error_In in Hn. destruct Hn as [E|[E|Hn]]; [lia|lia|].
              pose proof (in_le_zsum v Q Hn Hnn). lia. }
            split; [lia|]. split; [lia|]. split; [exact Hv|].
            cbn [nth]. apply (nth_map_some cf _ k v 0 Hn).
      - do 5 right. split; [lia|]. split; [lia|]. apply (nth_map_some nuf _ k v 0 Hn).
    Qed.

    (** the three kinds of a value of at most C/2 *)
    Lemma small_shape a : Vc a -> 2 * lv a <= C ->
      (2 * hd 0 (lc a) <= C /\ wl a = nuf (lv a)) \/
      (C < 2 * hd 0 (lc a) /\ hd 0 (lc a) + lv a + x <= C /\ wl a = cf (lv a)) \/
      (exists b, lc a = [b; lv a] /\ lk a = 1%nat /\ C < 2 * b /\ b <= C - x /\ wl a = wpf b (lv a)).
    Proof.
      intros Va Hs. pose proof (Vc_ge a Va) as Hx. destruct Va as [Ho Hn]. unfold wl.
      destruct (shape_kind _ _ _ Ho Hn) as [K|[(p & E & K)|[(Q & E & K)|[(b & E & K)|[K|K]]]]]; try lia.
      right; right. exists b. tauto.
    Qed.

    (** the three kinds of a value above C/2 *)
    Lemma big_shape a : Vc a -> C < 2 * lv a ->
      (C - x < lv a /\ wl a = FF) \/
      (exists p, lc a = [lv a; p] /\ lk a = 0%nat /\ lv a <= C - x /\ wl a = FF - wpf (lv a) p) \/
      (exists Q, lc a = lv a :: Q /\ (2 <= length Q)%nat /\ lv a <= C - x /\ wl a = hf Q).
    Proof.
      intros [Ho Hn] Hs. unfold wl.
      destruct (shape_kind _ _ _ Ho Hn) as [K|[(p & E & K)|[(Q & E & K)|[(b & E & K)|[K|K]]]]]; try lia.
      - right; left. exists p. tauto.
      - right; right. exists Q. tauto.
    Qed.

    Lemma cw_big c : (forall Q, (2 <= length Q)%nat -> FF <= hf Q + zsum (map cf Q)) ->
      okcore c -> C < 2 * hd 0 c -> FF <= cw c.
    Proof.
      intros Hhf (Hge & Hsum & Hcl & _) Hb. unfold cw, Wshape. destruct c as [|b Q]; [cbn [hd] in Hb; lia|].
      cbn [hd] in Hb. split_ge Hge Hxb. rewrite zsum_cons in Hsum, Hcl.
      destruct (C <? 2 * b) eqn:EB; [|lia]. destruct Q as [|p [|q Q]].
      - rewrite zsum_nil in Hcl. destruct (C - x <? b) eqn:EZ; [|lia]. cbn [map]. rewrite zsum_cons, zsum_nil. lia.
      - split_ge Hge Hp. rewrite zsum_cons, zsum_nil in Hsum. destruct (C - x <? b) eqn:EZ; [lia|].
        rewrite !zsum_cons, zsum_nil. lia.
      - assert (Hnn : Forall (fun z => 0 <= z) (p :: q :: Q)) by (eapply Forall_impl; [|exact Hge]; intros z Hz; cbv beta in Hz; lia).
        split_ge Hge Hp. split_ge Hnn Hp0. pose proof (zsum_nonneg _ Hnn). rewrite zsum_cons in Hsum.
        destruct (C - x <? b) eqn:EZ; [lia|].
        rewrite zsum_cons. apply Hhf. cbn [length]. lia.
    Qed.

    (** what [heavy_by_kinds] asks of every core, from the cores without a value above C/2 *)
    Lemma shape_cases s ts c : (forall Q, (2 <= length Q)%nat -> FF <= hf Q + zsum (map cf Q)) -> okcore c ->
      (2 * hd 0 c <= C -> FF <= zsum (map nuf c) \/
         exists T d, In (T, d) ts /\ FF <= zsum (map nuf c) + d /\
           Exists (fun v => T < s * v) c /\ nofit (fun v => T < s * v /\ 2 * v <= C) c) ->
      FF <= cw c \/
      (2 * hd 0 c <= C /\ exists T d, In (T, d) ts /\ FF <= cw c + d /\
         Exists (fun v => T < s * v) c /\ nofit (fun v => T < s * v /\ 2 * v <= C) c).
    Proof.
      intros Hhf Ho Hsm. destruct (Z_lt_le_dec C (2 * hd 0 c)) as [Hb|Hb]; [left; apply cw_big; assumption|].
      unfold cw. rewrite (Wshape_small c Hb). destruct (Hsm Hb) as [H|H]; [left; exact H|right; split; [exact Hb|exact H]].
    Qed.

    (** a value of at most C/2 has at most its natural weight, unless it is the only companion of a
        value above C/2 and boosted *)
    Hypothesis cf_le : forall v, cf v <= nuf v.

    Lemma shape_boost a : Vc a -> 2 * lv a <= C ->
      wl a <= nuf (lv a) \/
      (exists b, lc a = [b; lv a] /\ C < 2 * b /\ okcore [b; lv a] /\ wl a = wpf b (lv a) /\ nuf (lv a) < wpf b (lv a)).
    Proof.
      intros Hv Hs. destruct (small_shape a Hv Hs) as [[_ K]|[(_ & _ & K)|(b & E & _ & Hb & _ & K)]].
      - left. lia.
      - left. pose proof (cf_le (lv a)). lia.
      - destruct (Z_lt_le_dec (nuf (lv a)) (wpf b (lv a))) as [Hlt|Hle]; [right|left; lia].
        exists b. split; [exact E|split; [exact Hb|split; [rewrite <- E; apply Hv|split; [exact K|exact Hlt]]]].
    Qed.

    Hypothesis boost_room : forall b z, okcore [b; z] -> nuf z < wpf b z -> C - x < 2 * (C - b).
    Variable Lt : list Z -> list Z -> Prop.
    Hypothesis HLt : later_like Lt.

    (** next to b (whose only companion p is not of the largest class) and a further value, a value is
        not boosted *)
    Lemma partner_unboosted a az b p z' :
      lc a = [b; p] -> okcore [b; p] -> C < 2 * b -> 2 * p <= C - x ->
      Vc az -> 2 * lv az <= C -> Rc_of Lt a az -> x <= z' -> b + lv az + z' <= C ->
      wl az <= nuf (lv az).
    Proof.
      intros E1 O1 Hb Hp Hv Hs HR Hz' Hsum. pose proof (okcore2 _ _ O1) as O1'.
      destruct (shape_boost az Hv Hs) as [U|(b' & E2 & Hb' & O2 & _ & Hlt)]; [exact U|].
      exfalso. pose proof (okcore2 _ _ O2) as O2'. pose proof (boost_room b' (lv az) O2 Hlt).
      apply (boosted_vs_B1 Lt HLt a az b p b' (lv az) z' E1 E2 O1 O2 HR); lia.
    Qed.
  End Shape.

  (** ---- a core by the number of its values above a threshold ---- *)
  Definition nabove (T s : Z) (c : list Z) : Z := zsum (map (fun v => Z.b2z (T <? s * v)) c).

  Lemma nabove_cons T s v c : nabove T s (v :: c) = Z.b2z (T <? s * v) + nabove T s c.
  Proof. reflexivity. Qed.

  Lemma nabove_nonneg T s c : 0 <= nabove T s c.
  Proof. induction c as [|v c IH]; [reflexivity|]. rewrite nabove_cons. lia. Qed.

  Lemma weight_above (nuf : Z -> Z) T s w w0 c : (forall v, w0 <= nuf v) -> (forall v, T < s * v -> w <= nuf v) ->
    w0 * Z.of_nat (length c) + (w - w0) * nabove T s c <= zsum (map nuf c).
  Proof.
    intros H0 H1. induction c as [|v c IH]; [cbn; lia|].
    cbn [map length]. rewrite zsum_cons, nabove_cons, Nat2Z.inj_succ. pose proof (H0 v).
    destruct (T <? s * v) eqn:E; cbn [Z.b2z]; [pose proof (H1 v ltac:(lia))|]; lia.
  Qed.

  (** fewer than m values above T, and m values as large as the first one fit: every value above T fits *)
  Lemma nofit_few T s m c : 0 < s -> okcore c -> 2 * hd 0 c <= C -> m * hd 0 c <= C -> nabove T s c < m ->
    nofit (fun v => T < s * v /\ 2 * v <= C) c.
  Proof.
    intros Hs (Hge & _ & _ & Hhd) H2 Hm Hk y [Hy Hy2].
    assert (Hh : 0 <= hd 0 c) by (destruct c as [|a r]; [cbn; lia|split_ge Hge Ha; cbn [hd]; lia]).
    revert Hm H2 Hh Hhd. generalize (hd 0 c). intros h Hm H2 Hh Hhd.
    assert (Hb : zsum (sel y c) <= h * nabove T s c /\ (h < y -> zsum (sel y c) = 0)).
    { clear Hk. induction c as [|v c IH]; [rewrite sel_nil, zsum_nil; cbn; lia|].
      split_ge Hge Hv. split_ge Hhd Hv'. specialize (IH Hge Hhd). pose proof (nabove_nonneg T s c).
      rewrite sel_cons, nabove_cons. destruct (y <=? v) eqn:E.
      - pose proof (Z.mul_le_mono_nonneg_l y v s ltac:(lia) ltac:(lia)).
        destruct (T <? s * v) eqn:E'; [cbn [Z.b2z]|lia]. rewrite zsum_cons. lia.
      - destruct (T <? s * v); cbn [Z.b2z]; [|split; [lia|tauto]]. split; [lia|tauto]. }
    destruct Hb as [Hb Hb0]. destruct (Z_lt_le_dec h y) as [Hlt|Hle]; [rewrite (Hb0 Hlt); lia|].
    pose proof (Z.mul_le_mono_nonneg_l (nabove T s c + 1) m h Hh ltac:(lia)). lia.
  Qed.

  (** what [heavy_by_kinds] asks of a core whose first value lies above T, where m such values fit:
      m values above T make it weigh FF, fewer make it deficient for the pair (T, d) *)
  Lemma by_count (ts : list (Z * Z)) s FF (nuf : Z -> Z) w0 T d w m c :
    0 < s -> okcore c -> 2 * hd 0 c <= C -> In (T, d) ts ->
    (forall v, w0 <= nuf v) -> (forall v, T < s * v -> w <= nuf v) -> w0 <= w ->
    T < s * hd 0 c -> m * hd 0 c <= C ->
    FF <= w0 * Z.of_nat (length c) + (w - w0) * m -> FF <= zsum (map nuf c) + d ->
    FF <= zsum (map nuf c) \/
    exists T d, In (T, d) ts /\ FF <= zsum (map nuf c) + d /\
      Exists (fun v => T < s * v) c /\ nofit (fun v => T < s * v /\ 2 * v <= C) c.
  Proof.
    intros Hs Ho H2 Hin H0 H1 Hw Ha Hm Hheavy Hd.
    destruct (Z_lt_le_dec (nabove T s c) m) as [Hk|Hk].
    - right. exists T, d. split; [exact Hin|split; [exact Hd|split; [|apply (nofit_few T s m); assumption]]].
      destruct c as [|a r]; [destruct Ho as (_ & _ & Hcl & _); rewrite zsum_nil in Hcl; lia|].
      apply Exists_cons_hd. exact Ha.
    - left. pose proof (weight_above nuf T s w w0 c H0 H1).
      pose proof (Z.mul_le_mono_nonneg_l m (nabove T s c) (w - w0) ltac:(lia) Hk). lia.
  Qed.

  (** ---- the weights for C < 5 x, 4 x <= C ---- *)
  Section Quarter.
  Hypothesis Hx5 : C < 5 * x.
  Hypothesis Hx4 : 4 * x <= C.

  Definition nu (v : Z) : Z :=
    if C - x <? 2 * v then 18 else if C <? 3 * v then 14 else if C - x <? 3 * v then 12 else 9.

  Lemma nu_spec v :
    (C - x < 2 * v /\ nu v = 18) \/
    (2 * v <= C - x /\ C < 3 * v /\ nu v = 14) \/
    (3 * v <= C /\ C - x < 3 * v /\ nu v = 12) \/
    (3 * v <= C - x /\ nu v = 9).
  Proof.
    unfold nu. destruct (C - x <? 2 * v) eqn:E1; [left; lia|].
    destruct (C <? 3 * v) eqn:E2; [right; left; lia|].
    destruct (C - x <? 3 * v) eqn:E3; [right; right; left; lia|right; right; right; lia].
  Qed.

  (** the weight of the only companion p of a big item b *)
  Definition wp (b p : Z) : Z :=
    if C - x <? 2 * p then 17 else if C <? 3 * p then 13
    else if C - x <? 3 * p then (if C - x <? 3 * (C - b - x) then 13 else 12)
    else (if 2 * x <=? C - b then 10 else 9).

  Lemma wp_spec b p :
    (C - x < 2 * p /\ nu p = 18 /\ wp b p = 17) \/
    (2 * p <= C - x /\ C < 3 * p /\ nu p = 14 /\ wp b p = 13) \/
    (3 * p <= C /\ C - x < 3 * p /\ C - x < 3 * (C - b - x) /\ nu p = 12 /\ wp b p = 13) \/
    (3 * p <= C /\ C - x < 3 * p /\ 3 * (C - b - x) <= C - x /\ nu p = 12 /\ wp b p = 12) \/
    (3 * p <= C - x /\ 2 * x <= C - b /\ nu p = 9 /\ wp b p = 10) \/
    (3 * p <= C - x /\ C - b < 2 * x /\ nu p = 9 /\ wp b p = 9).
  Proof.
    unfold wp, nu. destruct (C - x <? 2 * p) eqn:E1; [left; lia|].
    destruct (C <? 3 * p) eqn:E2; [right; left; lia|].
    destruct (C - x <? 3 * p) eqn:E3.
    - destruct (C - x <? 3 * (C - b - x)) eqn:E4; [right; right; left; lia|right; right; right; left; lia].
    - destruct (2 * x <=? C - b) eqn:E4; [right; right; right; right; left; lia|right; right; right; right; right; lia].
  Qed.

  Definition Wcore (c : list Z) : list Z :=
    match c with
    | [] => []
    | b :: Q =>
        if C <? 2 * b then
          if C - x <? b then 36 :: map (fun _ => 0) Q
          else match Q with
               | [p] => [36 - wp b p; wp b p]
               | _ => 18 :: map (fun _ => 9) Q
               end
        else map nu c
    end.


  Notation shape4 lem := (lem 36 nu (fun _ : Z => 9) wp (fun _ : list Z => 18)).

  Lemma Wcore_length c : length (Wcore c) = length c.
  Proof. exact (shape4 Wshape_length c). Qed.

  Notation wl := (wl Wcore).
  Notation cw := (cw Wcore).
  Notation tw := (tw Wcore).
  Notation gw := (gw Wcore).

  Lemma kind c k v : okcore c -> nth_error c k = Some v ->
    x <= v /\ v <= hd 0 c /\
    ( (C - x < v /\ nth k (Wcore c) 0 = 36)
    \/ (exists p, c = [v; p] /\ k = 0%nat /\ C < 2 * v /\ v <= C - x /\ nth k (Wcore c) 0 = 36 - wp v p)
    \/ (C < 2 * v /\ v <= C - x /\ hd 0 c = v /\ nth k (Wcore c) 0 = 18)
    \/ (exists b, c = [b; v] /\ k = 1%nat /\ C < 2 * b /\ b <= C - x /\ 2 * v <= C /\ nth k (Wcore c) 0 = wp b v)
    \/ (2 * v <= C /\ C < 2 * hd 0 c /\ nth k (Wcore c) 0 = 9)
    \/ (2 * v <= C /\ 2 * hd 0 c <= C /\ nth k (Wcore c) 0 = nu v)).
  Proof using Hxpos Hx5 Hx4.
    intros Ho Hn. pose proof Ho as (Hge & _ & _ & Hhd).
    assert (Hin : In v c) by (eapply nth_error_In; exact Hn).
    split; [rewrite Forall_forall in Hge; apply Hge; exact Hin|].
    split; [rewrite Forall_forall in Hhd; apply Hhd; exact Hin|].
    destruct (shape4 shape_kind c k v Ho Hn) as [K|[K|[(Q & E & _ & K1 & K2 & K3)|[K|[(K1 & K2 & _ & K3)|K]]]]].
    - left. exact K.
    - right; left. exact K.
    - do 2 right; left. subst c. split; [exact K1|split; [exact K2|split; [reflexivity|exact K3]]].
    - do 3 right; left. exact K.
    - do 4 right; left. split; [exact K1|split; [exact K2|exact K3]].
    - do 5 right. exact K.
  Qed.

  (** the three kinds of a value of at most C/2 *)
  Lemma small_kind a : Vc a -> 2 * lv a <= C ->
    (2 * hd 0 (lc a) <= C /\ wl a = nu (lv a)) \/
    (C < 2 * hd 0 (lc a) /\ wl a = 9) \/
    (exists b, lc a = [b; lv a] /\ lk a = 1%nat /\ C < 2 * b /\ b <= C - x /\ wl a = wp b (lv a)).
  Proof.
    intros Va Hs. destruct (shape4 small_shape a Va Hs) as [K|[(K1 & _ & K2)|K]].
    - left. exact K.
    - right; left. split; [exact K1|exact K2].
    - right; right. exact K.
  Qed.

  (** the three kinds of a value above C/2 *)
  Lemma big_kind a : Vc a -> C < 2 * lv a ->
    (C - x < lv a /\ wl a = 36) \/
    (exists p, lc a = [lv a; p] /\ lk a = 0%nat /\ lv a <= C - x /\ wl a = 36 - wp (lv a) p) \/
    (lv a <= C - x /\ wl a = 18).
  Proof.
    intros Va Hb. destruct (shape4 big_shape a Va Hb) as [K|[K|(Q & _ & _ & K1 & K2)]].
    - left. exact K.
    - right; left. exact K.
    - right; right. split; [exact K1|exact K2].
  Qed.

  Lemma nu_ge v : 9 <= nu v <= 18.
  Proof. pose proof (nu_spec v). lia. Qed.

  Definition nu1 (v : Z) : Z := if 3 * v <=? C then nu v + 1 else nu v.

  Lemma nu1_spec v :
    (C - x < 2 * v /\ nu v = 18 /\ nu1 v = 18) \/
    (2 * v <= C - x /\ C < 3 * v /\ nu v = 14 /\ nu1 v = 14) \/
    (3 * v <= C /\ C - x < 3 * v /\ nu v = 12 /\ nu1 v = 13) \/
    (3 * v <= C - x /\ nu v = 9 /\ nu1 v = 10).
  Proof.
    unfold nu1. destruct (nu_spec v) as [K|[K|[K|K]]];
      [left|right; left|right; right; left|right; right; right]; (destruct (3 * v <=? C) eqn:E; lia).
  Qed.

  Lemma wl_small_bound a : Vc a -> 2 * lv a <= C -> 9 <= wl a <= nu1 (lv a).
  Proof.
    intros Hv Hs. pose proof (Vc_ge a Hv) as Hge. pose proof (nu1_spec (lv a)) as N.
    destruct (small_kind a Hv Hs) as [[_ K]|[[_ K]|(b & E & Ek & Hb & Hb' & K)]]; rewrite K; [lia|lia|].
    pose proof (wp_spec b (lv a)) as W. lia.
  Qed.
  (** a companion p of b is boosted by one, if it is lower medium and a lower medium and a small value
      fit beside b, or small and two values fit beside b *)
  Lemma wp_boost b p : nu p < wp b p ->
    wp b p = nu p + 1 /\
    ((3 * p <= C /\ C - x < 3 * p /\ C - x < 3 * (C - b - x)) \/ (3 * p <= C - x /\ 2 * x <= C - b)).
  Proof. pose proof (wp_spec b p) as W. lia. Qed.

  Lemma boost_room4 b z : okcore [b; z] -> nu z < wp b z -> C - x < 2 * (C - b).
  Proof. intros O Hlt. destruct (wp_boost b z Hlt) as [_ [H|H]]; lia. Qed.

  (** a value of at most C/2 weighs its natural weight, or one more when it is boosted *)
  Lemma small_boost a : Vc a -> 2 * lv a <= C ->
    wl a <= nu (lv a) \/
    (exists b, lc a = [b; lv a] /\ C < 2 * b /\ okcore [b; lv a] /\ wl a = nu (lv a) + 1 /\
       ((3 * lv a <= C /\ C - x < 3 * lv a /\ C - x < 3 * (C - b - x)) \/
        (3 * lv a <= C - x /\ 2 * x <= C - b))).
  Proof.
    intros Hv Hs.
    destruct (shape4 shape_boost (fun v => proj1 (nu_ge v)) a Hv Hs) as [U|(b & E & Hb & O & K & Hlt)]; [left; exact U|].
    right. exists b. destruct (wp_boost b (lv a) Hlt) as [Hw Hc].
    split; [exact E|split; [exact Hb|split; [exact O|split; [rewrite <- Hw; exact K|exact Hc]]]].
  Qed.

  Lemma wp_ge9 b p : 9 <= wp b p <= 17.
  Proof. pose proof (wp_spec b p). lia. Qed.

  Lemma group1 a : Vc a -> wl a <= 44.
  Proof.
    intros Va. pose proof (Vc_ge a Va) as Ga.
    destruct (Z_lt_le_dec C (2 * lv a)) as [Hbig|Hsm].
    - destruct (big_kind a Va Hbig) as [[_ K]|[(p & E & Ek & Hle & K)|[_ K]]]; rewrite K; try lia.
      pose proof (wp_ge9 (lv a) p). lia.
    - pose proof (wl_small_bound a Va Hsm). pose proof (nu1_spec (lv a)). lia.
  Qed.

  (** ---- the bins are heavy ---- *)
  (** the bins that may weigh less than 36, by the class of their first value (thresholds in twelfths):
      large (above (C-x)/2) 30, upper medium (above C/3) 32, lower medium (above (C-x)/3) 30 *)
  Definition kinds4 : list (Z * Z) := [(6 * (C - x), 6); (4 * C, 4); (4 * (C - x), 6)].

  (** a core without a value above C/2 by the class (T, w) of its first value, of which m fit: either
      m values of that class and the others weigh 36, or it is deficient by d *)
  Lemma class4 T w d m c : okcore c -> 2 * hd 0 c <= C ->
    In (T, (w, d)) [(6 * (C - x), (18, 6)); (4 * C, (14, 4)); (4 * (C - x), (12, 6))] ->
    T < 12 * hd 0 c -> m * hd 0 c <= C -> 36 <= 9 * Z.of_nat (length c) + (w - 9) * m ->
    36 <= zsum (map nu c) + d ->
    36 <= zsum (map nu c) \/
    exists T d, In (T, d) kinds4 /\ 36 <= zsum (map nu c) + d /\
      Exists (fun v => T < 12 * v) c /\ nofit (fun v => T < 12 * v /\ 2 * v <= C) c.
  Proof.
    intros Ho H2 Hin Ha Hm Hheavy Hd.
    assert (HT : In (T, d) kinds4 /\ 9 <= w /\ forall v, T < 12 * v -> w <= nu v).
    { cbn [In] in Hin. destruct Hin as [E|[E|[E|[]]]]; apply pair_equal_spec in E; destruct E as [<- E];
        apply pair_equal_spec in E; destruct E as [<- <-];
        (split; [unfold kinds4; cbn [In]; tauto|split; [lia|intros v Hv; pose proof (nu_spec v); lia]]). }
    destruct HT as (H1 & H3 & H4).
    apply (by_count kinds4 12 36 nu 9 T d w m c); try assumption; [lia|intros v; apply nu_ge].
  Qed.

  Lemma core_cases c : okcore c ->
    36 <= cw c \/
    (2 * hd 0 c <= C /\ exists T d, In (T, d) kinds4 /\ 36 <= cw c + d /\
       Exists (fun v => T < 12 * v) c /\ nofit (fun v => T < 12 * v /\ 2 * v <= C) c).
  Proof.
    intros Ho. apply (shape4 shape_cases 12 kinds4 c); [|exact Ho|].
    { intros Q HQ. pose proof (zsum_map_ge (fun _ => 9) 9 Q ltac:(lia)). lia. }
    intros Hh. pose proof Ho as (Hge & Hsum & Hcl & Hhd).
    destruct c as [|a [|b [|c [|d r]]]].
    - exfalso. rewrite zsum_nil in Hcl. lia.
    - exfalso. cbn [hd] in Hh. rewrite zsum_cons, zsum_nil in Hcl. lia.
    - (* two values: the first one is large, the other one lower medium at least *)
      split_ge Hge Ha. split_ge Hge Hb. split_ge Hhd Ha'. split_ge Hhd Hb'. cbn [hd] in *. rewrite !zsum_cons, zsum_nil in *.
      apply (class4 (6 * (C - x)) 18 6 2); [exact Ho|exact Hh|cbn [In]; tauto|cbn [hd]; lia|cbn [hd]; lia|cbn [length]; lia|].
      cbn [map]. rewrite !zsum_cons, zsum_nil. pose proof (nu_spec a). pose proof (nu_spec b). lia.
    - split_ge Hge Ha. split_ge Hge Hb. split_ge Hge Hc. split_ge Hhd Ha'. split_ge Hhd Hb'. split_ge Hhd Hc'. cbn [hd] in *.
      rewrite !zsum_cons, zsum_nil in *.
      destruct (Z_lt_le_dec (C - x) (2 * a)) as [HL|HL];
        [apply (class4 (6 * (C - x)) 18 6 2)
        |destruct (Z_lt_le_dec C (3 * a)) as [HM|HM]; [apply (class4 (4 * C) 14 4 2)|apply (class4 (4 * (C - x)) 12 6 3)]];
        try assumption; try (cbn [In]; tauto); cbn [hd length map]; rewrite ?zsum_cons, ?zsum_nil; try lia;
        pose proof (nu_spec a); pose proof (nu_spec b); pose proof (nu_spec c); lia.
    - left. pose proof (zsum_map_ge nu 9 (a :: b :: c :: d :: r) (fun v => proj1 (nu_ge v))) as H.
      cbn [length] in H. lia.
  Qed.

  (** ---- a feasible set of labelled values weighs at most 44, whatever relation the cores are in ---- *)
  Section QuarterRel.
  Variable Lt : list Z -> list Z -> Prop.
  Hypothesis HLt : later_like Lt.
  Notation RcL := (Rc_of Lt).

  Lemma unboosted4 a az b p z' : lc a = [b; p] -> okcore [b; p] -> C < 2 * b -> 2 * p <= C - x ->
    Vc az -> 2 * lv az <= C -> RcL a az -> x <= z' -> b + lv az + z' <= C -> wl az <= nu (lv az).
  Proof. exact (shape4 partner_unboosted (fun v => proj1 (nu_ge v)) boost_room4 Lt HLt a az b p z'). Qed.

  (** (36 - w p) + the two other values <= 44 *)
  Lemma double_partner_bound a a1 a2 b p :
    lc a = [b; p] -> okcore [b; p] -> C < 2 * b ->
    Vc a1 -> Vc a2 -> RcL a a1 -> RcL a a2 -> b + lv a1 + lv a2 <= C ->
    wl a1 + wl a2 <= wp b p + 8.
  Proof.
    intros E1 O1 Hb V1 V2 R1 R2 Hsum. pose proof (okcore2 _ _ O1) as O1'.
    pose proof (Vc_ge a1 V1) as G1. pose proof (Vc_ge a2 V2) as G2.
    assert (S1 : 2 * lv a1 <= C) by lia. assert (S2 : 2 * lv a2 <= C) by lia.
    pose proof (wl_small_bound a1 V1 S1) as B1. pose proof (wl_small_bound a2 V2 S2) as B2.
    pose proof (wp_spec b p) as W. pose proof (nu1_spec (lv a1)) as N1. pose proof (nu1_spec (lv a2)) as N2.
    destruct (Z_lt_le_dec (C - x) (2 * p)) as [HL|HnL]; [lia|].
    (* the companion is not large: the two values are not boosted *)
    assert (U1 : wl a1 <= nu (lv a1)) by (apply (unboosted4 a a1 b p (lv a2)); try assumption; lia).
    assert (U2 : wl a2 <= nu (lv a2)) by (apply (unboosted4 a a2 b p (lv a1)); try assumption; lia).
    lia.
  Qed.

  (** (36 - w p) + one other value <= 44 *)
  Lemma single_partner_bound a a1 b p :
    lc a = [b; p] -> okcore [b; p] -> C < 2 * b ->
    Vc a1 -> RcL a a1 -> b + lv a1 <= C -> wl a1 <= wp b p + 8.
  Proof.
    intros E1 O1 Hb V1 R1 Hsum. pose proof (okcore2 _ _ O1) as O1'.
    pose proof (Vc_ge a1 V1) as G1. assert (S1 : 2 * lv a1 <= C) by lia.
    pose proof (wl_small_bound a1 V1 S1) as B1. pose proof (wp_spec b p) as W. pose proof (nu1_spec (lv a1)) as N1.
    destruct (Z_lt_le_dec (wp b p) 10) as [H9|H10]; [|lia].
    (* the companion is small and unboosted: a natural large value cannot come *)
    destruct (small_kind a1 V1 S1) as [[Hh K]|[[_ K]|(b' & E2 & Ek & Hb' & Hb'' & K)]]; rewrite K.
    - destruct (Z_lt_le_dec (C - x) (2 * lv a1)) as [HL|HL]; [exfalso|lia].
      apply (late_fits_contra Lt HLt a1 a b p V1 Hh E1 O1 Hb); [lia|lia|lia|apply Rc_of_sym; exact R1].
    - lia.
    - pose proof (wp_spec b' (lv a1)) as W'. lia.
  Qed.

  (** beside a boosted lower medium value a small value is not boosted *)
  Lemma boosted_medium am az b1 : lc am = [b1; lv am] -> okcore [b1; lv am] -> C < 2 * b1 ->
    3 * lv am <= C -> C - x < 3 * lv am -> C - x < 3 * (C - b1 - x) ->
    Vc az -> 3 * lv az <= C - x -> RcL am az -> wl az <= nu (lv az).
  Proof.
    intros E1 O1 Hb1 M1 M2 M3 Vz Hz HR. pose proof (Vc_ge az Vz).
    destruct (small_boost az Vz ltac:(lia)) as [U|(b2 & E2 & Hb2 & O2 & _ & [T|T])]; [exact U|lia|exfalso].
    pose proof (okcore2 _ _ O1). pose proof (okcore2 _ _ O2).
    apply (no_mix_gen Lt HLt am az b1 (lv am) b2 (lv az) E1 E2 O1 O2); [lia|lia|lia|exact HR].
  Qed.

  (** large + upper medium + lower medium *)
  Lemma pattern1 aL aM am : Vc aL -> Vc aM -> Vc am -> RcL aM am ->
    2 * lv aL <= C -> C - x < 2 * lv aL ->
    2 * lv aM <= C - x -> C < 3 * lv aM ->
    3 * lv am <= C -> C - x < 3 * lv am ->
    lv aL + lv aM + lv am <= C -> wl aL + wl aM + wl am <= 44.
  Proof.
    intros VL VM Vm HR L1 L2 M1 M2 m1 m2 Hsum.
    assert (SM : 2 * lv aM <= C) by lia. assert (Sm : 2 * lv am <= C) by lia.
    pose proof (wl_small_bound aL VL L1) as BL. pose proof (wl_small_bound aM VM SM) as BM.
    pose proof (nu1_spec (lv aL)) as NL. pose proof (nu1_spec (lv aM)) as NM. pose proof (nu_spec (lv am)) as N.
    destruct (small_boost am Vm Sm) as [U|(b & E & Hb & O & K & [Hc|Hc])]; [lia| |lia].
    (* the upper medium value is a companion in an earlier bin: it weighs at most 13 *)
    destruct (small_kind aM VM SM) as [[Hh K']|[[_ K']|(b' & E' & Ek' & Hb' & Hb'' & K')]].
    - exfalso. pose proof (okcore2 _ _ O) as O'.
      apply (late_fits_contra Lt HLt aM am b (lv am) VM Hh E O Hb); [lia|lia|lia|exact HR].
    - lia.
    - pose proof (wp_spec b' (lv aM)) as W'. lia.
  Qed.

  (** two lower medium + two small *)
  Lemma pattern2 m1 m2 s1 s2 : Vc m1 -> Vc m2 -> Vc s1 -> Vc s2 ->
    RcL m1 s1 -> RcL m1 s2 -> RcL m2 s1 -> RcL m2 s2 ->
    3 * lv m1 <= C -> C - x < 3 * lv m1 -> 3 * lv m2 <= C -> C - x < 3 * lv m2 ->
    3 * lv s1 <= C - x -> 3 * lv s2 <= C - x ->
    wl m1 + wl m2 + wl s1 + wl s2 <= 44.
  Proof.
    intros V1 V2 V3 V4 R13 R14 R23 R24 A1 A2 B1 B2 C1 C2.
    pose proof (Vc_ge s1 V3) as G3. pose proof (Vc_ge s2 V4) as G4.
    assert (S1 : 2 * lv m1 <= C) by lia. assert (S2 : 2 * lv m2 <= C) by lia.
    assert (S3 : 2 * lv s1 <= C) by lia. assert (S4 : 2 * lv s2 <= C) by lia.
    assert (N1 : nu (lv m1) = 12 /\ nu1 (lv m1) = 13) by (pose proof (nu1_spec (lv m1)); lia).
    assert (N2 : nu (lv m2) = 12 /\ nu1 (lv m2) = 13) by (pose proof (nu1_spec (lv m2)); lia).
    assert (N3 : nu (lv s1) = 9 /\ nu1 (lv s1) = 10) by (pose proof (nu1_spec (lv s1)); lia).
    assert (N4 : nu (lv s2) = 9 /\ nu1 (lv s2) = 10) by (pose proof (nu1_spec (lv s2)); lia).
    pose proof (wl_small_bound m1 V1 S1). pose proof (wl_small_bound m2 V2 S2).
    pose proof (wl_small_bound s1 V3 S3). pose proof (wl_small_bound s2 V4 S4).
    (* 12 + 12 + 9 + 9 and two boosts: if a medium value is boosted, the small ones are not *)
    destruct (small_boost m1 V1 S1) as [U1|(b1 & E1 & Hb1 & O1 & K1 & [(T1 & T1' & T1'')|T1])]; [| |lia].
    2: { pose proof (boosted_medium m1 s1 b1 E1 O1 Hb1 T1 T1' T1'' V3 C1 R13).
         pose proof (boosted_medium m1 s2 b1 E1 O1 Hb1 T1 T1' T1'' V4 C2 R14). lia. }
    destruct (small_boost m2 V2 S2) as [U2|(b2 & E2 & Hb2 & O2 & K2 & [(T2 & T2' & T2'')|T2])]; [lia| |lia].
    pose proof (boosted_medium m2 s1 b2 E2 O2 Hb2 T2 T2' T2'' V3 C1 R23).
    pose proof (boosted_medium m2 s2 b2 E2 O2 Hb2 T2 T2' T2'' V4 C2 R24). lia.
  Qed.

  Lemma group2 a b : Vc a -> Vc b -> RcL a b -> lv b <= lv a -> lv a + lv b <= C -> wl a + wl b <= 44.
  Proof.
    intros Va Vb Rab Hab Hsum. pose proof (Vc_ge a Va) as Ga. pose proof (Vc_ge b Vb) as Gb.
    assert (Sb : 2 * lv b <= C) by lia. pose proof (wl_small_bound b Vb Sb) as Bb.
    destruct (Z_lt_le_dec C (2 * lv a)) as [Hbig|Hsm].
    - destruct (big_kind a Va Hbig) as [[Hz K]|[(p & E & Ek & Hle & K)|[_ K]]]; rewrite K.
      + lia.
      + assert (O : okcore [lv a; p]) by (rewrite <- E; apply Va).
        pose proof (single_partner_bound a b (lv a) p E O Hbig Vb Rab Hsum). lia.
      + pose proof (nu1_spec (lv b)). lia.
    - pose proof (wl_small_bound a Va Hsm) as Ba. pose proof (nu1_spec (lv a)). pose proof (nu1_spec (lv b)). lia.
  Qed.

  Lemma group3 a b c : Vc a -> Vc b -> Vc c -> RcL a b -> RcL a c -> RcL b c ->
    lv b <= lv a -> lv c <= lv b -> lv a + lv b + lv c <= C -> wl a + wl b + wl c <= 44.
  Proof.
    intros Va Vb Vv Rab Rac Rbc Hab Hbc Hsum.
    pose proof (Vc_ge a Va) as Ga. pose proof (Vc_ge b Vb) as Gb. pose proof (Vc_ge c Vv) as Gc.
    assert (Sb : 2 * lv b <= C) by lia. pose proof (wl_small_bound b Vb Sb) as Bb.
    assert (Sc : 2 * lv c <= C) by lia. pose proof (wl_small_bound c Vv Sc) as Bc.
    destruct (Z_lt_le_dec C (2 * lv a)) as [Hbig|Hsm].
    - destruct (big_kind a Va Hbig) as [[Hz K]|[(p & E & Ek & Hle & K)|[_ K]]]; rewrite K.
      + lia.
      + assert (O : okcore [lv a; p]) by (rewrite <- E; apply Va).
        pose proof (double_partner_bound a b c (lv a) p E O Hbig Vb Vv Rab Rac Hsum). lia.
      + pose proof (nu1_spec (lv b)). pose proof (nu1_spec (lv c)). lia.
    - pose proof (wl_small_bound a Va Hsm) as Ba.
      (* only large + upper medium + lower medium can exceed 44 by the largest weights *)
      destruct (Z_lt_le_dec (C - x) (2 * lv a)) as [HL|HL];
        [destruct (Z_lt_le_dec C (3 * lv b)) as [HM|HM];
           [destruct (Z_lt_le_dec (C - x) (3 * lv c)) as [Hm|Hm]; [apply pattern1; try assumption; lia|]|]|];
        pose proof (nu1_spec (lv a)); pose proof (nu1_spec (lv b)); pose proof (nu1_spec (lv c)); lia.
  Qed.

  Lemma group4 a b c d : Vc a -> Vc b -> Vc c -> Vc d ->
    RcL a c -> RcL a d -> RcL b c -> RcL b d ->
    lv b <= lv a -> lv c <= lv b -> lv d <= lv c -> lv a + lv b + lv c + lv d <= C ->
    wl a + wl b + wl c + wl d <= 44.
  Proof.
    intros Va Vb Vv Vd Rac Rad Rbc Rbd Hab Hbc Hcd Hsum.
    pose proof (Vc_ge a Va) as Ga. pose proof (Vc_ge b Vb) as Gb. pose proof (Vc_ge c Vv) as Gc.
    pose proof (Vc_ge d Vd) as Gd.
    assert (Sa : 2 * lv a <= C) by lia. pose proof (wl_small_bound a Va Sa) as Ba.
    assert (Sb : 2 * lv b <= C) by lia. pose proof (wl_small_bound b Vb Sb) as Bb.
    assert (Sc : 2 * lv c <= C) by lia. pose proof (wl_small_bound c Vv Sc) as Bc.
    assert (Sd : 2 * lv d <= C) by lia. pose proof (wl_small_bound d Vd Sd) as Bd.
    (* only two lower medium + two small can exceed 44 by the largest weights *)
    destruct (Z_lt_le_dec (C - x) (3 * lv b)) as [Hm|Hm]; [apply pattern2; try assumption; lia|].
    pose proof (nu1_spec (lv a)). pose proof (nu1_spec (lv b)). pose proof (nu1_spec (lv c)). pose proof (nu1_spec (lv d)).
    lia.
  Qed.


  Lemma light_sorted4 g : Forall Vc g -> AllPairs RcL g ->
    StronglySorted (fun a b => lv b <= lv a) g -> gv g <= C -> gw g <= 44.
  Proof.
    apply (light_by_size Wcore 44 RcL g); [lia|lia|exact group1|exact group2|exact group3| |].
    - intros a b c d Va Vb Vv Vd _ Rac Rad Rbc Rbd _. exact (group4 a b c d Va Vb Vv Vd Rac Rad Rbc Rbd).
    - intros a b c d e Va Vb Vv Vd Ve _ _ _ _ Hsum. exfalso.
      pose proof (Vc_ge a Va). pose proof (Vc_ge b Vb). pose proof (Vc_ge c Vv). pose proof (Vc_ge d Vd).
      pose proof (Vc_ge e Ve). lia.
  Qed.

  Lemma heavy_of : forall cs, chain_of Lt cs -> 36 * Z.of_nat (length cs) <= tw cs + 16.
  Proof.
    apply (heavy_by_kinds Lt HLt Wcore 36 12 kinds4); [lia| |exact core_cases].
    unfold kinds4. repeat constructor; cbn [snd]; lia.
  Qed.

  Lemma quarter_of {A : Type} (valueof : A -> Z) (t : bins A) (last : bin A) (items : list A) (n : nat) :
    chain_of Lt (map (core valueof) t) -> Forall (fun y => 0 <= valueof y) (contents (t ++ [last])) ->
    Permutation (contents (t ++ [last])) items -> Packable C (map valueof items) n ->
    36 * Z.of_nat (length t) <= 44 * Z.of_nat n + 16.
  Proof. apply (count_of Wcore Wcore_length 36 44 16 Lt light_sorted4 heavy_of). Qed.
  End QuarterRel.

  Lemma heavy : forall cs, chain cs -> 36 * Z.of_nat (length cs) <= tw cs + 16.
  Proof. exact (heavy_of Later Later_like). Qed.

  End Quarter.

  (** ---- the weights for 5 x <= C, 2 C < 11 x, 41 x <= 8 C (scale 180 / 220) ---- *)
  Section Fifth.
  Hypothesis H5 : 5 * x <= C.
  Hypothesis H11 : 2 * C < 11 * x.
  Hypothesis H41 : 41 * x <= 8 * C.

  Definition nu5 (v : Z) : Z :=
    if C - x <? 2 * v then 90 else if C <? 3 * v then 72 else if C - x <? 3 * v then 60
    else if C <? 4 * v then 48 else if C - x <? 4 * v then 45 else 36.

  Lemma nu5_spec v :
    (C - x < 2 * v /\ nu5 v = 90) \/
    (2 * v <= C - x /\ C < 3 * v /\ nu5 v = 72) \/
    (3 * v <= C /\ C - x < 3 * v /\ nu5 v = 60) \/
    (3 * v <= C - x /\ C < 4 * v /\ nu5 v = 48) \/
    (4 * v <= C /\ C - x < 4 * v /\ nu5 v = 45) \/
    (4 * v <= C - x /\ nu5 v = 36).
  Proof.
    unfold nu5. destruct (C - x <? 2 * v) eqn:E1; [left; lia|].
    destruct (C <? 3 * v) eqn:E2; [right; left; lia|].
    destruct (C - x <? 3 * v) eqn:E3; [right; right; left; lia|].
    destruct (C <? 4 * v) eqn:E4; [right; right; right; left; lia|].
    destruct (C - x <? 4 * v) eqn:E5; [right; right; right; right; left; lia|right; right; right; right; right; lia].
  Qed.

  (** the weight of the only companion p of a big item b *)
  Definition wp5 (b p : Z) : Z :=
    if C - x <? 2 * p then 76 else if C <? 3 * p then 68
    else if C - x <? 3 * p then (if 7 * (C - x) <? 12 * (C - b) then 65 else 60)
    else if C <? 4 * p then (if 2 * C - x <? 4 * (C - b) then 53 else if C - x <? 2 * (C - b) then 50 else 48)
    else if C - x <? 4 * p then (if C - x <? 2 * (C - b) then 50 else 45)
    else 36.

  Lemma wp5_spec b p :
    (C - x < 2 * p /\ nu5 p = 90 /\ wp5 b p = 76) \/
    (2 * p <= C - x /\ C < 3 * p /\ nu5 p = 72 /\ wp5 b p = 68) \/
    (3 * p <= C /\ C - x < 3 * p /\ 7 * (C - x) < 12 * (C - b) /\ nu5 p = 60 /\ wp5 b p = 65) \/
    (3 * p <= C /\ C - x < 3 * p /\ 12 * (C - b) <= 7 * (C - x) /\ nu5 p = 60 /\ wp5 b p = 60) \/
    (3 * p <= C - x /\ C < 4 * p /\ 2 * C - x < 4 * (C - b) /\ nu5 p = 48 /\ wp5 b p = 53) \/
    (3 * p <= C - x /\ C < 4 * p /\ 4 * (C - b) <= 2 * C - x /\ C - x < 2 * (C - b) /\ nu5 p = 48 /\ wp5 b p = 50) \/
    (3 * p <= C - x /\ C < 4 * p /\ 2 * (C - b) <= C - x /\ nu5 p = 48 /\ wp5 b p = 48) \/
    (4 * p <= C /\ C - x < 4 * p /\ C - x < 2 * (C - b) /\ nu5 p = 45 /\ wp5 b p = 50) \/
    (4 * p <= C /\ C - x < 4 * p /\ 2 * (C - b) <= C - x /\ nu5 p = 45 /\ wp5 b p = 45) \/
    (4 * p <= C - x /\ nu5 p = 36 /\ wp5 b p = 36).
  Proof.
    unfold wp5, nu5. destruct (C - x <? 2 * p) eqn:E1; [left; lia|].
    destruct (C <? 3 * p) eqn:E2; [right; left; lia|].
    destruct (C - x <? 3 * p) eqn:E3.
    { destruct (7 * (C - x) <? 12 * (C - b)) eqn:E; [right; right; left; lia|right; right; right; left; lia]. }
    destruct (C <? 4 * p) eqn:E4.
    { destruct (2 * C - x <? 4 * (C - b)) eqn:E; [right; right; right; right; left; lia|].
      destruct (C - x <? 2 * (C - b)) eqn:E'; [right; right; right; right; right; left; lia|].
      right; right; right; right; right; right; left; lia. }
    destruct (C - x <? 4 * p) eqn:E5.
    { destruct (C - x <? 2 * (C - b)) eqn:E; [do 7 right; left; lia|do 8 right; left; lia]. }
    do 9 right. lia.
  Qed.

  (** with several companions, these have their natural weights and the first value takes the rest *)
  Definition hf5 (Q : list Z) : Z := 180 - zsum (map nu5 Q).

  Notation shape5 lem := (lem 180 nu5 nu5 wp5 hf5).
  Notation Wcore5 := (shape5 Wshape).
  Notation wl5 := (wl Wcore5).
  Notation cw5 := (cw Wcore5).
  Notation tw5 := (tw Wcore5).
  Notation gw5 := (gw Wcore5).

  Lemma nu5_ge v : 36 <= nu5 v <= 90.
  Proof. pose proof (nu5_spec v). lia. Qed.

  (** the three kinds of a value of at most C/2 *)
  Lemma small_kind5 a : Vc a -> 2 * lv a <= C ->
    (2 * hd 0 (lc a) <= C /\ wl5 a = nu5 (lv a)) \/
    (C < 2 * hd 0 (lc a) /\ hd 0 (lc a) + lv a + x <= C /\ wl5 a = nu5 (lv a)) \/
    (exists b, lc a = [b; lv a] /\ lk a = 1%nat /\ C < 2 * b /\ b <= C - x /\ wl5 a = wp5 b (lv a)).
  Proof. exact (shape5 small_shape a). Qed.

  Lemma big_kind5 a : Vc a -> C < 2 * lv a ->
    (C - x < lv a /\ wl5 a = 180) \/
    (exists p, lc a = [lv a; p] /\ lv a <= C - x /\ wl5 a = 180 - wp5 (lv a) p) \/
    (lv a <= C - x /\ wl5 a <= 108).
  Proof.
    intros Va Hb. destruct (shape5 big_shape a Va Hb) as [K|[(p & E & _ & K)|(Q & _ & HQ & K1 & K2)]].
    - left. exact K.
    - right; left. exists p. split; [exact E|exact K].
    - right; right. split; [exact K1|]. rewrite K2. unfold hf5.
      pose proof (zsum_map_ge nu5 36 Q (fun v => proj1 (nu5_ge v))). lia.
  Qed.

  (** the largest weight a value of at most C/2 can have *)
  Definition nu51 (v : Z) : Z :=
    if C <? 3 * v then nu5 v else if C - x <? 4 * v then nu5 v + 5 else nu5 v.

  Lemma nu51_spec v :
    (C - x < 2 * v /\ nu5 v = 90 /\ nu51 v = 90) \/
    (2 * v <= C - x /\ C < 3 * v /\ nu5 v = 72 /\ nu51 v = 72) \/
    (3 * v <= C /\ C - x < 3 * v /\ nu5 v = 60 /\ nu51 v = 65) \/
    (3 * v <= C - x /\ C < 4 * v /\ nu5 v = 48 /\ nu51 v = 53) \/
    (4 * v <= C /\ C - x < 4 * v /\ nu5 v = 45 /\ nu51 v = 50) \/
    (4 * v <= C - x /\ nu5 v = 36 /\ nu51 v = 36).
  Proof.
    unfold nu51. destruct (nu5_spec v) as [N|[N|[N|[N|[N|N]]]]];
      [left|right; left|do 2 right; left|do 3 right; left|do 4 right; left|do 5 right];
      (destruct (C <? 3 * v) eqn:E1; [|destruct (C - x <? 4 * v) eqn:E2]; lia).
  Qed.

  Lemma wl5_small_bound a : Vc a -> 2 * lv a <= C -> 36 <= wl5 a <= nu51 (lv a).
  Proof.
    intros Hv Hs. pose proof (Vc_ge a Hv) as Hge. pose proof (nu51_spec (lv a)) as N.
    destruct (small_kind5 a Hv Hs) as [[_ K]|[(_ & _ & K)|(b & E & _ & Hb & Hb' & K)]]; rewrite K; [lia|lia|].
    pose proof (wp5_spec b (lv a)) as W. lia.
  Qed.

  Lemma wp5_boost b p : nu5 p < wp5 b p ->
    C - x < 2 * (C - b) /\ 3 * p <= C /\
    ((C - x < 3 * p /\ 7 * (C - x) < 12 * (C - b) /\ wp5 b p = 65) \/
     (3 * p <= C - x /\ C < 4 * p /\ 2 * C - x < 4 * (C - b) /\ wp5 b p = 53) \/
     (3 * p <= C - x /\ C < 4 * p /\ 4 * (C - b) <= 2 * C - x /\ wp5 b p = 50) \/
     (4 * p <= C /\ C - x < 4 * p /\ wp5 b p = 50)).
  Proof. pose proof (wp5_spec b p) as W. lia. Qed.

  Lemma boost_room5 b z : okcore [b; z] -> nu5 z < wp5 b z -> C - x < 2 * (C - b).
  Proof. intros _ Hlt. exact (proj1 (wp5_boost b z Hlt)). Qed.

  (** a value of at most C/2 weighs its natural weight, or is boosted: then it sits alone beside a big
      value b whose room exceeds (C-x)/2 *)
  Lemma small_boost5 a : Vc a -> 2 * lv a <= C ->
    wl5 a <= nu5 (lv a) \/
    (exists b, lc a = [b; lv a] /\ C < 2 * b /\ okcore [b; lv a] /\ C - x < 2 * (C - b) /\ 3 * lv a <= C /\
       ((C - x < 3 * lv a /\ 7 * (C - x) < 12 * (C - b) /\ wl5 a = 65) \/
        (3 * lv a <= C - x /\ C < 4 * lv a /\ 2 * C - x < 4 * (C - b) /\ wl5 a = 53) \/
        (3 * lv a <= C - x /\ C < 4 * lv a /\ 4 * (C - b) <= 2 * C - x /\ wl5 a = 50) \/
        (4 * lv a <= C /\ C - x < 4 * lv a /\ wl5 a = 50))).
  Proof.
    intros Hv Hs.
    destruct (shape5 shape_boost (fun v => Z.le_refl (nu5 v)) a Hv Hs) as [U|(b & E & Hb & O & K & Hlt)]; [left; exact U|].
    right. exists b. destruct (wp5_boost b (lv a) Hlt) as (Hr & H3 & Hc). rewrite K.
    split; [exact E|split; [exact Hb|split; [exact O|split; [exact Hr|split; [exact H3|exact Hc]]]]].
  Qed.

  (** class-wise forms of [small_boost5] *)
  Lemma boostM a : Vc a -> 3 * lv a <= C -> C - x < 3 * lv a ->
    wl5 a <= 60 \/
    (exists b, lc a = [b; lv a] /\ C < 2 * b /\ okcore [b; lv a] /\ 7 * (C - x) < 12 * (C - b) /\ wl5 a = 65).
  Proof.
    intros Hv H1 H2. pose proof (Vc_ge a Hv). assert (Hs : 2 * lv a <= C) by lia.
    destruct (small_boost5 a Hv Hs) as [U|(b & E & Hb & O & Hr & H3 & [K|[K|[K|K]]])].
    - left. pose proof (nu5_spec (lv a)). lia.
    - right. exists b. split; [exact E|split; [exact Hb|split; [exact O|split; lia]]].
    - lia.
    - lia.
    - lia.
  Qed.

  Lemma boostSp a : Vc a -> 3 * lv a <= C - x -> C < 4 * lv a ->
    wl5 a <= 48 \/
    (exists b, lc a = [b; lv a] /\ C < 2 * b /\ okcore [b; lv a] /\ C - x < 2 * (C - b) /\
       ((2 * C - x < 4 * (C - b) /\ wl5 a = 53) \/ (4 * (C - b) <= 2 * C - x /\ wl5 a = 50))).
  Proof.
    intros Hv H1 H2. pose proof (Vc_ge a Hv). assert (Hs : 2 * lv a <= C) by lia.
    destruct (small_boost5 a Hv Hs) as [U|(b & E & Hb & O & Hr & H3 & [K|[K|[K|K]]])].
    - left. pose proof (nu5_spec (lv a)). lia.
    - lia.
    - right. exists b. split; [exact E|split; [exact Hb|split; [exact O|split; [exact Hr|left; lia]]]].
    - right. exists b. split; [exact E|split; [exact Hb|split; [exact O|split; [exact Hr|right; lia]]]].
    - lia.
  Qed.

  Lemma boostSm a : Vc a -> 4 * lv a <= C -> C - x < 4 * lv a ->
    wl5 a <= 45 \/
    (exists b, lc a = [b; lv a] /\ C < 2 * b /\ okcore [b; lv a] /\ C - x < 2 * (C - b) /\ wl5 a = 50).
  Proof.
    intros Hv H1 H2. pose proof (Vc_ge a Hv). assert (Hs : 2 * lv a <= C) by lia.
    destruct (small_boost5 a Hv Hs) as [U|(b & E & Hb & O & Hr & H3 & [K|[K|[K|K]]])].
    - left. pose proof (nu5_spec (lv a)). lia.
    - lia.
    - lia.
    - lia.
    - right. exists b. split; [exact E|split; [exact Hb|split; [exact O|split; lia]]].
  Qed.

  Lemma wp5_range b p : 36 <= wp5 b p <= 76.
  Proof. pose proof (wp5_spec b p). lia. Qed.


  (** three lower-small values beside two more values are not all boosted *)
  Lemma pat7 s1 s2 s3 : Vc s1 -> Vc s2 -> Vc s3 ->
    4 * lv s1 <= C -> C - x < 4 * lv s1 -> 4 * lv s2 <= C -> C - x < 4 * lv s2 ->
    4 * lv s3 <= C -> C - x < 4 * lv s3 -> lv s1 + lv s2 + lv s3 + 2 * x <= C ->
    wl5 s1 + wl5 s2 + wl5 s3 <= 145.
  Proof.
    intros V1 V2 V3 A1 A2 B1 B2 C1 C2 Hsum.
    destruct (boostSm s1 V1 A1 A2) as [U1|(b1 & E1 & Hb1 & O1 & T1 & K1)];
    destruct (boostSm s2 V2 B1 B2) as [U2|(b2 & E2 & Hb2 & O2 & T2 & K2)];
    destruct (boostSm s3 V3 C1 C2) as [U3|(b3 & E3 & Hb3 & O3 & T3 & K3)]; try lia.
    exfalso. apply okcore2 in O1. apply okcore2 in O2. apply okcore2 in O3. lia.
  Qed.

  (** the weight of an upper medium value: 72 in a bin without big value, 68 beside a big value *)
  Lemma Mp_kind u : Vc u -> 2 * lv u <= C - x -> C < 3 * lv u ->
    (2 * hd 0 (lc u) <= C /\ wl5 u = 72) \/ wl5 u = 68.
  Proof.
    intros Vu U1 U2. pose proof (Vc_ge u Vu) as Gu.
    destruct (small_kind5 u Vu ltac:(lia)) as [[Hh K]|[(Hh & Hm & K)|(b' & E2 & _ & Hb' & Hb'' & K)]].
    - left. split; [exact Hh|]. pose proof (nu5_spec (lv u)). lia.
    - exfalso. lia.
    - right. pose proof (wp5_spec b' (lv u)). lia.
  Qed.

  Lemma group51 a : Vc a -> wl5 a <= 220.
  Proof.
    intros Va. pose proof (Vc_ge a Va) as Ga.
    destruct (Z_lt_le_dec C (2 * lv a)) as [Hbig|Hsm].
    - destruct (big_kind5 a Va Hbig) as [[_ K]|[(p & E & Hle & K)|[_ K]]]; try lia.
      pose proof (wp5_range (lv a) p). lia.
    - pose proof (wl5_small_bound a Va Hsm). pose proof (nu51_spec (lv a)). lia.
  Qed.

  Lemma group55 a b c d e : Vc a -> Vc b -> Vc c -> Vc d -> Vc e ->
    lv b <= lv a -> lv c <= lv b -> lv d <= lv c -> lv e <= lv d ->
    lv a + lv b + lv c + lv d + lv e <= C ->
    wl5 a + wl5 b + wl5 c + wl5 d + wl5 e <= 220.
  Proof.
    intros Va Vb Vv Vd Ve Hab Hbc Hcd Hde Hsum.
    pose proof (Vc_ge a Va) as Ga. pose proof (Vc_ge b Vb) as Gb. pose proof (Vc_ge c Vv) as Gc.
    pose proof (Vc_ge d Vd) as Gd. pose proof (Vc_ge e Ve) as Ge.
    assert (Sa : 2 * lv a <= C) by lia. pose proof (wl5_small_bound a Va Sa) as Ba.
    assert (Sb : 2 * lv b <= C) by lia. pose proof (wl5_small_bound b Vb Sb) as Bb.
    assert (Sc : 2 * lv c <= C) by lia. pose proof (wl5_small_bound c Vv Sc) as Bc.
    assert (Sd : 2 * lv d <= C) by lia. pose proof (wl5_small_bound d Vd Sd) as Bd.
    assert (Se : 2 * lv e <= C) by lia. pose proof (wl5_small_bound e Ve Se) as Be.
    pose proof (nu51_spec (lv d)) as Nd. pose proof (nu51_spec (lv e)) as Ne.
    destruct (Z_lt_le_dec (C - x) (4 * lv c)) as [Hc|Hc].
    - (* three lower small values and two tiny ones *)
      pose proof (pat7 a b c Va Vb Vv ltac:(lia) ltac:(lia) ltac:(lia) ltac:(lia) ltac:(lia) ltac:(lia) ltac:(lia)). lia.
    - assert (Ec : nu51 (lv c) = 36) by (pose proof (nu51_spec (lv c)); lia).
      assert (Ed : nu51 (lv d) = 36) by lia. assert (Ee : nu51 (lv e) = 36) by lia. clear Nd Ne.
      pose proof (nu51_spec (lv a)). pose proof (nu51_spec (lv b)). lia.
  Qed.

  (** ---- the bins are heavy ---- *)
  (** the bins that may weigh less than 180 weigh 150 at least; by the class of their first value
      (thresholds in twelfths): above (C-x)/2, C/3, (C-x)/3, C/4, (C-x)/4 *)
  Definition kinds5 : list (Z * Z) :=
    [(6 * (C - x), 30); (4 * C, 30); (4 * (C - x), 30); (3 * C, 30); (3 * (C - x), 30)].

  Lemma nu5_above T w v :
    In (T, w) [(6 * (C - x), 90); (4 * C, 72); (4 * (C - x), 60); (3 * C, 48); (3 * (C - x), 45)] ->
    T < 12 * v -> w <= nu5 v.
  Proof.
    intros Hin Hv.
    destruct Hin as [E|[E|[E|[E|[E|[]]]]]]; apply pair_equal_spec in E; destruct E as [<- <-];
      destruct (nu5_spec v) as [N|[N|[N|[N|[N|N]]]]]; lia.
  Qed.

  (** a core without a value above C/2 by the class (T, w) of its first value, of which m fit: either
      m values of that class and the others weigh 180, or it is deficient *)
  Lemma class5 T w m c : okcore c -> 2 * hd 0 c <= C ->
    In (T, w) [(6 * (C - x), 90); (4 * C, 72); (4 * (C - x), 60); (3 * C, 48); (3 * (C - x), 45)] ->
    T < 12 * hd 0 c -> m * hd 0 c <= C -> 180 <= 36 * Z.of_nat (length c) + (w - 36) * m ->
    150 <= zsum (map nu5 c) ->
    180 <= zsum (map nu5 c) \/
    exists T d, In (T, d) kinds5 /\ 180 <= zsum (map nu5 c) + d /\
      Exists (fun v => T < 12 * v) c /\ nofit (fun v => T < 12 * v /\ 2 * v <= C) c.
  Proof.
    intros Ho H2 Hin Ha Hm Hheavy Hd.
    apply (by_count kinds5 12 180 nu5 36 T 30 w m c); try assumption; try lia.
    - unfold kinds5. cbn [In] in *. destruct Hin as [E|[E|[E|[E|[E|[]]]]]]; injection E as <- _; tauto.
    - intros v. apply nu5_ge.
    - intros v. apply (nu5_above T w v Hin).
    - cbn [In] in Hin. destruct Hin as [E|[E|[E|[E|[E|[]]]]]]; injection E as _ <-; lia.
  Qed.

  Lemma core_cases5 c : okcore c ->
    180 <= cw5 c \/
    (2 * hd 0 c <= C /\ exists T d, In (T, d) kinds5 /\ 180 <= cw5 c + d /\
       Exists (fun v => T < 12 * v) c /\ nofit (fun v => T < 12 * v /\ 2 * v <= C) c).
  Proof.
    intros Ho. apply (shape5 shape_cases 12 kinds5 c); [|exact Ho|].
    { intros Q _. unfold hf5. lia. }
    intros Hh. pose proof Ho as (Hge & Hsum & Hcl & Hhd).
    destruct c as [|a [|b [|c [|d [|e r]]]]].
    - exfalso. rewrite zsum_nil in Hcl. lia.
    - exfalso. cbn [hd] in Hh. rewrite zsum_cons, zsum_nil in Hcl. lia.
    - (* two values: the first one is large, the other one lower medium at least *)
      split_ge Hge Ha. split_ge Hge Hb. split_ge Hhd Ha'. split_ge Hhd Hb'. cbn [hd] in *. rewrite !zsum_cons, zsum_nil in *.
      apply (class5 (6 * (C - x)) 90 2); [exact Ho|exact Hh|cbn [In]; tauto|cbn [hd]; lia|cbn [hd]; lia|cbn [length]; lia|].
      cbn [map]. rewrite !zsum_cons, zsum_nil. pose proof (nu5_spec a). pose proof (nu5_spec b). lia.
    - split_ge Hge Ha. split_ge Hge Hb. split_ge Hge Hc. split_ge Hhd Ha'. split_ge Hhd Hb'. split_ge Hhd Hc'. cbn [hd] in *.
      rewrite !zsum_cons, zsum_nil in *.
      assert (Hd : 150 <= zsum (map nu5 [a; b; c])).
      { cbn [map]. rewrite !zsum_cons, zsum_nil.
        pose proof (nu5_spec a). pose proof (nu5_spec b). pose proof (nu5_spec c). lia. }
      destruct (Z_lt_le_dec (C - x) (2 * a)) as [HL|HL];
        [apply (class5 (6 * (C - x)) 90 2)
        |destruct (Z_lt_le_dec C (3 * a)) as [HM|HM]; [apply (class5 (4 * C) 72 2)|apply (class5 (4 * (C - x)) 60 3)]];
        try assumption; try (cbn [In]; tauto); cbn [hd length]; lia.
    - split_ge Hge Ha. split_ge Hge Hb. split_ge Hge Hc. split_ge Hge Hd. split_ge Hhd Ha'. split_ge Hhd Hb'. split_ge Hhd Hc'. split_ge Hhd Hd'. cbn [hd] in *.
      rewrite !zsum_cons, zsum_nil in *.
      assert (Hw : 150 <= zsum (map nu5 [a; b; c; d])).
      { pose proof (zsum_map_ge nu5 36 [b; c; d] (fun v => proj1 (nu5_ge v))) as H. cbn [length] in H.
        cbn [map] in *. rewrite zsum_cons. pose proof (nu5_spec a). lia. }
      destruct (Z_lt_le_dec (C - x) (2 * a)) as [HL|HL];
        [apply (class5 (6 * (C - x)) 90 2)
        |destruct (Z_lt_le_dec C (3 * a)) as [HM|HM];
           [apply (class5 (4 * C) 72 2)
           |destruct (Z_lt_le_dec (C - x) (3 * a)) as [Hm|Hm];
              [apply (class5 (4 * (C - x)) 60 3)
              |destruct (Z_lt_le_dec C (4 * a)) as [HS|HS]; [apply (class5 (3 * C) 48 3)|apply (class5 (3 * (C - x)) 45 4)]]]];
        try assumption; try (cbn [In]; tauto); cbn [hd length]; lia.
    - left. pose proof (zsum_map_ge nu5 36 (a :: b :: c :: d :: e :: r) (fun v => proj1 (nu5_ge v))) as H.
      cbn [length] in H. lia.
  Qed.

  (** ---- a feasible set of labelled values weighs at most 220, whatever relation the cores are in ---- *)
  Section FifthRel.
  Variable Lt : list Z -> list Z -> Prop.
  Hypothesis HLt : later_like Lt.
  Notation RcL := (Rc_of Lt).

  (** a boosted lower-medium value and a boosted small value do not occur together *)
  Lemma mixMS am az b1 b2 :
    lc am = [b1; lv am] -> lc az = [b2; lv az] -> okcore [b1; lv am] -> okcore [b2; lv az] ->
    C < 2 * b2 -> RcL am az ->
    3 * lv am <= C -> C - x < 3 * lv am -> 7 * (C - x) < 12 * (C - b1) ->
    3 * lv az <= C - x -> C - x < 2 * (C - b2) -> False.
  Proof.
    intros E1 E2 O1 O2 Hb2 HR M1 M2 M3 S1 S2. pose proof (okcore2 _ _ O1). pose proof (okcore2 _ _ O2).
    apply (no_mix_gen Lt HLt am az b1 (lv am) b2 (lv az) E1 E2 O1 O2); [lia|lia|lia|exact HR].
  Qed.

  (** a fully boosted upper-small value and a boosted lower-small value do not occur together *)
  Lemma mixSS a1 a2 b1 b2 :
    lc a1 = [b1; lv a1] -> lc a2 = [b2; lv a2] -> okcore [b1; lv a1] -> okcore [b2; lv a2] ->
    C < 2 * b2 -> RcL a1 a2 ->
    3 * lv a1 <= C - x -> C < 4 * lv a1 -> 2 * C - x < 4 * (C - b1) ->
    4 * lv a2 <= C -> C - x < 2 * (C - b2) -> False.
  Proof.
    intros E1 E2 O1 O2 Hb2 HR A1 A2 A3 B1 B2. pose proof (okcore2 _ _ O1). pose proof (okcore2 _ _ O2).
    apply (no_mix_gen Lt HLt a1 a2 b1 (lv a1) b2 (lv a2) E1 E2 O1 O2); [lia|lia|lia|exact HR].
  Qed.

  Lemma unboosted5 a az b p z' : lc a = [b; p] -> okcore [b; p] -> C < 2 * b -> 2 * p <= C - x ->
    Vc az -> 2 * lv az <= C -> RcL a az -> x <= z' -> b + lv az + z' <= C -> wl5 az <= nu5 (lv az).
  Proof. exact (shape5 partner_unboosted (fun v => Z.le_refl (nu5 v)) boost_room5 Lt HLt a az b p z'). Qed.

  (** (180 - w p) + the two other values <= 220 *)
  Lemma double_partner_bound5 a a1 a2 b p :
    lc a = [b; p] -> okcore [b; p] -> C < 2 * b ->
    Vc a1 -> Vc a2 -> RcL a a1 -> RcL a a2 -> b + lv a1 + lv a2 <= C ->
    wl5 a1 + wl5 a2 <= wp5 b p + 40.
  Proof.
    intros E1 O1 Hb V1 V2 R1 R2 Hsum. pose proof (okcore2 _ _ O1) as O1'.
    pose proof (Vc_ge a1 V1) as G1. pose proof (Vc_ge a2 V2) as G2.
    assert (S1 : 2 * lv a1 <= C) by lia. assert (S2 : 2 * lv a2 <= C) by lia.
    pose proof (wl5_small_bound a1 V1 S1) as B1. pose proof (wl5_small_bound a2 V2 S2) as B2.
    pose proof (wp5_spec b p) as W. pose proof (nu51_spec (lv a1)) as N1. pose proof (nu51_spec (lv a2)) as N2.
    destruct (Z_lt_le_dec (C - x) (2 * p)) as [HL|HnL]; [lia|].
    (* the companion is not large: the two values are not boosted *)
    assert (U1 : wl5 a1 <= nu5 (lv a1)) by (apply (unboosted5 a a1 b p (lv a2)); try assumption; lia).
    assert (U2 : wl5 a2 <= nu5 (lv a2)) by (apply (unboosted5 a a2 b p (lv a1)); try assumption; lia).
    lia.
  Qed.

  (** (180 - w p) + one other value <= 220 *)
  Lemma single_partner_bound5 a a1 b p :
    lc a = [b; p] -> okcore [b; p] -> C < 2 * b ->
    Vc a1 -> RcL a a1 -> b + lv a1 <= C -> wl5 a1 <= wp5 b p + 40.
  Proof.
    intros E1 O1 Hb V1 R1 Hsum. pose proof (okcore2 _ _ O1) as O1'.
    pose proof (Vc_ge a1 V1) as G1. assert (S1 : 2 * lv a1 <= C) by lia.
    pose proof (wl5_small_bound a1 V1 S1) as B1. pose proof (wp5_range b p) as Wr.
    destruct (small_kind5 a1 V1 S1) as [[Hh K]|[(Hh & Hm & K)|(b' & E2 & _ & Hb' & Hb'' & K)]]; rewrite K.
    - (* a value above C/3 of a bin without big value is at most p; below, the bound is trivial *)
      assert (Hle : C < 3 * lv a1 -> lv a1 <= p).
      { intros H3. destruct (Z_le_gt_dec (lv a1) p) as [Hle|Hgt]; [exact Hle|exfalso].
        apply (late_fits_contra Lt HLt a1 a b p V1 Hh E1 O1 Hb); [lia|lia|exact H3|apply Rc_of_sym; exact R1]. }
      destruct (Z_lt_le_dec C (3 * lv a1)) as [H3|H3]; [specialize (Hle H3)|clear Hle];
        pose proof (wp5_spec b p) as W; pose proof (nu5_spec (lv a1)) as N1; lia.
    - pose proof (nu5_spec (lv a1)) as N1. lia.
    - pose proof (wp5_range b' (lv a1)). lia.
  Qed.

  (** two values that fit beside a big value weigh at most 112 *)
  Lemma pair_bound5 a1 a2 : Vc a1 -> Vc a2 -> RcL a1 a2 -> lv a2 <= lv a1 ->
    2 * (lv a1 + lv a2) < C -> wl5 a1 + wl5 a2 <= 112.
  Proof.
    intros V1 V2 HR Hle Hsum. pose proof (Vc_ge a1 V1) as G1. pose proof (Vc_ge a2 V2) as G2.
    assert (S1 : 2 * lv a1 <= C) by lia. assert (S2 : 2 * lv a2 <= C) by lia.
    pose proof (wl5_small_bound a1 V1 S1) as B1. pose proof (wl5_small_bound a2 V2 S2) as B2.
    pose proof (nu51_spec (lv a1)) as N1. pose proof (nu51_spec (lv a2)) as N2.
    (* only lower medium + lower small can exceed 112 by the largest weights *)
    destruct (Z_lt_le_dec (C - x) (3 * lv a1)) as [H1|H1]; [|lia].
    destruct (Z_lt_le_dec (C - x) (4 * lv a2)) as [H2|H2]; [|lia].
    destruct (boostM a1 V1 ltac:(lia) ltac:(lia)) as [U1|(b1 & E1 & Hb1 & O1 & T1 & K1)]; [lia|].
    destruct (boostSm a2 V2 ltac:(lia) ltac:(lia)) as [U2|(b2 & E2 & Hb2 & O2 & T2 & K2)]; [lia|].
    exfalso. apply (mixMS a1 a2 b1 b2 E1 E2 O1 O2 Hb2 HR); lia.
  Qed.

  (** upper medium, lower medium, lower small, tiny *)
  Lemma pat1 u m s t : Vc u -> Vc m -> Vc s -> Vc t -> RcL m s ->
    2 * lv u <= C - x -> C < 3 * lv u -> 3 * lv m <= C -> C - x < 3 * lv m ->
    4 * lv s <= C -> C - x < 4 * lv s -> 4 * lv t <= C - x ->
    wl5 u + wl5 m + wl5 s + wl5 t <= 220.
  Proof.
    intros Vu Vm Vs Vt HR U1 U2 M1 M2 S1 S2 T1.
    pose proof (Vc_ge t Vt) as Gt.
    pose proof (wl5_small_bound u Vu ltac:(lia)) as Bu. pose proof (wl5_small_bound t Vt ltac:(lia)) as Bt.
    destruct (nu51_spec (lv u)) as [Nu|[Nu|[Nu|[Nu|[Nu|Nu]]]]]; try lia.
    destruct (nu51_spec (lv t)) as [Nt|[Nt|[Nt|[Nt|[Nt|Nt]]]]]; try lia.
    destruct (boostM m Vm M1 M2) as [Um|(b1 & E1 & Hb1 & O1 & T1' & K1)];
    destruct (boostSm s Vs S1 S2) as [Us|(b2 & E2 & Hb2 & O2 & T2 & K2)]; try lia.
    exfalso. apply (mixMS m s b1 b2 E1 E2 O1 O2 Hb2 HR); lia.
  Qed.

  (** an upper medium value of a bin without big value meets no boosted smaller value *)
  Lemma natural_Mp_unboosted u z : Vc u -> Vc z -> RcL u z -> 2 * hd 0 (lc u) <= C ->
    2 * lv u <= C - x -> C < 3 * lv u -> 3 * lv z <= C -> wl5 z <= nu5 (lv z).
  Proof.
    intros Vu Vz HR Hh U1 U2 Z1. pose proof (Vc_ge z Vz) as Gz.
    destruct (small_boost5 z Vz ltac:(lia)) as [U|(b' & E2 & Hb' & O2 & Hr & _)]; [exact U|].
    exfalso. apply (late_fits_contra Lt HLt u z b' (lv z) Vu Hh E2 O2 Hb'); [lia|lia|lia|exact HR].
  Qed.

  (** upper medium + three lower small *)
  Lemma pat3 u s1 s2 s3 : Vc u -> Vc s1 -> Vc s2 -> Vc s3 -> RcL u s1 -> RcL u s2 -> RcL u s3 ->
    2 * lv u <= C - x -> C < 3 * lv u ->
    4 * lv s1 <= C -> C - x < 4 * lv s1 -> 4 * lv s2 <= C -> C - x < 4 * lv s2 ->
    4 * lv s3 <= C -> C - x < 4 * lv s3 ->
    wl5 u + wl5 s1 + wl5 s2 + wl5 s3 <= 220.
  Proof.
    intros Vu V1 V2 V3 R1 R2 R3 U1 U2 A1 A2 B1 B2 C1 C2.
    pose proof (Vc_ge s1 V1). pose proof (Vc_ge s2 V2). pose proof (Vc_ge s3 V3).
    pose proof (wl5_small_bound s1 V1 ltac:(lia)) as W1. pose proof (wl5_small_bound s2 V2 ltac:(lia)) as W2.
    pose proof (wl5_small_bound s3 V3 ltac:(lia)) as W3.
    destruct (nu51_spec (lv s1)) as [N1|[N1|[N1|[N1|[N1|N1]]]]]; try lia.
    destruct (nu51_spec (lv s2)) as [N2|[N2|[N2|[N2|[N2|N2]]]]]; try lia.
    destruct (nu51_spec (lv s3)) as [N3|[N3|[N3|[N3|[N3|N3]]]]]; try lia.
    destruct (Mp_kind u Vu U1 U2) as [[Hh K]|K]; [|lia].
    pose proof (natural_Mp_unboosted u s1 Vu V1 R1 Hh U1 U2 ltac:(lia)).
    pose proof (natural_Mp_unboosted u s2 Vu V2 R2 Hh U1 U2 ltac:(lia)).
    pose proof (natural_Mp_unboosted u s3 Vu V3 R3 Hh U1 U2 ltac:(lia)). lia.
  Qed.

  (** upper medium + upper small + two lower small *)
  Lemma pat2 u p s1 s2 : Vc u -> Vc p -> Vc s1 -> Vc s2 -> RcL u p -> RcL u s1 -> RcL u s2 -> RcL p s1 -> RcL p s2 ->
    2 * lv u <= C - x -> C < 3 * lv u -> 3 * lv p <= C - x -> C < 4 * lv p ->
    4 * lv s1 <= C -> C - x < 4 * lv s1 -> 4 * lv s2 <= C -> C - x < 4 * lv s2 ->
    wl5 u + wl5 p + wl5 s1 + wl5 s2 <= 220.
  Proof.
    intros Vu Vp V1 V2 Rp R1 R2 P1 P2 U1 U2 A1 A2 B1 B2 C1 C2.
    pose proof (Vc_ge s1 V1). pose proof (Vc_ge s2 V2). pose proof (Vc_ge p Vp).
    destruct (Mp_kind u Vu U1 U2) as [[Hh K]|K].
    - pose proof (natural_Mp_unboosted u p Vu Vp Rp Hh U1 U2 ltac:(lia)).
      pose proof (natural_Mp_unboosted u s1 Vu V1 R1 Hh U1 U2 ltac:(lia)).
      pose proof (natural_Mp_unboosted u s2 Vu V2 R2 Hh U1 U2 ltac:(lia)).
      destruct (nu5_spec (lv p)) as [Np|[Np|[Np|[Np|[Np|Np]]]]]; try lia.
      destruct (nu5_spec (lv s1)) as [N1|[N1|[N1|[N1|[N1|N1]]]]]; try lia.
      destruct (nu5_spec (lv s2)) as [N2|[N2|[N2|[N2|[N2|N2]]]]]; lia.
    - destruct (boostSp p Vp A1 A2) as [Up|(b0 & E0 & Hb0 & O0 & T0 & [[T0' K0]|[T0' K0]])];
      destruct (boostSm s1 V1 B1 B2) as [Us1|(b1 & E1 & Hb1 & O1 & T1 & K1)];
      destruct (boostSm s2 V2 C1 C2) as [Us2|(b2 & E2 & Hb2 & O2 & T2 & K2)]; try lia; exfalso.
      all: first [ apply (mixSS p s1 b0 b1 E0 E1 O0 O1 Hb1 P1); lia
                 | apply (mixSS p s2 b0 b2 E0 E2 O0 O2 Hb2 P2); lia ].
  Qed.

  (** two lower medium + upper small + lower small *)
  Lemma pat4 m1 m2 p s : Vc m1 -> Vc m2 -> Vc p -> Vc s ->
    RcL m1 p -> RcL m1 s -> RcL m2 p -> RcL m2 s -> RcL p s ->
    3 * lv m1 <= C -> C - x < 3 * lv m1 -> 3 * lv m2 <= C -> C - x < 3 * lv m2 ->
    3 * lv p <= C - x -> C < 4 * lv p -> 4 * lv s <= C -> C - x < 4 * lv s ->
    lv m1 + lv m2 + lv p + lv s <= C ->
    wl5 m1 + wl5 m2 + wl5 p + wl5 s <= 220.
  Proof.
    intros V1 V2 Vp Vs R1p R1s R2p R2s Rps A1 A2 B1 B2 P1 P2 S1 S2 Hsum.
    destruct (boostM m1 V1 A1 A2) as [U1|(b1 & E1 & Hb1 & O1 & T1 & K1)];
    destruct (boostM m2 V2 B1 B2) as [U2|(b2 & E2 & Hb2 & O2 & T2 & K2)];
    destruct (boostSp p Vp P1 P2) as [Up|(b3 & E3 & Hb3 & O3 & T3 & [[T3' K3]|[T3' K3]])];
    destruct (boostSm s Vs S1 S2) as [Us|(b4 & E4 & Hb4 & O4 & T4 & K4)]; try lia; exfalso.
    all: first [ apply (mixMS m1 p b1 b3 E1 E3 O1 O3 Hb3 R1p); lia
               | apply (mixMS m1 s b1 b4 E1 E4 O1 O4 Hb4 R1s); lia
               | apply (mixMS m2 p b2 b3 E2 E3 O2 O3 Hb3 R2p); lia
               | apply (mixMS m2 s b2 b4 E2 E4 O2 O4 Hb4 R2s); lia
               | apply (mixSS p s b3 b4 E3 E4 O3 O4 Hb4 Rps); lia
               | (apply okcore2 in O1; apply okcore2 in O2; lia) ].
  Qed.

  (** two lower medium + two lower small *)
  Lemma pat5 m1 m2 s1 s2 : Vc m1 -> Vc m2 -> Vc s1 -> Vc s2 ->
    RcL m1 s1 -> RcL m1 s2 -> RcL m2 s1 -> RcL m2 s2 ->
    3 * lv m1 <= C -> C - x < 3 * lv m1 -> 3 * lv m2 <= C -> C - x < 3 * lv m2 ->
    4 * lv s1 <= C -> C - x < 4 * lv s1 -> 4 * lv s2 <= C -> C - x < 4 * lv s2 ->
    wl5 m1 + wl5 m2 + wl5 s1 + wl5 s2 <= 220.
  Proof.
    intros V1 V2 V3 V4 R13 R14 R23 R24 A1 A2 B1 B2 C1 C2 D1 D2.
    destruct (boostM m1 V1 A1 A2) as [U1|(b1 & E1 & Hb1 & O1 & T1 & K1)];
    destruct (boostM m2 V2 B1 B2) as [U2|(b2 & E2 & Hb2 & O2 & T2 & K2)];
    destruct (boostSm s1 V3 C1 C2) as [U3|(b3 & E3 & Hb3 & O3 & T3 & K3)];
    destruct (boostSm s2 V4 D1 D2) as [U4|(b4 & E4 & Hb4 & O4 & T4 & K4)]; try lia; exfalso.
    all: first [ apply (mixMS m1 s1 b1 b3 E1 E3 O1 O3 Hb3 R13); lia
               | apply (mixMS m1 s2 b1 b4 E1 E4 O1 O4 Hb4 R14); lia
               | apply (mixMS m2 s1 b2 b3 E2 E3 O2 O3 Hb3 R23); lia
               | apply (mixMS m2 s2 b2 b4 E2 E4 O2 O4 Hb4 R24); lia ].
  Qed.

  (** lower medium + two upper small + lower small *)
  Lemma pat6 m p1 p2 s : Vc m -> Vc p1 -> Vc p2 -> Vc s -> RcL m p1 -> RcL m p2 -> RcL m s ->
    3 * lv m <= C -> C - x < 3 * lv m -> 3 * lv p1 <= C - x -> C < 4 * lv p1 ->
    3 * lv p2 <= C - x -> C < 4 * lv p2 -> 4 * lv s <= C -> C - x < 4 * lv s ->
    wl5 m + wl5 p1 + wl5 p2 + wl5 s <= 220.
  Proof.
    intros Vm V1 V2 Vs R1 R2 Rs A1 A2 B1 B2 C1 C2 D1 D2.
    pose proof (Vc_ge s Vs).
    pose proof (wl5_small_bound p1 V1 ltac:(lia)) as W1. pose proof (wl5_small_bound p2 V2 ltac:(lia)) as W2.
    pose proof (wl5_small_bound s Vs ltac:(lia)) as W3.
    destruct (nu51_spec (lv p1)) as [N1|[N1|[N1|[N1|[N1|N1]]]]]; try lia.
    destruct (nu51_spec (lv p2)) as [N2|[N2|[N2|[N2|[N2|N2]]]]]; try lia.
    destruct (nu51_spec (lv s)) as [N3|[N3|[N3|[N3|[N3|N3]]]]]; try lia.
    destruct (boostM m Vm A1 A2) as [U|(b1 & E1 & Hb1 & O1 & T1 & K1)]; [lia|].
    destruct (boostSp p1 V1 B1 B2) as [U1|(b2 & E2 & Hb2 & O2 & T2 & _)];
      [|exfalso; apply (mixMS m p1 b1 b2 E1 E2 O1 O2 Hb2 R1); lia].
    destruct (boostSp p2 V2 C1 C2) as [U2|(b3 & E3 & Hb3 & O3 & T3 & _)];
      [|exfalso; apply (mixMS m p2 b1 b3 E1 E3 O1 O3 Hb3 R2); lia].
    destruct (boostSm s Vs D1 D2) as [U3|(b4 & E4 & Hb4 & O4 & T4 & _)];
      [|exfalso; apply (mixMS m s b1 b4 E1 E4 O1 O4 Hb4 Rs); lia].
    lia.
  Qed.

  Lemma group52 a b : Vc a -> Vc b -> RcL a b -> lv b <= lv a -> lv a + lv b <= C -> wl5 a + wl5 b <= 220.
  Proof.
    intros Va Vb Rab Hab Hsum. pose proof (Vc_ge a Va) as Ga. pose proof (Vc_ge b Vb) as Gb.
    assert (Sb : 2 * lv b <= C) by lia. pose proof (wl5_small_bound b Vb Sb) as Bb.
    destruct (Z_lt_le_dec C (2 * lv a)) as [Hbig|Hsm].
    - destruct (big_kind5 a Va Hbig) as [[Hz K]|[(p & E & Hle & K)|[_ K]]].
      + lia.
      + assert (O : okcore [lv a; p]) by (rewrite <- E; apply Va).
        pose proof (single_partner_bound5 a b (lv a) p E O Hbig Vb Rab Hsum). lia.
      + pose proof (nu51_spec (lv b)). lia.
    - pose proof (wl5_small_bound a Va Hsm) as Ba. pose proof (nu51_spec (lv a)). pose proof (nu51_spec (lv b)). lia.
  Qed.

  Lemma group53 a b c : Vc a -> Vc b -> Vc c -> RcL a b -> RcL a c -> RcL b c ->
    lv b <= lv a -> lv c <= lv b -> lv a + lv b + lv c <= C -> wl5 a + wl5 b + wl5 c <= 220.
  Proof.
    intros Va Vb Vv Rab Rac Rbc Hab Hbc Hsum.
    pose proof (Vc_ge a Va) as Ga. pose proof (Vc_ge b Vb) as Gb. pose proof (Vc_ge c Vv) as Gc.
    assert (Sb : 2 * lv b <= C) by lia. pose proof (wl5_small_bound b Vb Sb) as Bb.
    assert (Sc : 2 * lv c <= C) by lia. pose proof (wl5_small_bound c Vv Sc) as Bc.
    destruct (Z_lt_le_dec C (2 * lv a)) as [Hbig|Hsm].
    - destruct (big_kind5 a Va Hbig) as [[Hz K]|[(p & E & Hle & K)|[_ K]]].
      + lia.
      + assert (O : okcore [lv a; p]) by (rewrite <- E; apply Va).
        pose proof (double_partner_bound5 a b c (lv a) p E O Hbig Vb Vv Rab Rac Hsum). lia.
      + pose proof (pair_bound5 b c Vb Vv Rbc Hbc ltac:(lia)). lia.
    - pose proof (wl5_small_bound a Va Hsm) as Ba.
      pose proof (nu51_spec (lv a)). pose proof (nu51_spec (lv b)). pose proof (nu51_spec (lv c)). lia.
  Qed.

  Lemma group54 a b c d : Vc a -> Vc b -> Vc c -> Vc d ->
    RcL a b -> RcL a c -> RcL a d -> RcL b c -> RcL b d -> RcL c d ->
    lv b <= lv a -> lv c <= lv b -> lv d <= lv c -> lv a + lv b + lv c + lv d <= C ->
    wl5 a + wl5 b + wl5 c + wl5 d <= 220.
  Proof.
    intros Va Vb Vv Vd Rab Rac Rad Rbc Rbd Rcd Hab Hbc Hcd Hsum.
    pose proof (Vc_ge a Va) as Ga. pose proof (Vc_ge b Vb) as Gb. pose proof (Vc_ge c Vv) as Gc.
    pose proof (Vc_ge d Vd) as Gd.
    assert (Sa : 2 * lv a <= C) by lia. pose proof (wl5_small_bound a Va Sa) as Ba.
    assert (Sb : 2 * lv b <= C) by lia. pose proof (wl5_small_bound b Vb Sb) as Bb.
    assert (Sc : 2 * lv c <= C) by lia. pose proof (wl5_small_bound c Vv Sc) as Bc.
    assert (Sd : 2 * lv d <= C) by lia. pose proof (wl5_small_bound d Vd Sd) as Bd.
    (* by the classes of the four values, the smallest first: the combinations that fit and can exceed
       220 by the largest weights are those of pat1 .. pat6 *)
    destruct (nu51_spec (lv d)) as [Nd|[Nd|[Nd|[Nd|[Nd|Nd]]]]]; try lia;
      destruct (nu51_spec (lv c)) as [Nc|[Nc|[Nc|[Nc|[Nc|Nc]]]]]; try lia;
      destruct (nu51_spec (lv b)) as [Nb|[Nb|[Nb|[Nb|[Nb|Nb]]]]]; try lia;
      destruct (nu51_spec (lv a)) as [Na|[Na|[Na|[Na|[Na|Na]]]]]; try lia.
    all: first [ apply pat1; (assumption || lia)
               | apply pat2; (assumption || lia)
               | apply pat3; (assumption || lia)
               | apply pat4; (assumption || lia)
               | apply pat5; (assumption || lia)
               | apply pat6; (assumption || lia) ].
  Qed.

  Lemma light_sorted5 g : Forall Vc g -> AllPairs RcL g ->
    StronglySorted (fun a b => lv b <= lv a) g -> gv g <= C -> gw5 g <= 220.
  Proof.
    apply (light_by_size Wcore5 220 RcL g); [lia|lia|exact group51|exact group52|exact group53|exact group54|exact group55].
  Qed.

  Lemma heavy5_of : forall cs, chain_of Lt cs -> 180 * Z.of_nat (length cs) <= tw5 cs + 150.
  Proof.
    apply (heavy_by_kinds Lt HLt Wcore5 180 12 kinds5); [lia| |exact core_cases5].
    unfold kinds5. repeat constructor; cbn [snd]; lia.
  Qed.

  Lemma fifth_of {A : Type} (valueof : A -> Z) (t : bins A) (last : bin A) (items : list A) (n : nat) :
    chain_of Lt (map (core valueof) t) -> Forall (fun y => 0 <= valueof y) (contents (t ++ [last])) ->
    Permutation (contents (t ++ [last])) items -> Packable C (map valueof items) n ->
    180 * Z.of_nat (length t) <= 220 * Z.of_nat n + 150.
  Proof. apply (count_of Wcore5 (shape5 Wshape_length) 180 220 150 Lt light_sorted5 heavy5_of). Qed.
  End FifthRel.

  End Fifth.
End Frame.

Section FFD119Mid.
  Context {A : Type} (valueof : A -> Z).

  (** with x the first item of the last bin:
      11 x <= 2 C : 9 |b| <= 11 n + 8 (volume);  C < 4 x : 6 |b| <= 7 n + 5 (FFD119Proofs);
      C < 5 x and 4 x <= C : 9 |b| <= 11 n + 13;  2 C < 11 x and 41 x <= 8 C : 9 |b| <= 11 n + 16 (the weights of this file) *)
  Lemma ffd_119_ranges3 C (items : list A) (b : bins A) (n : nat) :
    items <> [] -> Forall (fun x : A => 0 <= valueof x) items ->
    first_fit_decreasing valueof true C items = Ok b -> Packable C (map valueof items) n ->
    exists x0, In x0 items /\
      (11 * valueof x0 <= 2 * C -> (9 * length b <= 11 * n + 8)%nat) /\
      (C < 4 * valueof x0 -> (6 * length b <= 7 * n + 5)%nat) /\
      (C < 5 * valueof x0 -> 4 * valueof x0 <= C -> (9 * length b <= 11 * n + 13)%nat) /\
      (2 * C < 11 * valueof x0 -> 41 * valueof x0 <= 8 * C -> (9 * length b <= 11 * n + 16)%nat).
  Proof.
    intros Hne Hnn H Hpack.
    destruct (ffd_last valueof C items b Hne Hnn H)
      as (t & last & x0 & E & Hin & [Hx0 Hx0C] & Hcl & Hsf & Hw & Hnnb & Hp).
    destruct (ffd_Inv valueof C items b Hne Hnn H) as (_ & Hf & _).
    destruct (ffd_structure valueof C items b Hne Hnn H) as (_ & _ & _ & _ & Hh & _).
    subst b.
    destruct (last_119_ranges valueof C t last x0 items n Hin (conj Hx0 Hx0C) Hcl
                (sfit2_chain valueof C (valueof x0) t Hsf) Hw Hnnb Hp Hpack) as (Hinx & Hr1 & Hr2).
    rewrite app_length in Hr1, Hr2 |- *. cbn [length] in Hr1, Hr2 |- *.
    assert (Hch : 0 < valueof x0 -> chain C (valueof x0) (map (core (valueof x0) valueof) t)).
    { intros Hpos. apply (chain_cores C (valueof x0) Hpos valueof last x0 Hin eq_refl t Hcl Hsf); [| | |exact Hh].
      - unfold wf in Hw. apply Forall_app in Hw. apply Hw.
      - unfold feasible in Hf. apply Forall_app in Hf. apply Hf.
      - rewrite contents_app in Hnnb. apply Forall_app in Hnnb. apply Hnnb. }
    exists x0. split; [exact Hinx|split; [exact Hr1|split; [exact Hr2|split]]].
    - intros H5 H4.
      pose proof (quarter_of C (valueof x0) ltac:(lia) ltac:(lia) H5 H4 (Later C) (Later_like C (valueof x0) ltac:(lia))
                    valueof t last items n (Hch ltac:(lia)) Hnnb Hp Hpack).
      lia.
    - intros H11 H41.
      pose proof (fifth_of C (valueof x0) ltac:(lia) ltac:(lia) H11 H41 (Later C) (Later_like C (valueof x0) ltac:(lia))
                    valueof t last items n (Hch ltac:(lia)) Hnnb Hp Hpack).
      lia.
  Qed.

  (** 11/9 when no value lies in (8C/41, C/5] *)
  Theorem ffd_ratio_11_9_partial2 C (items : list A) (b : bins A) (n : nat) :
    items <> [] -> Forall (fun x : A => 0 <= valueof x) items ->
    Forall (fun x : A => 41 * valueof x <= 8 * C \/ C < 5 * valueof x) items ->
    first_fit_decreasing valueof true C items = Ok b -> Packable C (map valueof items) n ->
    (9 * length b <= 11 * n + 16)%nat.
  Proof.
    intros Hne Hnn Hgap H Hpack.
    destruct (ffd_119_ranges3 C items b n Hne Hnn H Hpack) as (x0 & Hin & H1 & H2 & H3 & H4).
    rewrite Forall_forall in Hgap. destruct (Hgap x0 Hin) as [Hs|Hb].
    - destruct (Z_le_gt_dec (11 * valueof x0) (2 * C)) as [Hv|Hv].
      + specialize (H1 Hv). lia.
      + apply H4; [lia|exact Hs].
    - destruct (Z_lt_le_dec C (4 * valueof x0)) as [Hq|Hq].
      + specialize (H2 Hq). lia.
      + specialize (H3 Hb Hq). lia.
  Qed.
End FFD119Mid.

(** one third of the smallest member of Johnson's 11/9 family (C = 60: 31, 17, 16, 13; the last value
    lies in (C/5, C/4]): the new bound applies (FFD uses 4 bins, the optimum is 3) *)
Example ffd_119_johnson_thm b :
  first_fit_decreasing idZ true 60 (repeat 31 2 ++ repeat 17 2 ++ repeat 16 2 ++ repeat 13 4) = Ok b ->
  (9 * length b <= 11 * 3 + 16)%nat.
Proof.
  intros H. set (L := repeat 31 2 ++ repeat 17 2 ++ repeat 16 2 ++ repeat 13 4) in *.
  apply (ffd_ratio_11_9_partial2 idZ 60 L b 3); [discriminate| | |exact H|].
  - repeat constructor; lia.
  - unfold L. cbn [repeat app]. repeat (apply Forall_cons; [right; cbv beta; lia|]). apply Forall_nil.
  - rewrite map_id. apply johnson_60_packable.
Qed.

Print Assumptions ffd_119_ranges3.
Print Assumptions ffd_ratio_11_9_partial2.

Print Assumptions ffd_119_johnson_thm.
