(** Property C14: every simple heuristic of the model computes exactly what its textbook
    rule (Spec/Rules.v) prescribes.
    Part 1: the model's output satisfies the rule (refinement).
    Part 2: the rules are deterministic up to the observable the property names.
    Part 3: corollaries "the model agrees with ANY run of the rule".
    Everything is on plain values: A = Z, valueof = id, keep = true. *)
From Prtpy Require Import Base.Prelude Model.Binner Model.Greedy Model.Packing Model.Covering
  Spec.Rules Proofs.BaseLemmas Proofs.BinnerLemmas Proofs.PackingProofs Proofs.CoveringProofs.
From Prtpy Require Proofs.GreedyProofs.
From Coq Require Import Sorting.Sorted ZifyBool.

(** [id] below is the standard library identity [@id Z] (Coq.Init.Datatypes.id), i.e. [fun v : Z => v]. *)

(** ================= common facts linking [bins Z] and [vbins] ================= *)

Lemma wf_bin_id (bn : bin Z) : wf_bin id bn <-> fst bn = zsum (snd bn).
Proof. unfold wf_bin. rewrite map_id. reflexivity. Qed.

Lemma sums_vsums (b : bins Z) : wf id b -> sums b = vsums (lists b).
Proof.
  unfold wf, sums, vsums, lists. induction 1 as [|bn t Hb Ht IH]; cbn [map]; [reflexivity|].
  apply wf_bin_id in Hb. rewrite Hb, IH. reflexivity.
Qed.

Lemma lists_length (b : bins Z) : length (lists b) = length b.
Proof. apply map_length. Qed.

Lemma vsums_length (b : vbins) : length (vsums b) = length b.
Proof. apply map_length. Qed.

Lemma lists_add_item (b : bins Z) v i : lists (add_item id true b v i) = put i v (lists b).
Proof. unfold lists, add_item, put. apply map_update. intros bn. reflexivity. Qed.

Lemma lists_app (b1 b2 : bins Z) : lists (b1 ++ b2) = lists b1 ++ lists b2.
Proof. apply map_app. Qed.

Lemma lists_new_bins k : lists (@new_bins Z k) = repeat [] k.
Proof. unfold lists, new_bins. induction k as [|k IH]; cbn [repeat map]; [reflexivity|]. rewrite IH. reflexivity. Qed.

Lemma vsums_put i v (b : vbins) : vsums (put i v b) = update i (fun s => s + v) (vsums b).
Proof.
  unfold vsums, put. apply map_update. intros l. rewrite zsum_app. cbn [zsum fold_right]. lia.
Qed.

Lemma vsums_app (b1 b2 : vbins) : vsums (b1 ++ b2) = vsums b1 ++ vsums b2.
Proof. apply map_app. Qed.

Lemma nth_vsums i (b : vbins) : nth i (vsums b) 0 = zsum (nth i b []).
Proof. unfold vsums. change 0 with (zsum []). apply map_nth. Qed.

Lemma nth_lists i (b : bins Z) : nth i (lists b) [] = snd (nth i b empty_bin).
Proof. unfold lists. change (@nil Z) with (snd (@empty_bin Z)). apply map_nth. Qed.

Lemma sort_desc_nonincreasing vs : nonincreasing (sort_desc id vs).
Proof. exact (sort_desc_sorted id vs). Qed.

Lemma sorted_rule (R : list Z -> Prop) vs :
  R (sort_desc id vs) -> exists l, Permutation l vs /\ nonincreasing l /\ R l.
Proof.
  intros H. exists (sort_desc id vs).
  repeat split; [apply sort_desc_perm|apply sort_desc_nonincreasing|exact H].
Qed.

(** ================= PART 1: refinement ================= *)

(** ---- greedy = LPT ---- *)

Lemma greedy_fold_ls l : forall b : bins Z, (1 <= length b)%nat -> wf id b ->
  list_scheduling l (lists b) (lists (fold_left (greedy_step id true) l b)) /\
  wf id (fold_left (greedy_step id true) l b).
Proof.
  induction l as [|v t IH]; intros b Hlen Hwf; cbn [fold_left].
  - split; [apply ls_nil|exact Hwf].
  - assert (Hne : sums b <> []).
    { unfold sums. destruct b; cbn [map length] in *; [lia|discriminate]. }
    destruct (argmin_spec (sums b) Hne) as (H1 & H2 & _).
    destruct (IH (greedy_step id true b v)) as [Hls Hwf'].
    + unfold greedy_step. rewrite add_item_length. exact Hlen.
    + unfold greedy_step. apply add_item_wf. exact Hwf.
    + split; [|exact Hwf']. apply ls_cons with (i := argmin (sums b)).
      * unfold least_loaded. rewrite lists_length, <- sums_vsums by exact Hwf.
        split; [|exact H2]. unfold sums in H1. rewrite map_length in H1. exact H1.
      * rewrite <- lists_add_item. exact Hls.
Qed.

Lemma greedy_run k vs : (1 <= k)%nat ->
  list_scheduling (sort_desc id vs) (repeat [] k) (lists (greedy id true k vs)) /\
  wf id (greedy id true k vs).
Proof.
  intros Hk. unfold greedy. rewrite <- lists_new_bins. apply greedy_fold_ls.
  - rewrite new_bins_length. exact Hk.
  - apply new_bins_wf.
Qed.

Theorem greedy_refines_lpt : forall k vs, (1 <= k)%nat -> lpt_rule k vs (lists (greedy id true k vs)).
Proof. intros k vs Hk. apply sorted_rule. apply greedy_run. exact Hk. Qed.

(** ---- runs of a placement loop ---- *)

Lemma gloop_run (place : Z -> Z -> bins Z -> bins Z) (step : Z -> vbins -> vbins -> Prop)
      (I : bins Z -> Prop) (Q : Z -> Prop) C :
  (forall v b, Q v -> I b -> step v (lists b) (lists (place C v b)) /\ I (place C v b)) ->
  forall vs b b', Forall Q vs -> I b -> gloop id place C vs b = Ok b' ->
    run_steps step vs (lists b) (lists b') /\ I b'.
Proof.
  intros Hstep. induction vs as [|v t IH]; intros b b' HQ HI; cbn [gloop].
  - intros H. injection H as <-. split; [apply rs_nil|exact HI].
  - inversion HQ as [|v' t' Hv Ht]; subst. destruct (id v >? C); [intros H; discriminate H|]. intros H.
    destruct (Hstep v b Hv HI) as [Hs HI']. destruct (IH _ _ Ht HI' H) as [Hr HI''].
    split; [eapply rs_cons; eassumption|exact HI''].
Qed.

(** the model starts from one empty bin, the rule from no bin: they meet after the first item,
    which an any-fit placement puts into the initial bin *)
Lemma gloop_refines (place : Z -> Z -> bins Z -> bins Z) (step : Z -> vbins -> vbins -> Prop)
      (I : bins Z -> Prop) (Q : Z -> Prop) C :
  (forall v b, Q v -> I b -> step v (lists b) (lists (place C v b)) /\ I (place C v b)) ->
  (forall v, Q v -> af_step id C v (new_bins 1) (place C v (new_bins 1))) ->
  I (new_bins 1) -> (forall v, step v [] [[v]]) ->
  forall vs b, vs <> [] -> Forall Q vs -> gloop id place C vs (new_bins 1) = Ok b ->
    run_steps step vs [] (lists b) /\ I b.
Proof.
  intros Hstep Haf HI0 Hnew [|v t] b Hne HQ; [congruence|]. inversion HQ as [|v' t' Hv Ht]; subst.
  cbn [gloop]. destruct (id v >? C) eqn:E; [intros H; discriminate H|]. intros H.
  assert (Hle : id v <= C) by lia.
  destruct (Hstep v _ Hv HI0) as [_ HI1].
  rewrite (af_step_first id C v _ Hle (Haf v Hv)) in H, HI1.
  destruct (gloop_run place step I Q C Hstep t _ b Ht HI1 H) as [Hr HI'].
  split; [|exact HI']. eapply rs_cons; [apply Hnew|exact Hr].
Qed.

(** ---- first-fit ---- *)

Lemma ff_step_cons C v l0 b b' :
  ~ fits C v l0 -> ff_step C v b b' -> ff_step C v (l0 :: b) (l0 :: b').
Proof.
  intros Hno H. destruct H as [b i Hi Hfit Hmin|b Hall].
  - change (l0 :: put i v b) with (put (S i) v (l0 :: b)). apply ff_existing.
    + cbn [length]. lia.
    + exact Hfit.
    + intros [|j] Hj; cbn [nth]; [exact Hno|]. apply Hmin. lia.
  - change (l0 :: b ++ [[v]]) with ((l0 :: b) ++ [[v]]). apply ff_new. constructor; assumption.
Qed.

Lemma ff_place_ff_step C v (b : bins Z) : wf id b ->
  ff_step C v (lists b) (lists (ff_place id true C v b)).
Proof.
  induction 1 as [|bn t Hb Ht IH]; cbn [ff_place].
  - apply (ff_new C v []). constructor.
  - apply wf_bin_id in Hb. change (id v) with v. destruct (fst bn + v <=? C) eqn:E.
    + change (lists (add_to_bin id true v bn :: t)) with (put 0 v (lists (bn :: t))).
      apply ff_existing.
      * cbn [lists map length]. lia.
      * unfold fits. cbn [lists map nth]. lia.
      * intros j Hj. lia.
    + change (lists (bn :: ff_place id true C v t)) with (snd bn :: lists (ff_place id true C v t)).
      change (lists (bn :: t)) with (snd bn :: lists t).
      apply ff_step_cons; [|exact IH]. unfold fits. lia.
Qed.

Lemma ff_run C vs b : vs <> [] -> first_fit id true C vs = Ok b -> ff_rule C vs (lists b) /\ wf id b.
Proof.
  intros Hne H. unfold first_fit in H. rewrite ff_loop_gloop in H.
  apply (gloop_refines (ff_place id true) (ff_step C) (wf id) (fun _ => True) C); [| | | |exact Hne| |exact H].
  - intros v b0 _ Hw. split; [apply ff_place_ff_step; exact Hw|].
    exact (step_wf id C v _ _ (ff_place_step id C v b0) Hw).
  - intros v _. apply ff_place_step.
  - apply new_bins_wf.
  - intros v. apply (ff_new C v []). constructor.
  - apply Forall_forall. intros v _. exact I.
Qed.

Theorem ff_refines_rule_gen : forall C vs b, vs <> [] ->
  first_fit id true C vs = Ok b -> ff_rule C vs (lists b).
Proof. intros C vs b Hne H. apply (ff_run C vs b Hne H). Qed.

Theorem ff_refines_rule : forall C vs b, vs <> [] -> Forall (fun v => 0 <= v <= C) vs ->
  first_fit id true C vs = Ok b -> ff_rule C vs (lists b).
Proof. intros C vs b Hne _. apply ff_refines_rule_gen. exact Hne. Qed.

Theorem ffd_refines_rule_gen : forall C vs b, vs <> [] ->
  first_fit_decreasing id true C vs = Ok b -> ffd_rule C vs (lists b).
Proof.
  intros C vs b Hne H. apply sorted_rule. apply ff_refines_rule_gen; [|exact H].
  apply sort_desc_nonnil. exact Hne.
Qed.

Theorem ffd_refines_rule : forall C vs b, vs <> [] -> Forall (fun v => 0 <= v <= C) vs ->
  first_fit_decreasing id true C vs = Ok b -> ffd_rule C vs (lists b).
Proof. intros C vs b Hne _. apply ffd_refines_rule_gen. exact Hne. Qed.

(** on the empty input the model returns its initial empty bin, the rule no bin at all *)
Example ff_empty_input_differs :
  rmap lists (first_fit id true 5 []) = Ok [[]] /\ (forall b, ff_rule 5 [] b -> b = []).
Proof.
  split; [vm_compute; reflexivity|]. intros b H. inversion H; subst. reflexivity.
Qed.

(** ---- best-fit ---- *)

Lemma bf_place_bf_step C v (b : bins Z) : wf id b -> nonneg_sums b -> 0 <= v ->
  bf_step C v (lists b) (lists (bf_place id true C v b)).
Proof.
  intros Hwf Hnn Hv. unfold bf_place. change (id v) with v.
  assert (Hsum : forall j, (j < length b)%nat -> fst (nth j b empty_bin) = zsum (nth j (lists b) [])).
  { intros j Hj. rewrite nth_lists. apply wf_bin_id. unfold wf in Hwf. rewrite Forall_forall in Hwf.
    apply Hwf. apply nth_In. exact Hj. }
  destruct (bf_scan_spec C v b O (None, -1)) as [[H1 H2]|(j & H1 & H2 & H3 & H4 & H5 & H6)].
  - rewrite H1. cbn [fst snd] in *. rewrite lists_app. apply bf_new.
    unfold lists. rewrite Forall_map. unfold nonneg_sums in Hnn. unfold wf in Hwf.
    rewrite Forall_forall in *. intros bn Hin. specialize (H2 bn Hin). specialize (Hnn bn Hin).
    specialize (Hwf bn Hin). apply wf_bin_id in Hwf. unfold fits. lia.
  - rewrite H1. cbn [Nat.add]. rewrite lists_add_item. apply bf_existing.
    + rewrite lists_length. exact H2.
    + unfold fits. rewrite <- Hsum by exact H2. lia.
    + intros j' Hj' Hfit. rewrite lists_length in Hj'. unfold fits in Hfit.
      rewrite <- !Hsum by assumption. rewrite <- Hsum in Hfit by assumption.
      rewrite Forall_forall in H6. specialize (H6 (nth j' b empty_bin) (nth_In _ _ Hj')). lia.
Qed.

Lemma bf_run C vs b : vs <> [] -> Forall (fun v => 0 <= v) vs -> best_fit id true C vs = Ok b ->
  bf_rule C vs (lists b) /\ wf id b.
Proof.
  intros Hne Hvs H. unfold best_fit in H. rewrite bf_loop_gloop in H.
  assert (H0 : nonneg_sums (@new_bins Z 1)) by (constructor; [cbn; lia|constructor]).
  destruct (gloop_refines (bf_place id true) (bf_step C) (fun b => wf id b /\ nonneg_sums b)
              (fun v => 0 <= v) C) with (vs := vs) (b := b) as [Hr [Hw _]];
    [| | | |exact Hne|exact Hvs|exact H|split; assumption].
  - intros v b0 Hv [Hw Hn]. pose proof (bf_is_step id C v b0 Hv Hn) as Hs. repeat split.
    + apply bf_place_bf_step; assumption.
    + exact (step_wf id C v _ _ Hs Hw).
    + exact (step_nonneg id C v _ _ Hv Hs Hn).
  - intros v Hv. apply bf_is_step; assumption.
  - split; [apply new_bins_wf|exact H0].
  - intros v. apply (bf_new C v []). constructor.
Qed.

Theorem bf_refines_rule_gen : forall C vs b, vs <> [] -> Forall (fun v => 0 <= v) vs ->
  best_fit id true C vs = Ok b -> bf_rule C vs (lists b).
Proof. intros C vs b Hne Hvs H. apply (bf_run C vs b Hne Hvs H). Qed.

Lemma Forall_range_nonneg C vs : Forall (fun v => 0 <= v <= C) vs -> Forall (fun v => 0 <= v) vs.
Proof. apply Forall_impl. intros v Hv. lia. Qed.

Theorem bf_refines_rule : forall C vs b, vs <> [] -> Forall (fun v => 0 <= v <= C) vs ->
  best_fit id true C vs = Ok b -> bf_rule C vs (lists b).
Proof. intros C vs b Hne Hvs. apply bf_refines_rule_gen; [exact Hne|exact (Forall_range_nonneg C vs Hvs)]. Qed.

Theorem bfd_refines_rule_gen : forall C vs b, vs <> [] -> Forall (fun v => 0 <= v) vs ->
  best_fit_decreasing id true C vs = Ok b -> bfd_rule C vs (lists b).
Proof.
  intros C vs b Hne Hvs H. apply sorted_rule. apply bf_refines_rule_gen; [| |exact H].
  - apply sort_desc_nonnil. exact Hne.
  - apply (sort_desc_nonneg id). exact Hvs.
Qed.

Theorem bfd_refines_rule : forall C vs b, vs <> [] -> Forall (fun v => 0 <= v <= C) vs ->
  best_fit_decreasing id true C vs = Ok b -> bfd_rule C vs (lists b).
Proof. intros C vs b Hne Hvs. apply bfd_refines_rule_gen; [exact Hne|exact (Forall_range_nonneg C vs Hvs)]. Qed.

Example bf_empty_input_differs :
  rmap lists (best_fit id true 5 []) = Ok [[]] /\ (forall b, bf_rule 5 [] b -> b = []).
Proof.
  split; [vm_compute; reflexivity|]. intros b H. inversion H; subst. reflexivity.
Qed.

(** best-fit needs non-negative values: the scan starts from best sum -1, so a bin whose new
    sum would be <= -1 is never chosen although the item fits *)
Example bf_negative_value_differs :
  rmap lists (best_fit id true 5 [-2]) = Ok [[]; [-2]] /\ ~ bf_rule 5 [-2] [[]; [-2]].
Proof.
  split; [vm_compute; reflexivity|]. intros H. unfold bf_rule in H.
  inversion H as [|v t b0 b1 b2 Hs Hr]; subst. inversion Hr; subst.
  inversion Hs as [b i Hi Hfit Hmax|b Hall].
  - cbn [length] in Hi. lia.
Qed.

(** ---- next-fit-decreasing cover ---- *)

Notation cst := (cstate (A:=Z)).

Lemma add_to_bin_fst v (c : bin Z) : fst (add_to_bin id true v c) = fst c + v.
Proof. reflexivity. Qed.
Lemma add_to_bin_snd v (c : bin Z) : snd (add_to_bin id true v c) = snd c ++ [v].
Proof. reflexivity. Qed.

Lemma wf_bin_add v (c : bin Z) : wf_bin id c -> wf_bin id (add_to_bin id true v c).
Proof. apply add_to_bin_wf. reflexivity. Qed.

Lemma wf_bin_empty : wf_bin id (@empty_bin Z).
Proof. reflexivity. Qed.

Lemma wf_bin_sum (c : bin Z) v : wf_bin id c -> zsum (snd c ++ [v]) = fst c + v.
Proof. intros H. apply wf_bin_id in H. rewrite zsum_app, H. cbn [zsum fold_right]. lia. Qed.

(** [dec_sub] is [next_fill] continuing in the current bin *)
Lemma dec_sub_next_fill C l : forall st : cst, wf_bin id (snd st) ->
  lists (fst (dec_sub id true C st l)) = lists (fst st) ++ fst (next_fill C l (snd (snd st))) /\
  snd (snd (dec_sub id true C st l)) = snd (next_fill C l (snd (snd st))) /\
  wf_bin id (snd (dec_sub id true C st l)).
Proof.
  unfold dec_sub. induction l as [|v t IH]; intros st Hwf; cbn [fold_left next_fill].
  - cbn [fst snd]. rewrite app_nil_r. auto.
  - rewrite cover_add_close, (wf_bin_sum (snd st) v Hwf). unfold close_full.
    rewrite add_to_bin_fst, Z.geb_leb. destruct (C <=? fst (snd st) + v) eqn:E.
    + destruct (IH (fst st ++ [add_to_bin id true v (snd st)], empty_bin) wf_bin_empty) as (H1 & H2 & H3).
      cbn [fst snd] in H1, H2. change (snd (@empty_bin Z)) with (@nil Z) in H1, H2.
      destruct (next_fill C t []) as [bs last]. cbn [fst snd] in *.
      rewrite H1, H2, lists_app. cbn [lists map]. rewrite add_to_bin_snd, <- app_assoc.
      cbn [app]. auto.
    + destruct (IH (fst st, add_to_bin id true v (snd st)) (wf_bin_add v _ Hwf)) as (H1 & H2 & H3).
      cbn [fst snd] in H1, H2. rewrite add_to_bin_snd in H1, H2. auto.
Qed.

Theorem dec_refines_rule : forall C vs, nfd_cover_rule C vs (lists (cover_decreasing id true C vs)).
Proof.
  intros C vs. apply sorted_rule. unfold cover_decreasing.
  destruct (dec_sub_next_fill C (sort_desc id vs) ([], empty_bin) wf_bin_empty) as (H1 & _ & _).
  exact H1.
Qed.

(** ---- twothirds = bidirectional filling ---- *)

Lemma unsnoc_snoc {T} (r : list T) y : unsnoc (r ++ [y]) = Some (r, y).
Proof. unfold unsnoc. rewrite rev_app_distr. cbn [rev app]. rewrite rev_involutive. reflexivity. Qed.

Lemma unsnoc_nil {T} : unsnoc (@nil T) = None.
Proof. reflexivity. Qed.

Lemma snoc_cases {T} (l : list T) : l = [] \/ exists r y, l = r ++ [y].
Proof.
  induction l as [|y r _] using rev_ind; [left; reflexivity|right]. exists r, y. reflexivity.
Qed.

Lemma snoc_length {T} (r : list T) y : length (r ++ [y]) = S (length r).
Proof. rewrite app_length. cbn [length]. lia. Qed.

Lemma ffr_nil f C cur : fill_from_right f C cur [] = (cur, []).
Proof. destruct f as [|f]; cbn [fill_from_right rev]; [reflexivity|]. destruct (zsum cur <? C); reflexivity. Qed.

Lemma ffr_snoc f C cur r y :
  fill_from_right (S f) C cur (r ++ [y]) =
  if zsum cur <? C then fill_from_right f C (cur ++ [y]) r else (cur, r ++ [y]).
Proof.
  cbn [fill_from_right]. rewrite rev_app_distr. cbn [rev app]. rewrite rev_involutive. reflexivity.
Qed.

Lemma ffr_full f C cur rem : C <= zsum cur -> fill_from_right f C cur rem = (cur, rem).
Proof.
  intros H. destruct f as [|f]; cbn [fill_from_right]; [reflexivity|].
  destruct (zsum cur <? C) eqn:E; [lia|reflexivity].
Qed.

Lemma ffr_fuel C rem : forall cur f, (length rem <= f)%nat ->
  fill_from_right f C cur rem = fill_from_right (length rem) C cur rem.
Proof.
  induction rem as [|y r IH] using rev_ind; intros cur f Hf.
  - rewrite !ffr_nil. reflexivity.
  - rewrite snoc_length in *. destruct f as [|f]; [lia|]. rewrite !ffr_snoc.
    destruct (zsum cur <? C); [|reflexivity]. apply IH. lia.
Qed.

Lemma ffr_length C rem : forall cur f,
  (length (snd (fill_from_right f C cur rem)) <= length rem)%nat.
Proof.
  induction rem as [|y r IH] using rev_ind; intros cur f.
  - rewrite ffr_nil. cbn [snd length]. lia.
  - destruct f as [|f]; [cbn [fill_from_right snd]; lia|]. rewrite ffr_snoc.
    destruct (zsum cur <? C); [|cbn [snd]; lia].
    specialize (IH (cur ++ [y]) f). rewrite snoc_length. lia.
Qed.

Lemma bidir_nil F C : bidirectional F C [] = [].
Proof. destruct F; reflexivity. Qed.

Lemma bidir_fuel2 C : forall F1 F2 rem, (length rem <= F1)%nat -> (length rem <= F2)%nat ->
  bidirectional F1 C rem = bidirectional F2 C rem.
Proof.
  induction F1 as [|F1 IH]; intros F2 rem H1 H2.
  - destruct rem; [|cbn [length] in H1; lia]. rewrite !bidir_nil. reflexivity.
  - destruct rem as [|x t]; [rewrite !bidir_nil; reflexivity|].
    destruct F2 as [|F2]; [cbn [length] in H2; lia|]. cbn [bidirectional]. cbn [length] in H1, H2.
    pose proof (ffr_length C t [x] (length t)) as Hl.
    destruct (fill_from_right (length t) C [x] t) as [cur rem']. cbn [snd] in Hl.
    destruct (C <=? zsum cur); [|reflexivity]. f_equal. apply IH; lia.
Qed.

Lemma bidir_fuel C F rem : (length rem <= F)%nat ->
  bidirectional F C rem = bidirectional (length rem) C rem.
Proof. intros H. apply bidir_fuel2; lia. Qed.

(** what remains to be produced when the open bin holds [cur] and [rem] is left *)
Definition tt_spec (C : Z) (cur rem : list Z) : vbins :=
  let '(cur', rem') := fill_from_right (length rem) C cur rem in
  if C <=? zsum cur' then cur' :: bidirectional (length rem') C rem' else [].

Lemma tt_spec_nil C cur : zsum cur < C -> tt_spec C cur [] = [].
Proof.
  intros H. unfold tt_spec. rewrite ffr_nil. destruct (C <=? zsum cur) eqn:E; [lia|reflexivity].
Qed.

Lemma tt_spec_full C cur rem : C <= zsum cur ->
  tt_spec C cur rem = cur :: bidirectional (length rem) C rem.
Proof.
  intros H. unfold tt_spec. rewrite ffr_full by exact H.
  destruct (C <=? zsum cur) eqn:E; [reflexivity|lia].
Qed.

Lemma tt_spec_snoc C cur r y : zsum cur < C -> tt_spec C cur (r ++ [y]) = tt_spec C (cur ++ [y]) r.
Proof.
  intros H. unfold tt_spec. rewrite snoc_length, ffr_snoc.
  destruct (zsum cur <? C) eqn:E; [reflexivity|lia].
Qed.

Lemma bidir_cons C x t : bidirectional (S (length t)) C (x :: t) = tt_spec C [x] t.
Proof.
  cbn [bidirectional]. unfold tt_spec.
  pose proof (ffr_length C t [x] (length t)) as Hl.
  destruct (fill_from_right (length t) C [x] t) as [cur rem']. cbn [snd] in Hl.
  destruct (C <=? zsum cur); [|reflexivity]. f_equal. apply bidir_fuel. exact Hl.
Qed.

Lemma tt_loop_nil f C (st : cst) fresh : tt_loop id true f C st fresh [] = st.
Proof. destruct f; reflexivity. Qed.

Lemma cover_add_tt C (st : cst) v : wf_bin id (snd st) ->
  let st' := cover_add id true C st v in
  let fresh' := fst (add_to_bin id true v (snd st)) >=? C in
  wf_bin id (snd st') /\ (fresh' = true -> snd st' = empty_bin) /\
  (fresh' = false -> fst (snd st') < C) /\
  forall rem, lists (fst st') ++ (if fresh' then bidirectional (length rem) C rem
                                  else tt_spec C (snd (snd st')) rem)
              = lists (fst st) ++ tt_spec C (snd (snd st) ++ [v]) rem.
Proof.
  intros Hwf. cbv zeta. rewrite cover_add_close. unfold close_full.
  rewrite add_to_bin_fst, Z.geb_leb. destruct (C <=? fst (snd st) + v) eqn:E; cbn [fst snd].
  - split; [exact wf_bin_empty|]. split; [reflexivity|]. split; [discriminate|].
    intros rem. rewrite lists_app, <- app_assoc. cbn [lists map app]. rewrite add_to_bin_snd.
    rewrite tt_spec_full; [reflexivity|]. rewrite wf_bin_sum by exact Hwf. lia.
  - split; [apply wf_bin_add; exact Hwf|]. split; [discriminate|].
    split; [intros _; rewrite add_to_bin_fst; lia|reflexivity].
Qed.

Lemma tt_loop_spec C : forall f (st : cst) fresh rem, (length rem <= f)%nat ->
  wf_bin id (snd st) ->
  (fresh = true -> snd st = empty_bin) -> (fresh = false -> fst (snd st) < C) ->
  lists (fst (tt_loop id true f C st fresh rem)) =
  lists (fst st) ++ (if fresh then bidirectional (length rem) C rem else tt_spec C (snd (snd st)) rem).
Proof.
  assert (Hnil : forall f (st : cst) fresh, wf_bin id (snd st) -> (fresh = false -> fst (snd st) < C) ->
            lists (fst (tt_loop id true f C st fresh [])) =
            lists (fst st) ++ (if fresh then bidirectional 0 C [] else tt_spec C (snd (snd st)) [])).
  { intros f st fresh Hwf Hopen. rewrite tt_loop_nil. destruct fresh; [rewrite app_nil_r; reflexivity|].
    rewrite tt_spec_nil, app_nil_r; [reflexivity|]. apply wf_bin_id in Hwf. rewrite <- Hwf. auto. }
  induction f as [|f IH]; intros st fresh rem Hlen Hwf Hfresh Hopen.
  - destruct rem; [apply Hnil; assumption|cbn [length] in Hlen; lia].
  - destruct rem as [|x t]; [apply Hnil; assumption|].
    rewrite tt_loop_S.
    assert (Hnext : forall v rem', (length rem' <= f)%nat ->
              lists (fst (tt_loop id true f C (cover_add id true C st v)
                                (fst (add_to_bin id true v (snd st)) >=? C) rem')) =
              lists (fst st) ++ tt_spec C (snd (snd st) ++ [v]) rem').
    { intros v rem' Hl. destruct (cover_add_tt C st v Hwf) as (W & F1 & F2 & E).
      rewrite IH by assumption. apply E. }
    destruct fresh.
    + (* a fresh bin: the head (largest) item *)
      cbn [length] in Hlen. rewrite (Hnext x t) by lia.
      change (length (x :: t)) with (S (length t)). rewrite bidir_cons, (Hfresh eq_refl). reflexivity.
    + (* an open bin: the last (smallest) item *)
      destruct (snoc_cases (x :: t)) as [E0|(r & y & E0)]; [discriminate E0|].
      rewrite E0 in *. rewrite snoc_length in Hlen. rewrite unsnoc_snoc, (Hnext y r) by lia.
      specialize (Hopen eq_refl). apply wf_bin_id in Hwf. rewrite tt_spec_snoc by lia. reflexivity.
Qed.

(** no positivity hypothesis is needed *)
Theorem tt_refines_rule_gen : forall C vs, twothirds_rule C vs (lists (cover_twothirds id true C vs)).
Proof.
  intros C vs. apply sorted_rule. unfold cover_twothirds.
  rewrite tt_loop_spec; cbn [fst snd]; auto.
  - rewrite sort_desc_length. reflexivity.
  - exact wf_bin_empty.
  - discriminate.
Qed.

Theorem tt_refines_rule : forall C vs, 0 < C -> Forall (fun v => 0 < v) vs ->
  twothirds_rule C vs (lists (cover_twothirds id true C vs)).
Proof. intros C vs _ _. apply tt_refines_rule_gen. Qed.

(** ---- threequarters = three-class filling ---- *)

Lemma fill_small_ffr C : forall f (cur : bin Z) small, wf_bin id cur ->
  fill_from_right f C (snd cur) small =
    (snd (fst (fill_small id true f C cur small)), snd (fill_small id true f C cur small)) /\
  wf_bin id (fst (fill_small id true f C cur small)).
Proof.
  induction f as [|f IH]; intros cur small Hwf; cbn [fill_small fill_from_right].
  - cbn [fst snd]. auto.
  - pose proof Hwf as Hs. apply wf_bin_id in Hs. rewrite <- Hs.
    destruct (fst cur <? C); [|cbn [fst snd]; auto].
    destruct (snoc_cases small) as [E|(r & y & E)]; subst small.
    + rewrite unsnoc_nil. cbn [rev fst snd]. auto.
    + rewrite unsnoc_snoc, rev_app_distr. cbn [rev app]. rewrite rev_involutive.
      rewrite <- add_to_bin_snd. apply IH. apply wf_bin_add. exact Hwf.
Qed.

Lemma fold_add_snd l (c : bin Z) : wf_bin id c ->
  snd (fold_left (fun c x => add_to_bin id true x c) l c) = snd c ++ l /\
  wf_bin id (fold_left (fun c x => add_to_bin id true x c) l c).
Proof.
  intros Hwf. apply wf_bin_id in Hwf. rewrite fold_add_to_bin. split; [reflexivity|].
  apply wf_bin_id. cbn [fst snd]. rewrite map_id, zsum_app. lia.
Qed.

(** the start of an iteration of the main loop on the rule side ([tq_pick] is the model side) *)
Definition tc_pick (X Y : list Z) : list Z * list Z * list Z :=
  if zsum (firstn 2 Y) <=? zsum (firstn 1 X) then (firstn 1 X, skipn 1 X, Y)
  else (firstn 2 Y, X, skipn 2 Y).

Lemma three_class_unfold f C cur X Y Zs :
  three_class (S f) C cur X Y Zs =
  match Zs with
  | [] => let '(b1, cur1) := next_fill C X cur in
          let '(b2, _) := next_fill C Y cur1 in b1 ++ b2
  | _ :: _ =>
      if is_nil X && is_nil Y then fst (next_fill C Zs cur)
      else
        let '(start, X', Y') := tc_pick X Y in
        let '(cur1, Zs') := fill_from_right (length Zs) C (cur ++ start) Zs in
        if C <=? zsum cur1 then cur1 :: three_class f C [] X' Y' Zs'
        else three_class f C cur1 X' Y' Zs'
  end.
Proof. destruct Zs, X, Y; reflexivity. Qed.

Lemma tq_pick_tc_pick (st : cst) big medium : wf_bin id (snd st) ->
  snd (fst (fst (tq_pick id true st big medium))) = snd (snd st) ++ fst (fst (tc_pick big medium)) /\
  snd (fst (tq_pick id true st big medium)) = snd (fst (tc_pick big medium)) /\
  snd (tq_pick id true st big medium) = snd (tc_pick big medium) /\
  wf_bin id (fst (fst (tq_pick id true st big medium))).
Proof.
  intros Hwf. unfold tq_pick, tc_pick. rewrite !map_id, Z.geb_leb.
  destruct (zsum (firstn 2 medium) <=? zsum (firstn 1 big)); cbn [fst snd].
  - destruct (fold_add_snd (firstn 1 big) (snd st) Hwf) as [H1 H2]. auto.
  - destruct (fold_add_snd (firstn 2 medium) (snd st) Hwf) as [H1 H2]. auto.
Qed.

Lemma tq_loop_spec C : forall f (st : cst) big medium small, wf_bin id (snd st) ->
  lists (fst (tq_loop id true f C st big medium small)) =
  lists (fst st) ++ three_class f C (snd (snd st)) big medium small.
Proof.
  induction f as [|f IH]; intros st big medium small Hwf.
  - cbn [tq_loop three_class]. rewrite app_nil_r. reflexivity.
  - rewrite tq_loop_S, three_class_unfold. destruct small as [|z zs].
    + destruct (dec_sub_next_fill C big st Hwf) as (H1 & H2 & H3).
      destruct (dec_sub_next_fill C medium (dec_sub id true C st big) H3) as (H4 & _ & _).
      rewrite H4, H1, H2. destruct (next_fill C big (snd (snd st))) as [b1 cur1]. cbn [fst snd].
      destruct (next_fill C medium cur1) as [b2 l2]. cbn [fst]. rewrite app_assoc. reflexivity.
    + destruct (is_nil big && is_nil medium).
      { destruct (dec_sub_next_fill C (z :: zs) st Hwf) as (H1 & _ & _). exact H1. }
      destruct (tq_pick_tc_pick st big medium Hwf) as (P1 & P2 & P3 & P4).
      destruct (tq_pick id true st big medium) as [[cur0 big'] medium'].
      destruct (tc_pick big medium) as [[start X'] Y']. cbn [fst snd] in P1, P2, P3, P4.
      subst X' Y'.
      destruct (fill_small_ffr C (length (z :: zs)) cur0 (z :: zs) P4) as [F1 F2].
      rewrite <- P1, F1.
      destruct (fill_small id true (length (z :: zs)) C cur0 (z :: zs)) as [cur1 small'].
      cbn [fst snd] in *. pose proof F2 as Hs. apply wf_bin_id in Hs.
      rewrite Z.geb_leb, <- Hs. destruct (C <=? fst cur1).
      * rewrite IH by exact wf_bin_empty. cbn [fst snd]. change (snd (@empty_bin Z)) with (@nil Z).
        rewrite lists_app, <- app_assoc. reflexivity.
      * rewrite IH by exact F2. reflexivity.
Qed.

(** no positivity hypothesis is needed *)
Theorem tq_refines_rule_gen : forall C vs,
  threequarters_rule C vs (lists (cover_threequarters id true C vs)).
Proof.
  intros C vs. apply sorted_rule. unfold cover_threequarters. cbv zeta.
  rewrite tq_loop_spec by exact wf_bin_empty. rewrite sort_desc_length. reflexivity.
Qed.

Theorem tq_refines_rule : forall C vs, 0 < C -> Forall (fun v => 0 < v) vs ->
  threequarters_rule C vs (lists (cover_threequarters id true C vs)).
Proof. intros C vs _ _. apply tq_refines_rule_gen. Qed.

(** ---- round-robin = cyclic dealing ---- *)

(** how many items bin [j] still has to skip when the cursor stands at [r] *)
Definition off (k r j : nat) : nat := if (r <=? j)%nat then (j - r)%nat else (j + k - r)%nat.

Lemma off_step k r j : (r < k)%nat -> (j < k)%nat ->
  (j = r /\ off k r j = O /\ off k (Nat.modulo (S r) k) j = (k - 1)%nat) \/
  (j <> r /\ off k r j = S (off k (Nat.modulo (S r) k) j)).
Proof.
  intros Hr Hj. unfold off.
  destruct (GreedyProofs.succ_mod_cases r k Hr) as [[E ->]|[E ->]];
    destruct (Nat.leb_spec r j) as [L1|L1];
    match goal with |- context [(?a <=? j)%nat] => destruct (Nat.leb_spec a j) as [L2|L2] end; lia.
Qed.

Lemma every_kth_nil k s : every_kth k s [] = [].
Proof. reflexivity. Qed.

Lemma deal_length k l : length (deal k l) = k.
Proof. unfold deal, range. rewrite map_length. apply range_from_length. Qed.

Lemma deal_nth k l j : (j < k)%nat -> nth j (deal k l) [] = every_kth k j l.
Proof.
  intros Hj. unfold deal.
  transitivity (nth j (map (fun j0 => every_kth k j0 l) (range k)) ((fun j0 => every_kth k j0 l) O)).
  - apply nth_indep. rewrite map_length. unfold range. rewrite range_from_length. exact Hj.
  - rewrite (map_nth (fun j0 => every_kth k j0 l) (range k) O j).
    unfold range. rewrite range_from_nth by exact Hj. reflexivity.
Qed.

Lemma put_nth i v (b : vbins) j : (i < length b)%nat ->
  nth j (put i v b) [] = if (j =? i)%nat then nth j b [] ++ [v] else nth j b [].
Proof.
  intros Hi. unfold put. destruct (Nat.eqb_spec j i) as [E|E].
  - subst j. rewrite update_nth_same by exact Hi. reflexivity.
  - apply update_nth_other. auto.
Qed.

Lemma rr_loop_deal k l : forall r (b : bins Z), (r < k)%nat -> length b = k ->
  length (rr_loop id true k l r b) = k /\
  forall j, (j < k)%nat ->
    nth j (lists (rr_loop id true k l r b)) [] = nth j (lists b) [] ++ every_kth k (off k r j) l.
Proof.
  induction l as [|x t IH]; intros r b Hr Hlen; cbn [rr_loop].
  - split; [exact Hlen|]. intros j Hj. rewrite every_kth_nil, app_nil_r. reflexivity.
  - assert (Hr' : (Nat.modulo (S r) k < k)%nat) by (apply Nat.mod_upper_bound; lia).
    destruct (IH (Nat.modulo (S r) k) (add_item id true b x r) Hr') as [H1 H2].
    { rewrite add_item_length. exact Hlen. }
    split; [exact H1|]. intros j Hj. rewrite (H2 j Hj), lists_add_item.
    rewrite put_nth by (rewrite lists_length; lia).
    destruct (off_step k r j Hr Hj) as [(E1 & E2 & E3)|(E1 & E2)].
    + subst j. rewrite Nat.eqb_refl, E2, E3. cbn [every_kth]. rewrite <- app_assoc. reflexivity.
    + destruct (Nat.eqb_spec j r) as [E|_]; [contradiction|]. rewrite E2. reflexivity.
Qed.

Lemma nth_repeat_nil {T} k j : nth j (repeat (@nil T) k) [] = [].
Proof. revert j. induction k as [|k IH]; intros [|j]; cbn [repeat nth]; auto. Qed.

Theorem roundrobin_refines_rr : forall k vs, (1 <= k)%nat -> rr_rule k vs (lists (roundrobin id true k vs)).
Proof.
  intros k vs Hk. apply sorted_rule. unfold roundrobin.
  destruct (rr_loop_deal k (sort_desc id vs) O (new_bins k)) as [H1 H2];
    [lia|apply new_bins_length|].
  apply nth_ext with (d := []) (d' := []).
  - rewrite lists_length, deal_length. exact H1.
  - rewrite lists_length, H1. intros j Hj. rewrite (H2 j Hj), deal_nth by exact Hj.
    rewrite lists_new_bins, nth_repeat_nil. cbn [app]. unfold off.
    destruct (Nat.leb_spec O j) as [L|L]; [|lia]. f_equal. lia.
Qed.

(** ================= PART 2: determinism of the rules ================= *)

Theorem nonincreasing_perm_unique : forall l1 l2,
  Permutation l1 l2 -> nonincreasing l1 -> nonincreasing l2 -> l1 = l2.
Proof.
  unfold nonincreasing. induction l1 as [|a t1 IH]; intros l2 P S1 S2.
  - apply Permutation_nil in P. symmetry. exact P.
  - destruct l2 as [|b t2]; [apply Permutation_sym, Permutation_nil in P; discriminate P|].
    apply StronglySorted_inv in S1. apply StronglySorted_inv in S2.
    destruct S1 as [S1 F1]. destruct S2 as [S2 F2].
    assert (Hab : a = b).
    { assert (Hb : In b (a :: t1)) by (eapply Permutation_in; [symmetry; exact P|left; reflexivity]).
      assert (Ha : In a (b :: t2)) by (eapply Permutation_in; [exact P|left; reflexivity]).
      rewrite Forall_forall in F1, F2. destruct Hb as [Hb|Hb]; [congruence|].
      destruct Ha as [Ha|Ha]; [congruence|]. apply F1 in Hb. apply F2 in Ha. lia. }
    subst b. f_equal. apply IH; [|exact S1|exact S2]. eapply Permutation_cons_inv. exact P.
Qed.

(** two runs of a decreasing rule work on the same sorted sequence *)
Lemma sorted_rule_det (R : list Z -> vbins -> Prop) (Q : vbins -> vbins -> Prop) vs b1 b2 :
  (forall l, R l b1 -> R l b2 -> Q b1 b2) ->
  (exists l, Permutation l vs /\ nonincreasing l /\ R l b1) ->
  (exists l, Permutation l vs /\ nonincreasing l /\ R l b2) -> Q b1 b2.
Proof.
  intros HR (l1 & P1 & S1 & R1) (l2 & P2 & S2 & R2). apply (HR l1 R1).
  rewrite (nonincreasing_perm_unique l1 l2); [exact R2| |exact S1|exact S2].
  eapply Permutation_trans; [exact P1|symmetry; exact P2].
Qed.

Lemma sorted_fun_det (f : list Z -> vbins) vs b1 b2 :
  (exists l, Permutation l vs /\ nonincreasing l /\ b1 = f l) ->
  (exists l, Permutation l vs /\ nonincreasing l /\ b2 = f l) -> b1 = b2.
Proof. apply (sorted_rule_det (fun l b => b = f l) eq). intros l -> ->. reflexivity. Qed.

Lemma put_perm v (a a' : vbins) i i' :
  Permutation (vsums a) (vsums a') -> (i < length a)%nat -> (i' < length a')%nat ->
  zsum (nth i a []) = zsum (nth i' a' []) ->
  Permutation (vsums (put i v a)) (vsums (put i' v a')).
Proof.
  intros P Hi Hi' E. rewrite <- !nth_vsums in E. rewrite <- (vsums_length a) in Hi.
  rewrite <- (vsums_length a') in Hi'. rewrite !vsums_put.
  destruct (update_split i (fun s => s + v) _ Hi) as (l1 & x & l2 & E1 & E2 & E3).
  destruct (update_split i' (fun s => s + v) _ Hi') as (l1' & x' & l2' & E1' & E2' & E3').
  rewrite E3, E3'. rewrite E1, E1' in P, E. subst i i'. rewrite !nth_middle in E. subst x'.
  apply Permutation_elt. eapply Permutation_app_inv. exact P.
Qed.

Lemma perm_sum_transfer (a a' : vbins) i :
  Permutation (vsums a) (vsums a') -> (i < length a)%nat ->
  exists j, (j < length a')%nat /\ zsum (nth j a' []) = zsum (nth i a []).
Proof.
  intros P Hi.
  assert (Hin : In (nth i (vsums a) 0) (vsums a')).
  { eapply Permutation_in; [exact P|]. apply nth_In. rewrite vsums_length. exact Hi. }
  apply In_nth with (d := 0) in Hin. destruct Hin as (j & Hj & Ej).
  rewrite vsums_length in Hj. rewrite !nth_vsums in Ej. exists j. auto.
Qed.

(** ---- LPT: the multiset of sums is determined ---- *)

Lemma least_loaded_le i (a : vbins) j : least_loaded i a -> (j < length a)%nat ->
  zsum (nth i a []) <= zsum (nth j a []).
Proof.
  intros [Hi Hall] Hj. rewrite Forall_forall in Hall. rewrite <- !nth_vsums.
  apply Hall. apply nth_In. rewrite vsums_length. exact Hj.
Qed.

Lemma lpt_step_perm v (a a' : vbins) i i' :
  Permutation (vsums a) (vsums a') -> least_loaded i a -> least_loaded i' a' ->
  Permutation (vsums (put i v a)) (vsums (put i' v a')).
Proof.
  intros P L L'. pose proof L as [Hi _]. pose proof L' as [Hi' _].
  apply put_perm; [exact P|exact Hi|exact Hi'|].
  destruct (perm_sum_transfer a a' i P Hi) as (j' & Hj' & Ej').
  destruct (perm_sum_transfer a' a i' (Permutation_sym P) Hi') as (j & Hj & Ej).
  pose proof (least_loaded_le i a j L Hj). pose proof (least_loaded_le i' a' j' L' Hj'). lia.
Qed.

Lemma list_scheduling_perm l : forall a a' b b', Permutation (vsums a) (vsums a') ->
  list_scheduling l a b -> list_scheduling l a' b' -> Permutation (vsums b) (vsums b').
Proof.
  induction l as [|v t IH]; intros a a' b b' P H H'.
  - inversion H; subst. inversion H'; subst. exact P.
  - inversion H as [|v0 t0 a0 i b0 L R]; subst. inversion H' as [|v0 t0 a0 i' b0 L' R']; subst.
    apply (IH (put i v a) (put i' v a')); [|exact R|exact R'].
    apply lpt_step_perm; assumption.
Qed.

Theorem lpt_rule_deterministic : forall k vs b1 b2,
  lpt_rule k vs b1 -> lpt_rule k vs b2 -> Permutation (vsums b1) (vsums b2).
Proof.
  intros k vs b1 b2. apply (sorted_rule_det (fun l b => list_scheduling l (repeat [] k) b)
    (fun b b' => Permutation (vsums b) (vsums b'))).
  intros l. apply (list_scheduling_perm l (repeat [] k) (repeat [] k)). apply Permutation_refl.
Qed.

(** ---- runs of a step relation ---- *)

Lemma run_steps_rel (R : vbins -> vbins -> Prop) (step : Z -> vbins -> vbins -> Prop) :
  (forall v a a' b b', R a a' -> step v a b -> step v a' b' -> R b b') ->
  forall l a a' b b', R a a' -> run_steps step l a b -> run_steps step l a' b' -> R b b'.
Proof.
  intros Hstep. induction l as [|v t IH]; intros a a' b b' HR H H'.
  - inversion H; subst. inversion H'; subst. exact HR.
  - inversion H as [|v0 t0 a0 a1 a2 S1 R1]; subst. inversion H' as [|v0 t0 a0 a1' a2 S1' R1']; subst.
    apply (IH a1 a1'); [|exact R1|exact R1']. apply (Hstep v a a'); assumption.
Qed.

(** ---- first-fit: the bins are determined ---- *)

Lemma ff_step_det C v a b1 b2 : ff_step C v a b1 -> ff_step C v a b2 -> b1 = b2.
Proof.
  intros H1 H2. inversion H1 as [a0 i Hi Hfit Hmin|a0 Hall]; subst;
    inversion H2 as [a0 i' Hi' Hfit' Hmin'|a0 Hall']; subst.
  - destruct (Nat.lt_trichotomy i i') as [L|[L|L]].
    + exfalso. apply (Hmin' i L). exact Hfit.
    + subst i'. reflexivity.
    + exfalso. apply (Hmin i' L). exact Hfit'.
  - exfalso. rewrite Forall_forall in Hall'. apply (Hall' (nth i a [])); [|exact Hfit].
    apply nth_In. exact Hi.
  - exfalso. rewrite Forall_forall in Hall. apply (Hall (nth i' a [])); [|exact Hfit'].
    apply nth_In. exact Hi'.
  - reflexivity.
Qed.

Theorem ff_rule_deterministic : forall C vs b1 b2, ff_rule C vs b1 -> ff_rule C vs b2 -> b1 = b2.
Proof.
  intros C vs b1 b2 H1 H2. unfold ff_rule in *.
  apply (run_steps_rel eq (ff_step C)) with (l := vs) (a := []) (a' := []); [|reflexivity|exact H1|exact H2].
  intros v a a' b b' E S1 S2. subst a'. apply (ff_step_det C v a); assumption.
Qed.

Theorem ffd_rule_deterministic : forall C vs b1 b2, ffd_rule C vs b1 -> ffd_rule C vs b2 -> b1 = b2.
Proof. intros C vs b1 b2. apply (sorted_rule_det (ff_rule C) eq). intros l. apply ff_rule_deterministic. Qed.

(** ---- best-fit: the multiset of sums is determined ---- *)

Lemma bf_step_perm C v (a a' b b' : vbins) : Permutation (vsums a) (vsums a') ->
  bf_step C v a b -> bf_step C v a' b' -> Permutation (vsums b) (vsums b').
Proof.
  intros P H1 H2. inversion H1 as [a0 i Hi Hfit Hmax|a0 Hall]; subst;
    inversion H2 as [a0 i' Hi' Hfit' Hmax'|a0 Hall']; subst.
  - apply put_perm; [exact P|exact Hi|exact Hi'|].
    destruct (perm_sum_transfer a a' i P Hi) as (j' & Hj' & Ej').
    destruct (perm_sum_transfer a' a i' (Permutation_sym P) Hi') as (j & Hj & Ej).
    assert (F' : fits C v (nth j' a' [])) by (unfold fits in *; lia).
    assert (F : fits C v (nth j a [])) by (unfold fits in *; lia).
    pose proof (Hmax' j' Hj' F'). pose proof (Hmax j Hj F). lia.
  - exfalso. destruct (perm_sum_transfer a a' i P Hi) as (j' & Hj' & Ej').
    rewrite Forall_forall in Hall'. apply (Hall' (nth j' a' [])); [apply nth_In; exact Hj'|].
    unfold fits in *. lia.
  - exfalso. destruct (perm_sum_transfer a' a i' (Permutation_sym P) Hi') as (j & Hj & Ej).
    rewrite Forall_forall in Hall. apply (Hall (nth j a [])); [apply nth_In; exact Hj|].
    unfold fits in *. lia.
  - rewrite !vsums_app. apply Permutation_app_tail. exact P.
Qed.

Theorem bf_rule_deterministic : forall C vs b1 b2,
  bf_rule C vs b1 -> bf_rule C vs b2 -> Permutation (vsums b1) (vsums b2).
Proof.
  intros C vs b1 b2 H1 H2. unfold bf_rule in *.
  apply (run_steps_rel (fun a a' => Permutation (vsums a) (vsums a')) (bf_step C))
    with (l := vs) (a := []) (a' := []); [|apply Permutation_refl|exact H1|exact H2].
  intros v a a' b b' P S1 S2. apply (bf_step_perm C v a a'); assumption.
Qed.

Theorem bfd_rule_deterministic : forall C vs b1 b2,
  bfd_rule C vs b1 -> bfd_rule C vs b2 -> Permutation (vsums b1) (vsums b2).
Proof. intros C vs b1 b2. apply (sorted_rule_det (bf_rule C) (fun b b' => Permutation (vsums b) (vsums b'))).
  intros l. apply bf_rule_deterministic. Qed.

(** ---- the rules that are functions of the sorted sequence ---- *)

Theorem rr_rule_deterministic : forall k vs b1 b2, rr_rule k vs b1 -> rr_rule k vs b2 -> b1 = b2.
Proof. intros k vs b1 b2. apply (sorted_fun_det (deal k)). Qed.

Theorem nfd_cover_rule_deterministic : forall C vs b1 b2,
  nfd_cover_rule C vs b1 -> nfd_cover_rule C vs b2 -> b1 = b2.
Proof. intros C vs b1 b2. apply (sorted_fun_det (fun l => fst (next_fill C l []))). Qed.

Theorem twothirds_rule_deterministic : forall C vs b1 b2,
  twothirds_rule C vs b1 -> twothirds_rule C vs b2 -> b1 = b2.
Proof. intros C vs b1 b2. apply (sorted_fun_det (fun l => bidirectional (length l) C l)). Qed.

Theorem threequarters_rule_deterministic : forall C vs b1 b2,
  threequarters_rule C vs b1 -> threequarters_rule C vs b2 -> b1 = b2.
Proof. intros C vs b1 b2. unfold threequarters_rule. refine (sorted_fun_det _ vs b1 b2). Qed.

(** ================= PART 3: the model agrees with ANY run of the rule ================= *)

Theorem greedy_matches_any_lpt : forall k vs b, (1 <= k)%nat ->
  lpt_rule k vs b -> Permutation (vsums b) (sums (greedy id true k vs)).
Proof.
  intros k vs b Hk H. rewrite (sums_vsums _ (proj2 (greedy_run k vs Hk))).
  apply (lpt_rule_deterministic k vs); [exact H|apply greedy_refines_lpt; exact Hk].
Qed.

Theorem roundrobin_matches_any_rr : forall k vs b, (1 <= k)%nat ->
  rr_rule k vs b -> b = lists (roundrobin id true k vs).
Proof.
  intros k vs b Hk H.
  apply (rr_rule_deterministic k vs); [exact H|apply roundrobin_refines_rr; exact Hk].
Qed.

Theorem ff_matches_any_ff : forall C vs b b', vs <> [] ->
  first_fit id true C vs = Ok b -> ff_rule C vs b' -> b' = lists b /\ vsums b' = sums b.
Proof.
  intros C vs b b' Hne H R. destruct (ff_run C vs b Hne H) as [Hr Hw].
  rewrite (ff_rule_deterministic C vs b' (lists b) R Hr), (sums_vsums b Hw). split; reflexivity.
Qed.

Theorem ffd_matches_any_ffd : forall C vs b b', vs <> [] ->
  first_fit_decreasing id true C vs = Ok b -> ffd_rule C vs b' -> b' = lists b /\ vsums b' = sums b.
Proof.
  intros C vs b b' Hne H R.
  destruct (ff_run C (sort_desc id vs) b (sort_desc_nonnil id vs Hne) H) as [_ Hw].
  rewrite (ffd_rule_deterministic C vs b' (lists b) R (ffd_refines_rule_gen C vs b Hne H)),
    (sums_vsums b Hw). split; reflexivity.
Qed.

Theorem bf_matches_any_bf : forall C vs b b', vs <> [] -> Forall (fun v => 0 <= v) vs ->
  best_fit id true C vs = Ok b -> bf_rule C vs b' -> Permutation (vsums b') (sums b).
Proof.
  intros C vs b b' Hne Hvs H R. destruct (bf_run C vs b Hne Hvs H) as [Hr Hw].
  rewrite (sums_vsums b Hw). apply (bf_rule_deterministic C vs); assumption.
Qed.

Theorem bfd_matches_any_bfd : forall C vs b b', vs <> [] -> Forall (fun v => 0 <= v) vs ->
  best_fit_decreasing id true C vs = Ok b -> bfd_rule C vs b' -> Permutation (vsums b') (sums b).
Proof.
  intros C vs b b' Hne Hvs H R.
  destruct (bf_run C (sort_desc id vs) b (sort_desc_nonnil id vs Hne) (sort_desc_nonneg id vs Hvs) H)
    as [_ Hw].
  rewrite (sums_vsums b Hw).
  apply (bfd_rule_deterministic C vs); [exact R|apply bfd_refines_rule_gen; assumption].
Qed.

Theorem dec_matches_any_nfd : forall C vs b,
  nfd_cover_rule C vs b -> b = lists (cover_decreasing id true C vs).
Proof.
  intros C vs b H. apply (nfd_cover_rule_deterministic C vs); [exact H|apply dec_refines_rule].
Qed.

Theorem tt_matches_any_twothirds : forall C vs b,
  twothirds_rule C vs b -> b = lists (cover_twothirds id true C vs).
Proof.
  intros C vs b H. apply (twothirds_rule_deterministic C vs); [exact H|apply tt_refines_rule_gen].
Qed.

Theorem tq_matches_any_threequarters : forall C vs b,
  threequarters_rule C vs b -> b = lists (cover_threequarters id true C vs).
Proof.
  intros C vs b H. apply (threequarters_rule_deterministic C vs); [exact H|apply tq_refines_rule_gen].
Qed.

Print Assumptions greedy_refines_lpt.
Print Assumptions roundrobin_refines_rr.
Print Assumptions ff_refines_rule_gen.
Print Assumptions ff_refines_rule.
Print Assumptions ffd_refines_rule_gen.
Print Assumptions ffd_refines_rule.
Print Assumptions bf_refines_rule_gen.
Print Assumptions bf_refines_rule.
Print Assumptions bfd_refines_rule_gen.
Print Assumptions bfd_refines_rule.
Print Assumptions dec_refines_rule.
Print Assumptions tt_refines_rule_gen.
Print Assumptions tt_refines_rule.
Print Assumptions tq_refines_rule_gen.
Print Assumptions tq_refines_rule.
Print Assumptions ff_empty_input_differs.
Print Assumptions bf_empty_input_differs.
Print Assumptions bf_negative_value_differs.
Print Assumptions nonincreasing_perm_unique.
Print Assumptions lpt_rule_deterministic.
Print Assumptions ff_rule_deterministic.
Print Assumptions ffd_rule_deterministic.
Print Assumptions bf_rule_deterministic.
Print Assumptions bfd_rule_deterministic.
Print Assumptions rr_rule_deterministic.
Print Assumptions nfd_cover_rule_deterministic.
Print Assumptions twothirds_rule_deterministic.
Print Assumptions threequarters_rule_deterministic.
Print Assumptions greedy_matches_any_lpt.
Print Assumptions roundrobin_matches_any_rr.
Print Assumptions ff_matches_any_ff.
Print Assumptions ffd_matches_any_ffd.
Print Assumptions bf_matches_any_bf.
Print Assumptions bfd_matches_any_bfd.
Print Assumptions dec_matches_any_nfd.
Print Assumptions tt_matches_any_twothirds.
Print Assumptions tq_matches_any_threequarters.
