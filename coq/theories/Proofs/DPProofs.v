(** Proofs about the dynamic-programming model (Model/DP.v):
    layer invariant (soundness / completeness of the final layer), totality,
    the result is a partition, the result is optimal (C02 for DP),
    sums-only run (C06), names irrelevant (C07), and a non-vacuity example. *)
From Prtpy Require Import Base.Prelude Model.Binner Model.Objectives Model.CG Model.DP
  Spec.Partition Proofs.BaseLemmas Proofs.BinnerLemmas Proofs.EraseLemmas Proofs.OracleSpec.

(** ---- generic helpers ---- *)

Lemma zlist_eqb_iff a b : zlist_eqb a b = true <-> a = b.
Proof.
  revert b; induction a as [|x t IH]; intros [|y u]; cbn [zlist_eqb]; split; intros H;
    try discriminate; try reflexivity.
  - apply andb_true_iff in H. destruct H as [H1 H2].
    apply Z.eqb_eq in H1. apply IH in H2. subst. reflexivity.
  - injection H as -> ->. apply andb_true_iff. split; [apply Z.eqb_refl|].
    apply IH. reflexivity.
Qed.

Lemma fold_left_map {T U V} (f : V -> U -> V) (g : T -> U) l :
  forall a, fold_left f (map g l) a = fold_left (fun a x => f a (g x)) l a.
Proof. induction l as [|x t IH]; intros a; cbn [map fold_left]; auto. Qed.

(** ---- dp_insert: keeps the first record per state ---- *)

Lemma dp_insert_has r l : exists r', In r' (dp_insert r l) /\ fst r' = fst r.
Proof.
  induction l as [|y t IH]; cbn [dp_insert].
  - exists r. split; [left; reflexivity|reflexivity].
  - destruct (zlist_eqb (fst r) (fst y)) eqn:E.
    + apply zlist_eqb_iff in E. exists y. split; [left; reflexivity|congruence].
    + destruct IH as (r' & H1 & H2). exists r'. split; [right; exact H1|exact H2].
Qed.

Lemma dp_insert_incl x r l : In x l -> In x (dp_insert r l).
Proof.
  induction l as [|y t IH]; intros H; cbn [dp_insert].
  - destruct H.
  - destruct (zlist_eqb (fst r) (fst y)); [exact H|].
    destruct H as [H|H]; [left; exact H|right; apply IH; exact H].
Qed.

Lemma dp_insert_inv x r l : In x (dp_insert r l) -> x = r \/ In x l.
Proof.
  induction l as [|y t IH]; cbn [dp_insert]; intros H.
  - destruct H as [H|[]]. left. symmetry. exact H.
  - destruct (zlist_eqb (fst r) (fst y)); [right; exact H|].
    destruct H as [H|H]; [right; left; exact H|].
    destruct (IH H) as [H'|H']; [left; exact H'|right; right; exact H'].
Qed.

(** inserting a batch of records *)
Definition ins_all (rs acc : list drec) : list drec :=
  fold_left (fun acc' r' => dp_insert r' acc') rs acc.

Lemma ins_all_incl rs : forall acc x, In x acc -> In x (ins_all rs acc).
Proof.
  unfold ins_all. induction rs as [|r rs IH]; intros acc x H; cbn [fold_left]; [exact H|].
  apply IH. apply dp_insert_incl. exact H.
Qed.

Lemma ins_all_inv rs : forall acc x, In x (ins_all rs acc) -> In x rs \/ In x acc.
Proof.
  unfold ins_all. induction rs as [|r rs IH]; intros acc x H; cbn [fold_left] in H; [right; exact H|].
  destruct (IH _ _ H) as [H'|H']; [left; right; exact H'|].
  destruct (dp_insert_inv _ _ _ H') as [->|H'']; [left; left; reflexivity|right; exact H''].
Qed.

Lemma ins_all_has rs : forall acc r, In r rs -> exists r', In r' (ins_all rs acc) /\ fst r' = fst r.
Proof.
  induction rs as [|r0 rs IH]; intros acc r H; [destruct H|].
  change (ins_all (r0 :: rs) acc) with (ins_all rs (dp_insert r0 acc)).
  destruct H as [->|H].
  - destruct (dp_insert_has r acc) as (r' & H1 & H2). exists r'. split; [|exact H2].
    apply ins_all_incl. exact H1.
  - apply IH. exact H.
Qed.

(** ---- dp_succ / dp_layer ---- *)

Lemma dp_succ_In k v r s :
  In s (dp_succ k v r) <->
  exists i, (i < k)%nat /\ s = (update i (fun x => x + v) (fst r), i :: snd r).
Proof.
  (* [range k] is the library's [seq 0 k] *)
  unfold dp_succ. rewrite in_map_iff. split; intros (i & H1 & H2); exists i.
  - apply (in_seq k 0) in H2. split; [lia|]. symmetry. exact H1.
  - split; [symmetry; exact H2|]. apply (in_seq k 0). lia.
Qed.

Lemma dp_layer_flat k v layer : dp_layer k v layer = ins_all (flat_map (dp_succ k v) layer) [].
Proof.
  unfold dp_layer, ins_all. generalize (@nil drec).
  induction layer as [|r t IH]; intros acc; cbn [flat_map fold_left]; [reflexivity|].
  rewrite fold_left_app. apply IH.
Qed.

Lemma dp_layer_inv k v layer x : In x (dp_layer k v layer) ->
  exists r i, In r layer /\ (i < k)%nat /\ x = (update i (fun s => s + v) (fst r), i :: snd r).
Proof.
  rewrite dp_layer_flat. intros H. destruct (ins_all_inv _ _ _ H) as [H'|[]].
  apply in_flat_map in H'. destruct H' as (r & H1 & H2).
  apply dp_succ_In in H2. destruct H2 as (i & Hi & E). exists r, i. auto.
Qed.

Lemma dp_layer_has k v layer r i : In r layer -> (i < k)%nat ->
  exists r', In r' (dp_layer k v layer) /\ fst r' = update i (fun s => s + v) (fst r).
Proof.
  intros H Hi. rewrite dp_layer_flat.
  apply (ins_all_has _ [] (update i (fun s => s + v) (fst r), i :: snd r)).
  apply in_flat_map. exists r. split; [exact H|]. apply dp_succ_In. exists i. auto.
Qed.

(** ---- dp_min: first minimum ---- *)

Lemma dp_min_spec o l : forall best,
  In (dp_min o best l) (best :: l) /\
  forall x, In x (best :: l) -> value o (fst (dp_min o best l)) false <= value o (fst x) false.
Proof.
  induction l as [|r t IH]; intros best; cbn [dp_min].
  - split; [left; reflexivity|]. intros x [<-|[]]. lia.
  - destruct (value o (fst r) false <? value o (fst best) false) eqn:E.
    + destruct (IH r) as [H1 H2]. split; [right; exact H1|].
      intros x [<-|Hx].
      * specialize (H2 r (or_introl eq_refl)). apply Z.ltb_lt in E. lia.
      * apply H2. exact Hx.
    + destruct (IH best) as [H1 H2]. split.
      * destruct H1 as [H1|H1]; [left; exact H1|right; right; exact H1].
      * intros x [<-|[<-|Hx]].
        -- apply H2. left. reflexivity.
        -- specialize (H2 best (or_introl eq_refl)). apply Z.ltb_ge in E. lia.
        -- apply H2. right. exact Hx.
Qed.

(** ---- the record chosen does not depend on the de-duplication ----
    A record dropped by [dp_insert] has the state, hence the value, of an earlier one, and
    [dp_min] keeps the first minimum; so the choice can be made on the plain list of
    successors ([dp_snoc] below), which spares the quadratic scan of the last layer.
    No theorem needs this: its one use is to make the evaluation in Example [dp_walter] cheap. *)
Definition dp_best (o : objective) (l : list drec) : option drec :=
  match l with [] => None | r :: t => Some (dp_min o r t) end.

Lemma dp_min_app o l1 l2 : forall best, dp_min o best (l1 ++ l2) = dp_min o (dp_min o best l1) l2.
Proof.
  induction l1 as [|r t IH]; intros best; cbn [app dp_min]; [reflexivity|].
  destruct (_ <? _); apply IH.
Qed.

Lemma dp_min_snoc_ge o r t best y :
  In y (best :: t) -> value o (fst y) false <= value o (fst r) false ->
  dp_min o best (t ++ [r]) = dp_min o best t.
Proof.
  intros Hy Hle. rewrite dp_min_app. cbn [dp_min].
  destruct (dp_min_spec o t best) as [_ Hm]. specialize (Hm y Hy).
  destruct (_ <? _) eqn:E; [lia|reflexivity].
Qed.

Lemma dp_min_insert o r l : forall best, dp_min o best (dp_insert r l) = dp_min o best (l ++ [r]).
Proof.
  induction l as [|y t IH]; intros best; cbn [dp_insert app]; [reflexivity|].
  destruct (zlist_eqb (fst r) (fst y)) eqn:E.
  - apply zlist_eqb_iff in E. symmetry.
    apply (dp_min_snoc_ge o r (y :: t) best y); [right; left; reflexivity|rewrite E; lia].
  - cbn [dp_min]. destruct (_ <? _); apply IH.
Qed.

Lemma dp_best_insert o r l : dp_best o (dp_insert r l) = dp_best o (l ++ [r]).
Proof.
  destruct l as [|y t]; [reflexivity|]. cbn [dp_insert app].
  destruct (zlist_eqb (fst r) (fst y)) eqn:E; cbn [dp_best]; f_equal.
  - apply zlist_eqb_iff in E. symmetry.
    apply (dp_min_snoc_ge o r t y y); [left; reflexivity|rewrite E; lia].
  - apply dp_min_insert.
Qed.

Lemma dp_best_app o l1 l2 : dp_best o (l1 ++ l2) =
  match dp_best o l1 with None => dp_best o l2 | Some b => Some (dp_min o b l2) end.
Proof. destruct l1 as [|r t]; cbn [app dp_best]; [reflexivity|]. rewrite dp_min_app. reflexivity. Qed.

Lemma dp_best_ins_all o rs : forall acc, dp_best o (ins_all rs acc) = dp_best o (acc ++ rs).
Proof.
  induction rs as [|r rs IH]; intros acc; [rewrite app_nil_r; reflexivity|].
  change (ins_all (r :: rs) acc) with (ins_all rs (dp_insert r acc)).
  rewrite IH, dp_best_app, dp_best_insert, <- dp_best_app, <- app_assoc. reflexivity.
Qed.

Section DPProofs.
  Context {A : Type} (valueof : A -> Z).

  (** ---- 1. layer invariant ---- *)

  Lemma dp_final_snoc k items x :
    dp_final valueof k (items ++ [x]) = dp_layer k (valueof x) (dp_final valueof k items).
  Proof. unfold dp_final. rewrite fold_left_app. reflexivity. Qed.

  Theorem dp_final_sound : forall k items r, In r (dp_final valueof k items) ->
    length (snd r) = length items /\ valid_asg k (rev (snd r)) /\
    loads k (map valueof items) (rev (snd r)) = fst r.
  Proof.
    intros k items. induction items as [|x its IH] using rev_ind; intros r H.
    - destruct H as [<-|[]]. cbn [fst snd rev map length]. split; [reflexivity|].
      split; [constructor|reflexivity].
    - rewrite dp_final_snoc in H. apply dp_layer_inv in H.
      destruct H as (r0 & i & H0 & Hi & ->). destruct (IH r0 H0) as (L & V & E).
      cbn [fst snd rev]. split; [|split].
      + rewrite app_length. cbn [length]. lia.
      + apply Forall_app. split; [exact V|]. constructor; [exact Hi|constructor].
      + rewrite map_app. cbn [map]. rewrite loads_snoc.
        * rewrite E. reflexivity.
        * rewrite map_length, rev_length. exact L.
  Qed.

  Theorem dp_final_complete : forall k items asg, length asg = length items -> valid_asg k asg ->
    exists r, In r (dp_final valueof k items) /\ fst r = loads k (map valueof items) asg.
  Proof.
    intros k items. induction items as [|x its IH] using rev_ind; intros asg L V.
    - destruct asg as [|i p]; [|discriminate]. exists (repeat 0 k, []).
      split; [left; reflexivity|reflexivity].
    - rewrite app_length in L. cbn [length] in L.
      assert (Hne : asg <> []) by (intros ->; cbn [length] in L; lia).
      destruct (exists_last Hne) as (asg' & i & ->).
      rewrite app_length in L. cbn [length] in L.
      apply Forall_app in V. destruct V as [V1 V2]. pose proof (Forall_inv V2) as Hi. cbv beta in Hi.
      destruct (IH asg') as (r0 & H0 & E0); [lia|exact V1|].
      destruct (dp_layer_has k (valueof x) _ r0 i H0 Hi) as (r' & H1 & E1).
      exists r'. rewrite dp_final_snoc. split; [exact H1|].
      rewrite E1, E0, map_app. cbn [map]. rewrite loads_snoc; [reflexivity|].
      rewrite map_length. lia.
  Qed.

  (** what [dp] returns, unfolded once and for all *)
  Lemma dp_unfold keep o k items b : dp valueof keep o k items = Ok b ->
    exists best, In best (dp_final valueof k items) /\
      (forall x, In x (dp_final valueof k items) -> value o (fst best) false <= value o (fst x) false) /\
      b = dp_replay valueof keep items (rev (snd best)) (new_bins k).
  Proof.
    unfold dp. destruct (dp_final valueof k items) as [|r t]; intros H; [discriminate|].
    cbv zeta in H. injection H as <-.
    destruct (dp_min_spec o t r) as [H1 H2].
    exists (dp_min o r t). split; [exact H1|]. split; [exact H2|reflexivity].
  Qed.

  Lemma dp_snoc keep o k items x :
    dp valueof keep o k (items ++ [x]) =
    match dp_best o (flat_map (dp_succ k (valueof x)) (dp_final valueof k items)) with
    | None => Err ValueError
    | Some best => Ok (dp_replay valueof keep (items ++ [x]) (rev (snd best)) (new_bins k))
    end.
  Proof.
    replace (flat_map _ _) with ([] ++ flat_map (dp_succ k (valueof x)) (dp_final valueof k items))
      by reflexivity.
    rewrite <- dp_best_ins_all, <- dp_layer_flat, <- dp_final_snoc.
    unfold dp. destruct (dp_final valueof k (items ++ [x])); reflexivity.
  Qed.

  (** ---- 2. totality ---- *)

  Theorem dp_total : forall o k items, (1 <= k)%nat -> exists b, dp valueof true o k items = Ok b.
  Proof.
    intros o k items Hk. unfold dp. destruct (dp_final valueof k items) as [|r t] eqn:E.
    - exfalso.
      destruct (dp_final_complete k items (repeat 0%nat (length items))) as (r & Hr & _).
      + apply repeat_length.
      + unfold valid_asg. apply Forall_forall. intros i Hi. apply repeat_spec in Hi. lia.
      + rewrite E in Hr. destruct Hr.
    - eexists. reflexivity.
  Qed.

  (** ---- 3. replay ---- *)

  Lemma dp_replay_length keep items : forall asg b,
    length (dp_replay valueof keep items asg b) = length b.
  Proof.
    induction items as [|x t IH]; intros [|i p] b; cbn [dp_replay]; try reflexivity.
    rewrite IH. apply add_item_length.
  Qed.

  Lemma dp_replay_wf items : forall asg b,
    wf valueof b -> wf valueof (dp_replay valueof true items asg b).
  Proof.
    induction items as [|x t IH]; intros [|i p] b H; cbn [dp_replay]; try exact H.
    apply IH. apply add_item_wf. exact H.
  Qed.

  Lemma dp_replay_contents items : forall asg b,
    length asg = length items -> Forall (fun i => (i < length b)%nat) asg ->
    Permutation (contents (dp_replay valueof true items asg b)) (items ++ contents b).
  Proof.
    induction items as [|x t IH]; intros [|i p] b L V; cbn [length] in L; try discriminate.
    - reflexivity.
    - cbn [dp_replay]. pose proof (Forall_inv V) as Hi. pose proof (Forall_inv_tail V) as Hp.
      cbv beta in Hi.
      etransitivity.
      + apply IH; [lia|]. rewrite add_item_length. exact Hp.
      + etransitivity.
        * apply Permutation_app_head. apply add_item_contents. exact Hi.
        * symmetry. apply (Permutation_middle t (contents b) x).
  Qed.

  Lemma dp_replay_sums_gen keep items : forall asg b,
    sums (dp_replay valueof keep items asg b) =
    fold_left (fun s p => update (snd p) (fun x => x + fst p) s) (combine (map valueof items) asg) (sums b).
  Proof.
    induction items as [|x t IH]; intros [|i p] b; cbn [dp_replay map combine fold_left fst snd];
      try reflexivity.
    rewrite IH, add_item_sums. reflexivity.
  Qed.

  (** holds for any [asg]: [dp_replay] and [combine] truncate in the same way *)
  Lemma dp_replay_sums keep k items asg :
    sums (dp_replay valueof keep items asg (new_bins k)) = loads k (map valueof items) asg.
  Proof. rewrite dp_replay_sums_gen, new_bins_sums. reflexivity. Qed.

  Theorem dp_partition : forall o k items b, (1 <= k)%nat ->
    dp valueof true o k items = Ok b -> is_partition valueof k items b.
  Proof.
    intros o k items b _ H.
    destruct (dp_unfold _ _ _ _ _ H) as (best & Hin & _ & ->).
    destruct (dp_final_sound k items best Hin) as (L & V & _).
    unfold is_partition. split; [|split].
    - etransitivity.
      + apply dp_replay_contents.
        * rewrite rev_length. exact L.
        * rewrite new_bins_length. exact V.
      + rewrite new_bins_contents, app_nil_r. reflexivity.
    - rewrite dp_replay_length. apply new_bins_length.
    - apply dp_replay_wf. apply new_bins_wf.
  Qed.

  (** ---- 4. optimality (C02 for DP) ---- *)

  Theorem dp_optimal : forall o k items b, (1 <= k)%nat ->
    dp valueof true o k items = Ok b -> Opt o k (map valueof items) (value o (sums b) false).
  Proof.
    intros o k items b _ H.
    destruct (dp_unfold _ _ _ _ _ H) as (best & Hin & Hmin & ->).
    destruct (dp_final_sound k items best Hin) as (L & V & E).
    rewrite dp_replay_sums, E. split.
    - exists (fst best). split; [|reflexivity].
      exists (rev (snd best)). split; [|split; [exact V|exact E]].
      rewrite rev_length, map_length. exact L.
    - intros s (asg & La & Va & <-). rewrite map_length in La.
      destruct (dp_final_complete k items asg La Va) as (r & Hr & <-).
      apply Hmin. exact Hr.
  Qed.

  (** ---- 5. sums-only run (C06) ---- *)

  Lemma dp_replay_erase items : forall p b,
    erase (dp_replay valueof true items p b) = dp_replay valueof false items p (erase b).
  Proof.
    induction items as [|x t IH]; intros [|i p] b; cbn [dp_replay]; try reflexivity.
    rewrite IH, erase_add_item. reflexivity.
  Qed.

  Theorem dp_erase : forall o k items,
    rmap erase (dp valueof true o k items) = dp valueof false o k items.
  Proof.
    intros o k items. unfold dp. destruct (dp_final valueof k items) as [|r t]; cbn [rmap]; [reflexivity|].
    cbv zeta. rewrite dp_replay_erase, erase_new_bins. reflexivity.
  Qed.

  (** ---- 6. names irrelevant (C07) ---- *)

  Lemma dp_replay_names items : forall p b,
    map_bins valueof (dp_replay valueof true items p b) =
    dp_replay (fun v : Z => v) true (map valueof items) p (map_bins valueof b).
  Proof.
    induction items as [|x t IH]; intros [|i p] b; cbn [dp_replay map]; try reflexivity.
    rewrite IH, map_bins_add_item. reflexivity.
  Qed.

  Lemma dp_final_names k items :
    dp_final valueof k items = dp_final (fun v : Z => v) k (map valueof items).
  Proof. unfold dp_final. rewrite fold_left_map. reflexivity. Qed.

  Theorem dp_names : forall o k items,
    rmap (map_bins valueof) (dp valueof true o k items) = dp (fun v : Z => v) true o k (map valueof items).
  Proof.
    intros o k items. unfold dp. rewrite <- dp_final_names.
    destruct (dp_final valueof k items) as [|r t]; cbn [rmap]; [reflexivity|].
    cbv zeta. rewrite dp_replay_names, map_bins_new_bins. reflexivity.
  Qed.
End DPProofs.

(** ---- 7. non-vacuity: Walter's numbers, 3 bins, sums 59/55/63, difference 8 ---- *)
Example dp_walter :
  exists b, dp (fun v : Z => v) true MinDiff 3 [46; 39; 27; 26; 16; 13; 10] = Ok b /\
            sums b = [59; 55; 63] /\ value MinDiff (sums b) false = 8.
Proof.
  exists [(59, [46; 13]); (55, [39; 16]); (63, [27; 26; 10])].
  split; [|split; reflexivity].
  change [46; 39; 27; 26; 16; 13; 10] with ([46; 39; 27; 26; 16; 13] ++ [10]).
  rewrite dp_snoc. vm_compute. reflexivity.
Qed.

Print Assumptions dp_final_sound.
Print Assumptions dp_final_complete.
Print Assumptions dp_total.
Print Assumptions dp_partition.
Print Assumptions dp_optimal.
Print Assumptions dp_erase.
Print Assumptions dp_names.
Print Assumptions dp_walter.
