(** Property C06: choosing a cheaper (sums-only) output type never changes the answer, and
    every derived output (sums, sorted sums, largest, smallest, extreme sums, difference,
    bin count) equals what one computes from the full partition output.

    The per-algorithm facts  erase (X valueof true args) = X valueof false args  are proved
    next to each algorithm and are only re-used here:
      greedy_erase, roundrobin_erase (GreedyProofs); ff_erase, ffd_erase, bf_erase, bfd_erase
      (PackingProofs); dec_erase, tt_erase, tq_erase (CoveringProofs); dp_erase (DPProofs);
      kk_erase (KKProofs); cg_erase (CGProofs); bc_erase (BCProofs).
    New here: the output-type layer (Model/Output.v), the C06 schema and its instances, and
    the analysis of ckk / ckk_generator / snp / rnp, whose two managers de-duplicate
    combinations differently (by item names vs. by sums) but, since the children of a CKK node
    are de-duplicated by their sums, explore the same search tree.  The lock-step lemmas behind
    it ([ckk_contents_run_map], [snp_rnp_sim]) are stated for any two runs related by a map of
    the bins-arrays: Proofs/SNPNamesProofs.v uses them again for named items / plain values. *)
From Prtpy Require Import Base.Prelude Base.Perms Model.Binner Model.Objectives Model.Greedy Model.Packing
  Model.Covering Model.KK Model.CG Model.DP Model.CBLDM Model.InExTree Model.SNP Model.BinCompletion
  Model.Output Spec.Partition
  Proofs.BaseLemmas Proofs.BinnerLemmas Proofs.EraseLemmas Proofs.EnumProofs Proofs.GreedyProofs Proofs.PackingProofs
  Proofs.CoveringProofs Proofs.DPProofs Proofs.KKProofs Proofs.CGProofs Proofs.BCProofs
  Proofs.CKKOptimal Proofs.SNPProofs Proofs.ObjectivesProofs.
From Coq Require Import Sorting.Sorted ZifyBool.

(** ---------------------------------------------------------------------------------- *)
(** * b. erase and the output extractors                                                *)
(** ---------------------------------------------------------------------------------- *)
Section Extract.
  Context {A : Type}.

  Lemma sums_erase (b : bins A) : sums (erase b) = sums b.
  Proof. apply erase_sums. Qed.

  Lemma rmap_sums_erase (r : result (bins A)) : rmap sums (rmap erase r) = rmap sums r.
  Proof. destruct r as [b|e]; cbn [rmap]; [|reflexivity]. rewrite sums_erase. reflexivity. Qed.

  Lemma length_erase (b : bins A) : length (erase b) = length b.
  Proof. apply erase_length. Qed.

  (** what the sums-only manager reports as contents: nothing *)
  Lemma lists_erase (b : bins A) : lists (erase b) = repeat [] (length b).
  Proof.
    unfold lists, erase. rewrite map_map. cbn [snd].
    induction b as [|bn t IH]; cbn [map length repeat]; [reflexivity|]. rewrite IH. reflexivity.
  Qed.

  Lemma erase_idem (b : bins A) : erase (erase b) = erase b.
  Proof. unfold erase. rewrite map_map. reflexivity. Qed.

  (** on a sums-family type, extract_output_from_binsarray is the documented function of
      the sums and ignores the contents *)
  Lemma extract_derive (o : outtype) (b : bins A) :
    keeps o = false -> extract o b = derive o (sums b).
  Proof. destruct o; intros Hk; try discriminate Hk; reflexivity. Qed.

  Lemma extract_erase (o : outtype) (b : bins A) :
    keeps o = false -> extract o (erase b) = derive o (sums b).
  Proof. intros Hk. rewrite (extract_derive o (erase b) Hk), sums_erase. reflexivity. Qed.

  Lemma extract_erase_same (o : outtype) (b : bins A) :
    keeps o = false -> extract o (erase b) = extract o b.
  Proof. intros Hk. rewrite extract_erase, extract_derive; [reflexivity|exact Hk|exact Hk]. Qed.

  (** the same, spelled out for each of the seven sums-family types *)
  Lemma extract_erase_OSums (b : bins A) : extract OSums (erase b) = OutSums (sums b).
  Proof. apply (extract_erase OSums). reflexivity. Qed.
  Lemma extract_erase_OLargest (b : bins A) : extract OLargest (erase b) = OutNum (zmax (sums b)).
  Proof. apply (extract_erase OLargest). reflexivity. Qed.
  Lemma extract_erase_OSmallest (b : bins A) : extract OSmallest (erase b) = OutNum (zmin (sums b)).
  Proof. apply (extract_erase OSmallest). reflexivity. Qed.
  Lemma extract_erase_OExtreme (b : bins A) :
    extract OExtreme (erase b) = OutPair (zmin (sums b)) (zmax (sums b)).
  Proof. apply (extract_erase OExtreme). reflexivity. Qed.
  Lemma extract_erase_OSorted (b : bins A) :
    extract OSorted (erase b) = OutSums (sort_asc (fun x => x) (sums b)).
  Proof. apply (extract_erase OSorted). reflexivity. Qed.
  Lemma extract_erase_ODifference (b : bins A) :
    extract ODifference (erase b) = OutNum (zmax (sums b) - zmin (sums b)).
  Proof. apply (extract_erase ODifference). reflexivity. Qed.
  Lemma extract_erase_OBinCount (b : bins A) : extract OBinCount (erase b) = OutCount (length b).
  Proof.
    rewrite (extract_erase OBinCount b eq_refl). cbn [derive]. unfold sums. rewrite map_length. reflexivity.
  Qed.

  (** the Partition family returns the bins-array as it is *)
  Lemma extract_OPartition (b : bins A) : extract OPartition b = OutLists (lists b).
  Proof. reflexivity. Qed.
  Lemma extract_OPartitionAndSums (b : bins A) : extract OPartitionAndSums b = OutBins b.
  Proof. reflexivity. Qed.

  (** the derived outputs are mutually consistent: everything follows from the sorted sums
      (this is how compare_algorithms uses them: SortedSums first, then
      outputtype.extract_output_from_sums) *)
  Lemma derive_sorted (o : outtype) (s : list Z) :
    keeps o = false -> o <> OSums ->
    @derive A o (sort_asc (fun x => x) s) = derive o s.
  Proof.
    intros Hk Ho. pose proof (sort_asc_perm (fun x : Z => x) s) as HP.
    destruct o; try discriminate Hk; try congruence; cbn [derive].
    - rewrite (zmax_perm _ _ HP). reflexivity.
    - rewrite (zmin_perm _ _ HP). reflexivity.
    - rewrite (zmax_perm _ _ HP), (zmin_perm _ _ HP). reflexivity.
    - rewrite sort_asc_idem. reflexivity.
    - rewrite (zmax_perm _ _ HP), (zmin_perm _ _ HP). reflexivity.
    - rewrite sort_asc_length. reflexivity.
  Qed.
End Extract.

(** ---------------------------------------------------------------------------------- *)
(** * d. what the reported sums are                                                     *)
(** ---------------------------------------------------------------------------------- *)
Section WfSums.
  Context {A : Type} (valueof : A -> Z).

  (** every reported sum is the total value of the reported items *)
  Lemma wf_erase_sums (b : bins A) :
    wf valueof b -> Forall (fun bn => fst bn = zsum (map valueof (snd bn))) b.
  Proof. intros H. exact H. Qed.

  (** the Sums output is computed from the Partition output by adding up each bin *)
  Lemma wf_sums_lists (b : bins A) :
    wf valueof b -> sums b = map (fun l => zsum (map valueof l)) (lists b).
  Proof.
    unfold sums, lists. intros H. rewrite map_map.
    induction H as [|bn t Hb Ht IH]; cbn [map]; [reflexivity|]. rewrite IH. f_equal. exact Hb.
  Qed.

  (** ... also after the contents have been forgotten *)
  Lemma wf_erase_sums_lists (b : bins A) :
    wf valueof b -> sums (erase b) = map (fun l => zsum (map valueof l)) (lists b).
  Proof. intros H. rewrite sums_erase. apply wf_sums_lists. exact H. Qed.
End WfSums.

(** ---------------------------------------------------------------------------------- *)
(** * c. the C06 schema                                                                 *)
(** ---------------------------------------------------------------------------------- *)
Section Schema.
  Context {A : Type}.

  (** algorithms that always return a bins-array *)
  Theorem C06_schema (alg : bool -> bins A) :
    erase (alg true) = alg false ->
    forall o, keeps o = false -> run_output o alg = derive o (sums (alg true)).
  Proof.
    intros He o Hk. unfold run_output. rewrite Hk, <- He. apply extract_erase. exact Hk.
  Qed.

  (** the cheap run gives what the same extractor gives on the full run *)
  Corollary C06_schema_extract (alg : bool -> bins A) :
    erase (alg true) = alg false ->
    forall o, keeps o = false -> run_output o alg = extract o (alg true).
  Proof. intros He o Hk. rewrite (C06_schema alg He o Hk). symmetry. apply extract_derive. exact Hk. Qed.

  (** phrased with the two outputs a caller can actually observe *)
  Corollary C06_schema_observed (alg : bool -> bins A) :
    erase (alg true) = alg false ->
    forall o full, keeps o = false ->
      run_output OPartitionAndSums alg = OutBins full ->
      run_output o alg = derive o (sums full).
  Proof.
    intros He o full Hk Hfull. unfold run_output in Hfull. cbn [keeps extract] in Hfull.
    injection Hfull as <-. apply C06_schema; assumption.
  Qed.

  (** from the plain Partition output (lists only), when the sums are the totals *)
  Corollary C06_schema_lists (valueof : A -> Z) (alg : bool -> bins A) :
    erase (alg true) = alg false -> wf valueof (alg true) ->
    forall o ls, keeps o = false ->
      run_output OPartition alg = OutLists ls ->
      run_output o alg = derive o (map (fun l => zsum (map valueof l)) ls).
  Proof.
    intros He Hwf o ls Hk Hls. unfold run_output in Hls. cbn [keeps extract] in Hls.
    injection Hls as <-. rewrite <- (wf_sums_lists valueof _ Hwf). apply C06_schema; assumption.
  Qed.

  (** algorithms that may raise *)
  Theorem C06_schema_r (alg : bool -> result (bins A)) :
    rmap erase (alg true) = alg false ->
    forall o, keeps o = false ->
      run_output_r o alg = rmap (fun b => derive o (sums b)) (alg true).
  Proof.
    intros He o Hk. unfold run_output_r. rewrite Hk, <- He.
    destruct (alg true) as [b|e]; cbn [rmap]; [|reflexivity].
    rewrite extract_erase by exact Hk. reflexivity.
  Qed.

  Corollary C06_schema_r_ok (alg : bool -> result (bins A)) :
    rmap erase (alg true) = alg false ->
    forall o full, keeps o = false -> alg true = Ok full ->
      run_output_r o alg = Ok (derive o (sums full)).
  Proof. intros He o full Hk Hfull. rewrite (C06_schema_r alg He o Hk), Hfull. reflexivity. Qed.

  (** the cheap run raises exactly when the full run raises, with the same error *)
  Corollary C06_schema_r_err (alg : bool -> result (bins A)) :
    rmap erase (alg true) = alg false ->
    forall o e, keeps o = false -> alg true = Err e -> run_output_r o alg = Err e.
  Proof. intros He o e Hk Hfull. rewrite (C06_schema_r alg He o Hk), Hfull. reflexivity. Qed.

  (** algorithms that may return None *)
  Theorem C06_schema_o (alg : bool -> option (bins A)) :
    option_map erase (alg true) = alg false ->
    forall o, keeps o = false ->
      run_output_o o alg = option_map (fun b => derive o (sums b)) (alg true).
  Proof.
    intros He o Hk. unfold run_output_o. rewrite Hk, <- He.
    destruct (alg true) as [b|]; cbn [option_map]; [|reflexivity].
    rewrite extract_erase by exact Hk. reflexivity.
  Qed.

  (** an algorithm that ignores the manager it is given (cbldm) *)
  Theorem C06_schema_const (b : bins A) :
    forall o, keeps o = false -> run_output o (fun _ => b) = derive o (sums b).
  Proof. intros o Hk. unfold run_output. apply extract_derive. exact Hk. Qed.
End Schema.

(** ---------------------------------------------------------------------------------- *)
(** * c. instances                                                                      *)
(** ---------------------------------------------------------------------------------- *)
Section Instances.
  Context {A : Type} (valueof : A -> Z).

  (** ---- partitioning heuristics ---- *)
  Theorem C06_greedy : forall o k items, keeps o = false ->
    run_partition o (@greedy A) valueof k items = derive o (sums (greedy valueof true k items)).
  Proof.
    intros o k items Hk. unfold run_partition.
    apply (C06_schema (fun keep => greedy valueof keep k items)); [apply greedy_erase|exact Hk].
  Qed.

  Theorem C06_roundrobin : forall o k items, keeps o = false ->
    run_partition o (@roundrobin A) valueof k items = derive o (sums (roundrobin valueof true k items)).
  Proof.
    intros o k items Hk. unfold run_partition.
    apply (C06_schema (fun keep => roundrobin valueof keep k items)); [apply roundrobin_erase|exact Hk].
  Qed.

  Theorem C06_kk : forall o k items, keeps o = false ->
    run_partition_r o (@kk A) valueof k items =
    rmap (fun b => derive o (sums b)) (kk valueof true k items).
  Proof.
    intros o k items Hk. unfold run_partition_r.
    apply (C06_schema_r (fun keep => kk valueof keep k items)); [apply kk_erase|exact Hk].
  Qed.

  (** complete greedy, any objective, any flags; the limit is a number of loop iterations
      in the model, so the statement holds for every limit (in particular for None) *)
  Theorem C06_cg : forall o obj flags limit k items, keeps o = false ->
    run_output_o o (fun keep => cg valueof keep obj flags limit k items) =
    option_map (fun b => derive o (sums b)) (cg valueof true obj flags limit k items).
  Proof.
    intros o obj flags limit k items Hk.
    apply (C06_schema_o (fun keep => cg valueof keep obj flags limit k items)); [apply cg_erase|exact Hk].
  Qed.

  Theorem C06_dp : forall o obj k items, keeps o = false ->
    run_output_r o (fun keep => dp valueof keep obj k items) =
    rmap (fun b => derive o (sums b)) (dp valueof true obj k items).
  Proof.
    intros o obj k items Hk.
    apply (C06_schema_r (fun keep => dp valueof keep obj k items)); [apply dp_erase|exact Hk].
  Qed.

  (** ---- packing ---- *)
  Theorem C06_first_fit : forall o C items, keeps o = false ->
    run_pack_r o (@first_fit A) valueof C items =
    rmap (fun b => derive o (sums b)) (first_fit valueof true C items).
  Proof.
    intros o C items Hk. unfold run_pack_r.
    apply (C06_schema_r (fun keep => first_fit valueof keep C items)); [apply ff_erase|exact Hk].
  Qed.

  Theorem C06_first_fit_decreasing : forall o C items, keeps o = false ->
    run_pack_r o (@first_fit_decreasing A) valueof C items =
    rmap (fun b => derive o (sums b)) (first_fit_decreasing valueof true C items).
  Proof.
    intros o C items Hk. unfold run_pack_r.
    apply (C06_schema_r (fun keep => first_fit_decreasing valueof keep C items)); [apply ffd_erase|exact Hk].
  Qed.

  Theorem C06_best_fit : forall o C items, keeps o = false ->
    run_pack_r o (@best_fit A) valueof C items =
    rmap (fun b => derive o (sums b)) (best_fit valueof true C items).
  Proof.
    intros o C items Hk. unfold run_pack_r.
    apply (C06_schema_r (fun keep => best_fit valueof keep C items)); [apply bf_erase|exact Hk].
  Qed.

  Theorem C06_best_fit_decreasing : forall o C items, keeps o = false ->
    run_pack_r o (@best_fit_decreasing A) valueof C items =
    rmap (fun b => derive o (sums b)) (best_fit_decreasing valueof true C items).
  Proof.
    intros o C items Hk. unfold run_pack_r.
    apply (C06_schema_r (fun keep => best_fit_decreasing valueof keep C items)); [apply bfd_erase|exact Hk].
  Qed.

  (** ---- covering ---- *)
  Theorem C06_cover_decreasing : forall o C items, keeps o = false ->
    run_pack o (@cover_decreasing A) valueof C items =
    derive o (sums (cover_decreasing valueof true C items)).
  Proof.
    intros o C items Hk. unfold run_pack.
    apply (C06_schema (fun keep => cover_decreasing valueof keep C items)); [apply dec_erase|exact Hk].
  Qed.

  Theorem C06_cover_twothirds : forall o C items, keeps o = false ->
    run_pack o (@cover_twothirds A) valueof C items =
    derive o (sums (cover_twothirds valueof true C items)).
  Proof.
    intros o C items Hk. unfold run_pack.
    apply (C06_schema (fun keep => cover_twothirds valueof keep C items)); [apply tt_erase|exact Hk].
  Qed.

  Theorem C06_cover_threequarters : forall o C items, keeps o = false ->
    run_pack o (@cover_threequarters A) valueof C items =
    derive o (sums (cover_threequarters valueof true C items)).
  Proof.
    intros o C items Hk. unfold run_pack.
    apply (C06_schema (fun keep => cover_threequarters valueof keep C items)); [apply tq_erase|exact Hk].
  Qed.

  (** ---- from the plain Partition output: the sums are the totals of the lists ---- *)
  Theorem C06_greedy_lists : forall o k items ls, (1 <= k)%nat -> keeps o = false ->
    run_partition OPartition (@greedy A) valueof k items = OutLists ls ->
    run_partition o (@greedy A) valueof k items = derive o (map (fun l => zsum (map valueof l)) ls).
  Proof.
    intros o k items ls Hk1 Hk Hls. unfold run_partition in *.
    apply (C06_schema_lists valueof (fun keep => greedy valueof keep k items));
      [apply greedy_erase| |exact Hk|exact Hls].
    destruct (greedy_partition valueof k items Hk1) as (_ & _ & Hwf). exact Hwf.
  Qed.

  (** ---- cbldm: the Python replaces the manager it is given by a BinnerKeepingContents,
      so the bins-array handed to extract_output_from_binsarray is the (sums, lists) pair
      whatever the output type.  Sums.extract_output_from_binsarray then takes the branch
      "bins[0][0] succeeds" and reads the sums of that pair: every sums-family output is
      the documented function of the sums of the very partition that OPartition returns.
      (When the time limit fires before any leaf is reached, the Python returns the
      placeholder ([0,inf],[0,inf]), which the same branch reads as sums [0, inf];
      the model has no bins-array in that case: CbPlaceholder.) *)
  Theorem C06_cbldm : forall o k items tl d dint limit b n, keeps o = false ->
    cbldm valueof k items tl d dint limit = Ok (CbBins b, n) ->
    run_output o (fun _ : bool => b) = derive o (sums b) /\
    run_output OPartition (fun _ : bool => b) = OutLists (lists b).
  Proof.
    intros o k items tl d dint limit b n Hk _. split; [|reflexivity].
    apply C06_schema_const. exact Hk.
  Qed.
End Instances.

(** bin completion works on plain numbers *)
Theorem C06_bin_completion : forall o C fuel items, keeps o = false ->
  run_output_r o (fun keep => bin_completion keep C fuel items) =
  rmap (fun b => derive o (sums b)) (bin_completion true C fuel items).
Proof.
  intros o C fuel items Hk.
  apply (C06_schema_r (fun keep => bin_completion keep C fuel items)); [apply bc_erase|exact Hk].
Qed.

(** ---------------------------------------------------------------------------------- *)
(** * a. complete Karmarkar-Karp: the two managers explore the same tree                *)
(** ---------------------------------------------------------------------------------- *)
(** BinnerKeepingContents.all_combinations de-duplicates by the sorted item names of the
    bins, BinnerKeepingSums.all_combinations by the sorted sums, so the two managers yield
    different lists of combinations.  The search skips a combination whose vector of
    sums was already seen at this node ([ckk_children] = [dedup_sums] of [all_combinations]).
    When items with equal names have equal values ([names_ok]) equal name keys imply equal
    sums, so the first representative of every sums-class survives the de-duplication by
    names and the children of a node are, for both managers, the first representatives of the
    sums-classes of the pairings, in the order of [perms]: [ckk_children_erase].  The two runs
    are then in lock step ([KKProofs.explore_map]): same heaps up to erasure, same incumbent,
    same number of nodes, same yields.  Proved here, for EVERY number of bins:
      - [ckk_erase]  :  rmap erase (ckk true k items) = ckk false k items ;
      - [ckk_generator_erase] (every mode), [ckk_nodes_erase] ;
      - [ckk_sums_partition], [ckk_sums_optimal]: the sums manager on its own (it never reads
        the names: [ckk_sums_any_names]) returns the sums of a genuine partition, of minimum
        difference (no hypothesis on names).
    The hypothesis [names_ok] cannot be dropped ([ckk_erase_needs_names_ok]). *)
Section CKKSums.
  Context {A : Type} (valueof nameof : A -> Z).
  Local Notation nonneg := (Forall (fun x : A => 0 <= valueof x)).

  Lemma combo_of_perm_erase (b1 b2 : bins A) p :
    combo_of_perm nameof false (erase b1) (erase b2) p = erase (combo_of_perm nameof true b1 b2 p).
  Proof. symmetry. apply (map_combo_of_perm (fun x => (fst x, @nil A))); reflexivity. Qed.

  (** ---- the de-duplication key of the sums manager is the vector of sums ---- *)
  Definition wrap (s : list Z) : list (list Z) := map (fun z => [z]) s.

  Lemma wrap_inj : forall s t, wrap s = wrap t -> s = t.
  Proof.
    induction s as [|x s IH]; intros [|y t] H; cbn [wrap map] in H; try discriminate; [reflexivity|].
    injection H as H1 H2. f_equal; [exact H1|apply IH; exact H2].
  Qed.

  Lemma combo_key_false (b : bins A) : combo_key nameof false b = wrap (sums b).
  Proof. unfold combo_key, wrap, sums. rewrite map_map. reflexivity. Qed.

  Lemma in_map_wrap s seen : In (wrap s) (map wrap seen) <-> In s seen.
  Proof.
    split; [|apply in_map].
    intros H. apply in_map_iff in H. destruct H as (t & E & Ht). apply wrap_inj in E. subst t. exact Ht.
  Qed.

  Lemma dedup_false_sums (l : list (bins A)) : forall seen,
    dedup_combos nameof false (map wrap seen) l = dedup_sums seen l.
  Proof.
    induction l as [|b t IH]; intros seen; [reflexivity|].
    rewrite dedup_unfold, dedup_sums_unfold, combo_key_false.
    assert (E : existsb (key_eqb (wrap (sums b))) (map wrap seen) =
                existsb (list_eqb Z.eqb (sums b)) seen).
    { apply Bool.eq_true_iff_eq. rewrite existsb_key_In, existsb_sums_In. apply in_map_wrap. }
    rewrite E. destruct (existsb (list_eqb Z.eqb (sums b)) seen); [apply IH|].
    f_equal. apply (IH (sums b :: seen)).
  Qed.

  Lemma dedup_sums_idem (l : list (bins A)) : forall seen,
    dedup_sums seen (dedup_sums seen l) = dedup_sums seen l.
  Proof.
    induction l as [|b t IH]; intros seen; [reflexivity|].
    rewrite dedup_sums_unfold.
    destruct (existsb (list_eqb Z.eqb (sums b)) seen) eqn:E; [apply IH|].
    rewrite dedup_sums_unfold, E. f_equal. apply IH.
  Qed.

  Lemma ckk_children_false (b1 b2 : bins A) :
    ckk_children nameof false b1 b2 =
    dedup_sums [] (map (combo_of_perm nameof false b1 b2) (perms (length b1))).
  Proof.
    unfold ckk_children, all_combinations. change (@nil (list (list Z))) with (map wrap []).
    rewrite dedup_false_sums. apply dedup_sums_idem.
  Qed.

  (** de-duplicating by names first does not change the de-duplication by sums, as long as
      equal name keys imply equal sums *)
  Section TwoKeys.
    Variable Q : bins A -> Prop.
    Hypothesis HQ : forall x y, Q x -> Q y ->
      combo_key nameof true x = combo_key nameof true y -> sums x = sums y.

    Lemma dedup_sums_dedup_combos (l : list (bins A)) : forall seen1 seen2, Forall Q l ->
      (forall x, In x l -> In (combo_key nameof true x) seen1 -> In (sums x) seen2) ->
      dedup_sums seen2 (dedup_combos nameof true seen1 l) = dedup_sums seen2 l.
    Proof.
      induction l as [|b t IH]; intros s1 s2 HF HI; [reflexivity|].
      pose proof (Forall_inv HF) as Qb. pose proof (Forall_inv_tail HF) as Qt.
      rewrite dedup_unfold, (dedup_sums_unfold s2 b t).
      destruct (existsb (key_eqb (combo_key nameof true b)) s1) eqn:E1.
      - apply existsb_key_In in E1.
        assert (E2 : In (sums b) s2) by (apply HI; [left; reflexivity|exact E1]).
        apply existsb_sums_In in E2. rewrite E2.
        apply IH; [exact Qt|]. intros x Hx. apply HI. right. exact Hx.
      - rewrite dedup_sums_unfold.
        destruct (existsb (list_eqb Z.eqb (sums b)) s2) eqn:E2.
        + apply IH; [exact Qt|]. intros x Hx [Hk|Hk].
          * apply existsb_sums_In in E2.
            rewrite <- (HQ b x Qb (proj1 (Forall_forall Q t) Qt x Hx) Hk). exact E2.
          * apply HI; [right; exact Hx|exact Hk].
        + f_equal. apply IH; [exact Qt|]. intros x Hx [Hk|Hk].
          * left. apply HQ; [exact Qb|exact (proj1 (Forall_forall Q t) Qt x Hx)|exact Hk].
          * right. apply HI; [right; exact Hx|exact Hk].
    Qed.
  End TwoKeys.

  (** a combination: well formed, made of the given items, sorted by sum *)
  Definition combo_ok (its : list A) (c : bins A) : Prop :=
    wf valueof c /\ Forall (fun x => In x its) (contents c) /\ StronglySorted Z.le (sums c).

  Lemma combo_ok_key its : names_ok valueof nameof its -> forall x y,
    combo_ok its x -> combo_ok its y ->
    combo_key nameof true x = combo_key nameof true y -> sums x = sums y.
  Proof.
    intros HN x y (Wx & Ix & Sx) (Wy & Iy & Sy) HK.
    apply ObjectivesProofs.sorted_perm_eq; [exact Sx|exact Sy|].
    apply (key_eq_sums_perm valueof nameof its); assumption.
  Qed.

  Lemma ckk_children_true_eq k its (b1 b2 : bins A) : names_ok valueof nameof its ->
    length b1 = k -> length b2 = k -> wf valueof b1 -> wf valueof b2 ->
    Forall (fun x => In x its) (contents b1) -> Forall (fun x => In x its) (contents b2) ->
    ckk_children nameof true b1 b2 =
    dedup_sums [] (map (combo_of_perm nameof true b1 b2) (perms (length b1))).
  Proof.
    intros HN L1 L2 W1 W2 I1 I2. unfold ckk_children, all_combinations.
    apply (dedup_sums_dedup_combos (combo_ok its) (combo_ok_key its HN)).
    - apply Forall_forall. intros c Hc. apply in_map_iff in Hc.
      destruct Hc as (p & <- & Hp). apply perms_spec in Hp. rewrite L1 in Hp.
      destruct (combo_of_perm_ok valueof nameof k b1 b2 p L1 L2 W1 W2 Hp) as (_ & Wc & Pc).
      split; [exact Wc|]. split.
      + eapply Permutation_Forall; [symmetry; exact Pc|]. apply Forall_app. split; assumption.
      + rewrite combo_of_perm_eq. apply sort_bins_sorted.
    - intros x _ [].
  Qed.

  Lemma ckk_children_erase k its (b1 b2 : bins A) : names_ok valueof nameof its ->
    length b1 = k -> length b2 = k -> wf valueof b1 -> wf valueof b2 ->
    Forall (fun x => In x its) (contents b1) -> Forall (fun x => In x its) (contents b2) ->
    ckk_children nameof false (erase b1) (erase b2) = map erase (ckk_children nameof true b1 b2).
  Proof.
    intros HN L1 L2 W1 W2 I1 I2.
    rewrite ckk_children_false, length_erase, (ckk_children_true_eq k its b1 b2) by assumption.
    rewrite <- (dedup_sums_map erase (@erase_sums A)), map_map. f_equal.
    apply map_ext. intros p. apply combo_of_perm_erase.
  Qed.

  (** ---- the two runs are in lock step ---- *)
  Definition entry_its (k : nat) (its : list A) (e : @hentry A) : Prop :=
    length (snd e) = k /\ wf valueof (snd e) /\ Forall (fun x => In x its) (contents (snd e)).

  Lemma entry_its_push k its (b : bins A) :
    length b = k -> wf valueof b -> Forall (fun x => In x its) (contents b) ->
    entry_its k its (- bins_diff (sort_bins b), sort_bins b).
  Proof.
    intros Lb Wb Ib. unfold entry_its. cbn [snd]. split; [|split].
    - rewrite sort_bins_length. exact Lb.
    - apply sort_bins_wf. exact Wb.
    - eapply Permutation_Forall; [symmetry; apply sort_bins_contents|exact Ib].
  Qed.

  Lemma entry_its_child k its e1 e2 rest c :
    Forall (entry_its k its) (e1 :: e2 :: rest) ->
    In c (ckk_children nameof true (snd e1) (snd e2)) ->
    Forall (entry_its k its) (heap_push rest c).
  Proof.
    intros HF Hc. destruct (Forall_inv HF) as (L1 & W1 & I1).
    destruct (Forall_inv (Forall_inv_tail HF)) as (L2 & W2 & I2).
    apply ckk_children_sound in Hc.
    destruct (all_combinations_ok valueof nameof k _ _ c L1 L2 W1 W2 Hc) as (Lc & Wc & Pc).
    apply heap_push_Forall; [exact (Forall_inv_tail (Forall_inv_tail HF))|].
    apply entry_its_push; [exact Lc|exact Wc|].
    eapply Permutation_Forall; [symmetry; exact Pc|]. apply Forall_app. split; assumption.
  Qed.

  (** the initial heap *)
  Lemma singleton_bins_items k x its : In x its ->
    Forall (fun y => In y its) (contents (singleton_bins valueof true k x)).
  Proof.
    intros Hx. destruct k as [|n].
    - unfold singleton_bins, add_item. cbn. constructor.
    - rewrite (singleton_bins_contents valueof (S n) x) by lia. constructor; [exact Hx|constructor].
  Qed.

  Lemma initial_heap_its k items : Forall (entry_its k items) (initial_heap valueof true k items).
  Proof.
    apply initial_heap_Forall_items, Forall_forall. intros x Hx. apply entry_its_push.
    - apply singleton_bins_length.
    - apply singleton_bins_wf.
    - apply singleton_bins_items. exact Hx.
  Qed.

  (** A map [g] of the bins-arrays of the contents run into those of another run (forgetting the
      contents, reading the values) carries the whole search along as soon as it maps the children
      of a node to the children of its image, on the nodes the run can reach. *)
  Lemma ckk_contents_run_map {B} (g : bins A -> bins B) (vB nB : B -> Z) (kB : bool) (pi : A -> B)
        mode init k items :
    (forall b, sums (g b) = sums b) -> (forall b, g (sort_bins b) = sort_bins (g b)) ->
    (forall x, vB (pi x) = valueof x) ->
    (forall n x, g (singleton_bins valueof true n x) = singleton_bins vB kB n (pi x)) ->
    (forall b1 b2, length b1 = k -> length b2 = k -> wf valueof b1 -> wf valueof b2 ->
       Forall (fun x => In x items) (contents b1) -> Forall (fun x => In x items) (contents b2) ->
       ckk_children nB kB (g b1) (g b2) = map g (ckk_children nameof true b1 b2)) ->
    map_state g (ckk_run valueof nameof true mode init k items) = ckk_run vB nB kB mode init k (map pi items).
  Proof.
    intros Hsums Hsort Hv Hsing Hch.
    apply (ckk_run_map g Hsums Hsort valueof vB pi true kB Hv Hsing nameof nB (Forall (entry_its k items))).
    - intros e1 e2 rest HF. destruct (Forall_inv HF) as (L1 & W1 & I1).
      destruct (Forall_inv (Forall_inv_tail HF)) as (L2 & W2 & I2). apply Hch; assumption.
    - intros e1 e2 rest c. apply entry_its_child.
    - apply initial_heap_its.
  Qed.

  Theorem ckk_run_erase mode init k items : names_ok valueof nameof items ->
    ckk_run valueof nameof false mode init k items =
    map_state erase (ckk_run valueof nameof true mode init k items).
  Proof.
    intros HN. rewrite <- (map_id items) at 1. symmetry.
    apply (ckk_contents_run_map erase valueof nameof false (fun x => x)).
    - apply erase_sums.
    - intros b. symmetry. apply sort_bins_erase.
    - reflexivity.
    - intros n x. symmetry. apply singleton_bins_erase.
    - intros b1 b2 L1 L2 W1 W2 I1 I2. apply (ckk_children_erase k items); assumption.
  Qed.

  (** the exact agreement of the two managers, any number of bins *)
  Theorem ckk_erase : forall k items, names_ok valueof nameof items ->
    rmap erase (ckk valueof nameof true k items) = ckk valueof nameof false k items.
  Proof.
    intros k items HN. apply ckk_of_run; [intros b; symmetry; apply sort_bins_erase|].
    symmetry. apply ckk_run_erase. exact HN.
  Qed.

  (** two bins: what snp and rnp run at their leaves *)
  Theorem ckk_erase_2 : forall items, nonneg items -> names_ok valueof nameof items ->
    rmap erase (ckk valueof nameof true 2 items) = ckk valueof nameof false 2 items.
  Proof. intros items _ HN. apply ckk_erase. exact HN. Qed.

  Corollary ckk_erase_sums : forall k items, names_ok valueof nameof items ->
    rmap sums (ckk valueof nameof true k items) = rmap sums (ckk valueof nameof false k items).
  Proof.
    intros k items HN. rewrite <- (ckk_erase k items HN). symmetry. apply rmap_sums_erase.
  Qed.

  (** the generator, every mode: the same partitions are yielded, in the same order *)
  Theorem ckk_generator_erase : forall k items init, names_ok valueof nameof items ->
    map erase (ckk_generator valueof nameof true k items init) =
    ckk_generator valueof nameof false k items init.
  Proof.
    intros k items init HN. apply ckk_generator_of_run. intros mode. symmetry. apply ckk_run_erase. exact HN.
  Qed.

  (** the two searches pop the same number of heaps *)
  Corollary ckk_nodes_erase : forall mode init k items, names_ok valueof nameof items ->
    ckk_nodes (ckk_run valueof nameof false mode init k items) =
    ckk_nodes (ckk_run valueof nameof true mode init k items).
  Proof. intros mode init k items HN. rewrite (ckk_run_erase mode init k items HN). reflexivity. Qed.
End CKKSums.

(** the sums manager never reads the names *)
Lemma ckk_run_sums_any_names {A} (valueof nameof nameof' : A -> Z) mode init k items :
  ckk_run valueof nameof false mode init k items = ckk_run valueof nameof' false mode init k items.
Proof. reflexivity. Qed.

Lemma ckk_sums_any_names {A} (valueof nameof nameof' : A -> Z) k items :
  ckk valueof nameof false k items = ckk valueof nameof' false k items.
Proof. reflexivity. Qed.

Section CKKSumsManager.
  Context {A : Type} (valueof nameof : A -> Z).
  Local Notation nonneg := (Forall (fun x : A => 0 <= valueof x)).

  (** hence, whatever the names, its run is the erasure of the contents run with names := values *)
  Lemma ckk_sums_as_values k items :
    ckk valueof nameof false k items = rmap erase (ckk valueof valueof true k items).
  Proof.
    rewrite (ckk_erase valueof valueof k items (names_ok_values valueof items)). reflexivity.
  Qed.

  (** C01 for the sums manager: the reported sums are those of a genuine partition *)
  Theorem ckk_sums_partition : forall k items, (1 <= k)%nat -> items <> [] ->
    exists bt, is_partition valueof k items bt /\ StronglySorted Z.le (sums bt) /\
               ckk valueof nameof false k items = Ok (erase bt).
  Proof.
    intros k items Hk Hne. rewrite ckk_sums_as_values.
    destruct (ckk_partition valueof valueof k items Hk Hne) as (bt & Et & Hpt).
    exists bt. split; [exact Hpt|]. split; [|rewrite Et; reflexivity].
    unfold ckk in Et. destruct (ckk_part _) as [b|]; [|discriminate Et]. injection Et as <-.
    apply sort_bins_sorted.
  Qed.

  (** C02 for the sums manager (no hypothesis on names: it never looks at them) *)
  Theorem ckk_sums_optimal : forall k items b, (1 <= k)%nat -> items <> [] -> nonneg items ->
    ckk valueof nameof false k items = Ok b ->
    Opt MinDiff k (map valueof items) (value MinDiff (sums b) false).
  Proof.
    intros k items b Hk Hne Hpos Hckk. rewrite ckk_sums_as_values in Hckk.
    destruct (ckk valueof valueof true k items) as [bt|e] eqn:Et; [|discriminate Hckk].
    cbn [rmap] in Hckk. injection Hckk as <-. rewrite sums_erase.
    apply (ckk_optimal_values valueof k items bt Hk Hne Hpos Et).
  Qed.
End CKKSumsManager.

(** ---------------------------------------------------------------------------------- *)
(** * a. snp and rnp                                                                    *)
(** ---------------------------------------------------------------------------------- *)
(** Both algorithms only consult the manager through the sums, bin_of / the final
    concatenations, and the two-way ckk at the leaves; rnp's even case always runs the
    generator with a contents manager.  Two runs on related inputs are therefore in lock step
    ([snp_rnp_sim]); with [ckk_erase] for the leaves the erase equation is exact and needs
    [names_ok] only ([snp_rnp_erase]). *)
Section SNPUnfold.
  Context {A : Type} (valueof nameof : A -> Z).
  Local Notation vsum := (vsum valueof).

  Lemma distinct_in_order_incl : forall l seen, incl (distinct_in_order nameof l seen) l.
  Proof.
    induction l as [|x t IH]; intros seen y Hy; cbn [distinct_in_order] in Hy; [destruct Hy|].
    destruct (existsb (item_eqb nameof x) seen).
    - right. exact (IH _ _ Hy).
    - destruct Hy as [<-|Hy]; [left; reflexivity|right; exact (IH _ _ Hy)].
  Qed.

  Lemma find_diff_incl l1 l2 : incl (find_diff nameof l1 l2) l1.
  Proof.
    intros y Hy. unfold find_diff in Hy. apply in_flat_map in Hy. destruct Hy as (x & Hx & Hy).
    apply repeat_spec in Hy. subst y. exact (distinct_in_order_incl _ _ _ Hx).
  Qed.

  Lemma fold_add_keep keep l : forall b : bin A,
    fold_left (fun b x => add_to_bin valueof keep x b) l b =
    (fst b + vsum l, if keep then snd b ++ l else snd b).
  Proof.
    induction l as [|x t IH]; intros b; cbn [fold_left].
    - unfold InExTree.vsum. cbn [map zsum fold_right]. rewrite Z.add_0_r.
      destruct keep; [rewrite app_nil_r|]; destruct b; reflexivity.
    - rewrite IH. unfold add_to_bin, InExTree.vsum. cbn [fst snd map zsum fold_right].
      unfold zsum. f_equal; [lia|]. destruct keep; [rewrite <- app_assoc; reflexivity|reflexivity].
  Qed.

  Lemma bin_of_keep keep l : bin_of valueof keep l = (vsum l, if keep then l else []).
  Proof. unfold bin_of. rewrite fold_add_keep. destruct keep; reflexivity. Qed.

  (** ---- the recursions, one level unfolded ---- *)
  Lemma snp_rec_2 keep prior items best :
    snp_rec valueof nameof keep 2 prior items best =
    match ckk valueof nameof keep 2 items with
    | Ok two => if spread (sums two ++ sums prior) <? bins_spread best then two ++ prior else best
    | Err _ => best
    end.
  Proof. reflexivity. Qed.

  Lemma snp_rec_3 keep n prior items best :
    snp_rec valueof nameof keep (S (S (S n))) prior items best =
    snp_dfs valueof
      (fun cur b => snp_rec valueof nameof keep (S (S n)) (prior ++ [bin_of valueof keep cur])
                      (find_diff nameof items cur) b)
      (Z.of_nat (S (S (S n)))) (vsum items) (sort_desc valueof items) [] best.
  Proof. reflexivity. Qed.

  Definition rnp_next_odd (keep : bool) (f kc : nat) (isfloat : bool) (prior : bins A) (items : list A)
             (cur : list A) (best : bins A) : result (bins A) :=
    if isfloat && negb (Nat.eqb (length cur) 0) then Err IndexError
    else
      let prior' := prior ++ [bin_of valueof keep cur] in
      match rnp_rec valueof nameof keep f (kc - 1) isfloat prior' (find_diff nameof items cur) best with
      | Err e => Err e
      | Ok nb =>
          if spread (sums nb ++ sums prior') <? bins_spread best
          then Ok (prior' ++ nb) else Ok best
      end.

  Definition rnp_step_even (keep : bool) (f kc : nat) (prior : bins A) (d0 : Z)
             (acc : result (bins A)) (part : bins A) : result (bins A) :=
    match acc with
    | Err e => Err e
    | Ok best =>
        let l1 := snd (nth 0 part empty_bin) in
        let l2 := snd (nth 1 part empty_bin) in
        match rnp_rec valueof nameof keep f (Nat.div kc 2) true prior l1 best with
        | Err e => Err e
        | Ok nb1 =>
            match rnp_rec valueof nameof keep f (Nat.div kc 2) true prior l2 best with
            | Err e => Err e
            | Ok nb2 =>
                if spread (sums nb1 ++ sums nb2) <? d0 then Ok (nb1 ++ nb2) else Ok best
            end
        end
    end.

  Lemma rnp_rec_S keep f kc isfloat prior items best :
    rnp_rec valueof nameof keep (S f) kc isfloat prior items best =
    if Nat.eqb kc 2 then ckk valueof nameof keep 2 items
    else if Nat.odd kc then
      rnp_dfs valueof (rnp_next_odd keep f kc isfloat prior items)
              (Z.of_nat kc) (vsum items) (bins_spread best) (sort_desc valueof items) [] best
    else
      fold_left (rnp_step_even keep f kc prior (bins_spread best))
                (ckk_generator valueof nameof true 2 items (Some (- bins_spread best))) (Ok best).
  Proof. reflexivity. Qed.

  Lemma nth_snd_incl (part : bins A) : forall i, incl (snd (nth i part empty_bin)) (contents part).
  Proof.
    induction part as [|bn t IH]; intros i x Hx.
    - destruct i; destruct Hx.
    - rewrite contents_cons. apply in_or_app. destruct i as [|j]; cbn [nth] in Hx; [left; exact Hx|].
      right. exact (IH j x Hx).
  Qed.

  Lemma generator_parts_incl (items0 items' : list A) init part : incl items' items0 ->
    In part (ckk_generator valueof nameof true 2 items' init) ->
    forall i, incl (snd (nth i part empty_bin)) items0.
  Proof.
    intros Hi Hp i. pose proof (ckk_generator_valid_any valueof nameof 2 items' init part) as HV.
    destruct HV as (HP & _ & _); [lia|exact Hp|].
    intros x Hx. apply Hi. eapply Permutation_in; [exact HP|]. exact (nth_snd_incl part i x Hx).
  Qed.
End SNPUnfold.

(** The A-run and the B-run are related by a projection [pi] of the items that keeps their values,
    a projection [map pb] of the bins-arrays that keeps the sums, and a relation [R] between the
    remaining items of the two runs which every consumer respects: the total, the sorted list,
    find_diff, the two-way ckk and the two-way generator (whose partitions correspond through [gp]).
    Instances: contents manager / sums manager ([R] = equality: [snp_rnp_erase] below) and named
    items / plain values ([R] = the same multiset of values: Proofs/SNPNamesProofs.v). *)
Section Sim.
  Context {A B : Type} (vA nA : A -> Z) (kA : bool) (vB nB : B -> Z) (kB : bool).
  Variables (pi : A -> B) (pb : bin A -> bin B) (gp : bins A -> bins B) (R : list A -> list B -> Prop).
  Local Notation p := (map pb).

  Hypothesis pi_value : forall x, vB (pi x) = vA x.
  Hypothesis pb_fst : forall bn, fst (pb bn) = fst bn.
  Hypothesis pb_bin_of : forall cur, pb (bin_of vA kA cur) = bin_of vB kB (map pi cur).
  Hypothesis R_vsum : forall l lB, R l lB -> vsum vA l = vsum vB lB.
  Hypothesis R_sort : forall l lB, R l lB -> map pi (sort_desc vA l) = sort_desc vB lB.
  Hypothesis R_find_diff : forall l lB cur, R l lB -> (exists ex, Permutation (cur ++ ex) l) ->
    R (find_diff nA l cur) (find_diff nB lB (map pi cur)).
  Hypothesis R_ckk2 : forall l lB, R l lB -> rmap p (ckk vA nA kA 2 l) = ckk vB nB kB 2 lB.
  Hypothesis R_gen : forall l lB init, R l lB ->
    ckk_generator vB nB true 2 lB init = map gp (ckk_generator vA nA true 2 l init).
  Hypothesis R_part : forall l lB init part i, R l lB -> In part (ckk_generator vA nA true 2 l init) ->
    R (snd (nth i part empty_bin)) (snd (nth i (gp part) empty_bin)).

  Lemma vsum_pi (l : list A) : vsum vB (map pi l) = vsum vA l.
  Proof. unfold vsum. rewrite map_map. f_equal. apply map_ext. exact pi_value. Qed.

  Lemma p_sums (b : bins A) : sums (p b) = sums b.
  Proof. unfold sums. rewrite map_map. apply map_ext. exact pb_fst. Qed.

  Lemma p_spread (b : bins A) : bins_spread (p b) = bins_spread b.
  Proof. unfold bins_spread. rewrite p_sums. reflexivity. Qed.

  Lemma p_snoc (prior : bins A) (cur : list A) :
    p (prior ++ [bin_of vA kA cur]) = p prior ++ [bin_of vB kB (map pi cur)].
  Proof. rewrite map_app. cbn [map]. rewrite pb_bin_of. reflexivity. Qed.

  (** the inclusion/exclusion search of snp, the continuation being abstract; [cur] stays a
      sub-collection of [base] *)
  Lemma snp_dfs_sim (base : list A) nextA nextB kz t :
    (forall cur b, (exists ex, Permutation (cur ++ ex) base) ->
       p (nextA cur b) = nextB (map pi cur) (p b)) ->
    forall rest cur b, (exists ex, Permutation (cur ++ rest ++ ex) base) ->
      p (snp_dfs vA nextA kz t rest cur b) = snp_dfs vB nextB kz t (map pi rest) (map pi cur) (p b).
  Proof.
    intros Hn. induction rest as [|x r IH]; intros cur b Hsub.
    - cbn [map]. rewrite !snp_dfs_nil. unfold dfs_pruned. change (@nil B) with (map pi []).
      rewrite !vsum_pi, p_spread. destruct (_ || _); [reflexivity|].
      apply Hn. exact Hsub.
    - cbn [map]. rewrite !snp_dfs_cons. unfold dfs_pruned. change (pi x :: map pi r) with (map pi (x :: r)).
      rewrite !vsum_pi, p_spread.
      destruct (_ || _); [reflexivity|].
      rewrite (IH _ _ (within_skip _ _ _ _ Hsub)), (IH _ _ (within_take _ _ _ _ Hsub)), map_app. reflexivity.
  Qed.

  Lemma snp_rec_sim : forall kc prior l best lB, R l lB ->
    p (snp_rec vA nA kA kc prior l best) = snp_rec vB nB kB kc (p prior) lB (p best).
  Proof.
    induction kc as [|kc IH]; intros prior l best lB HR; [reflexivity|].
    destruct kc as [|[|n]]; [reflexivity| |].
    - rewrite !snp_rec_2, <- (R_ckk2 l lB HR).
      destruct (ckk vA nA kA 2 l) as [two|e]; cbn [rmap]; [|reflexivity].
      rewrite !p_sums, p_spread. destruct (_ <? _); [apply map_app|reflexivity].
    - rewrite !snp_rec_3, <- (R_vsum l lB HR), <- (R_sort l lB HR).
      change (@nil B) with (map pi []).
      apply (snp_dfs_sim l).
      + intros cur b Hsub. rewrite <- p_snoc. apply IH. apply R_find_diff; assumption.
      + apply within_start.
  Qed.

  Lemma rnp_dfs_sim (base : list A) nextA nextB kz t d0 :
    (forall cur b, (exists ex, Permutation (cur ++ ex) base) ->
       rmap p (nextA cur b) = nextB (map pi cur) (p b)) ->
    forall rest cur b, (exists ex, Permutation (cur ++ rest ++ ex) base) ->
      rmap p (rnp_dfs vA nextA kz t d0 rest cur b) =
      rnp_dfs vB nextB kz t d0 (map pi rest) (map pi cur) (p b).
  Proof.
    intros Hn. induction rest as [|x r IH]; intros cur b Hsub.
    - cbn [map rnp_dfs]. change (@nil B) with (map pi []). rewrite !vsum_pi.
      destruct (_ || _); [reflexivity|]. apply Hn. exact Hsub.
    - change (map pi (x :: r)) with (pi x :: map pi r). cbn [rnp_dfs].
      change (pi x :: map pi r) with (map pi (x :: r)). rewrite !vsum_pi.
      destruct (_ || _); [reflexivity|].
      rewrite <- (map_last pi cur x), <- (IH (cur ++ [x]) b (within_take _ _ _ _ Hsub)).
      destruct (rnp_dfs vA nextA kz t d0 r (cur ++ [x]) b) as [b1|e]; cbn [rmap]; [|reflexivity].
      exact (IH cur b1 (within_skip _ _ _ _ Hsub)).
  Qed.

  Lemma rnp_rec_sim : forall fuel kc isfloat prior l best lB, R l lB ->
    rmap p (rnp_rec vA nA kA fuel kc isfloat prior l best) =
    rnp_rec vB nB kB fuel kc isfloat (p prior) lB (p best).
  Proof.
    induction fuel as [|f IH]; intros kc isfloat prior l best lB HR; [reflexivity|].
    rewrite !rnp_rec_S, p_spread.
    destruct (Nat.eqb kc 2); [apply R_ckk2; exact HR|].
    destruct (Nat.odd kc).
    - rewrite <- (R_vsum l lB HR), <- (R_sort l lB HR). change (@nil B) with (map pi []).
      apply (rnp_dfs_sim l).
      + intros cur b Hsub. unfold rnp_next_odd. rewrite map_length.
        destruct (isfloat && negb (Nat.eqb (length cur) 0)); [reflexivity|]. cbv zeta.
        rewrite <- p_snoc, <- (IH (kc - 1)%nat isfloat _ _ b _ (R_find_diff l lB cur HR Hsub)).
        destruct (rnp_rec vA nA kA f (kc - 1) isfloat _ _ b) as [nb|e]; cbn [rmap]; [|reflexivity].
        rewrite !p_sums, p_spread. destruct (_ <? _); cbn [rmap]; [rewrite map_app|]; reflexivity.
      + apply within_start.
    - rewrite (R_gen l lB _ HR). change (Ok (p best)) with (rmap p (Ok best)).
      apply (fold_sim_cond (rmap p) gp
               (fun part => forall i, R (snd (nth i part empty_bin)) (snd (nth i (gp part) empty_bin)))).
      + intros acc part Hpart. destruct acc as [b|e]; cbn [rmap rnp_step_even]; [|reflexivity]. cbv zeta.
        rewrite <- (IH _ true prior _ b _ (Hpart 0%nat)), <- (IH _ true prior _ b _ (Hpart 1%nat)).
        destruct (rnp_rec vA nA kA f (Nat.div kc 2) true prior (snd (nth 0 part empty_bin)) b)
          as [nb1|e1]; cbn [rmap]; [|reflexivity].
        destruct (rnp_rec vA nA kA f (Nat.div kc 2) true prior (snd (nth 1 part empty_bin)) b)
          as [nb2|e2]; cbn [rmap]; [|reflexivity].
        rewrite !p_sums. destruct (_ <? _); cbn [rmap]; [rewrite map_app|]; reflexivity.
      + apply Forall_forall. intros part Hp i. exact (R_part l lB _ part i HR Hp).
  Qed.

  (** both algorithms start from the Karmarkar-Karp partition *)
  Theorem snp_rnp_sim (k : nat) (items : list A) (itemsB : list B) :
    R items itemsB -> rmap p (kk vA kA k items) = kk vB kB k itemsB ->
    rmap p (snp vA nA kA k items) = snp vB nB kB k itemsB /\
    rmap p (rnp vA nA kA k items) = rnp vB nB kB k itemsB.
  Proof.
    intros HR Hkk. unfold snp, rnp. rewrite <- Hkk.
    destruct (kk vA kA k items) as [best|e]; cbn [rmap]; [|split; reflexivity].
    rewrite p_spread. destruct (bins_spread best =? 0); cbn [rmap]; [split; reflexivity|]. split.
    - f_equal. exact (snp_rec_sim k [] items best itemsB HR).
    - exact (rnp_rec_sim (S k) k false [] items best itemsB HR).
  Qed.
End Sim.

Lemma names_ok_incl {A} (valueof nameof : A -> Z) (items0 l : list A) :
  names_ok valueof nameof items0 -> incl l items0 -> names_ok valueof nameof l.
Proof. intros HN0 Hi x y Hx Hy. apply HN0; apply Hi; assumption. Qed.

Lemma snp_rnp_erase {A} (valueof nameof : A -> Z) (k : nat) (items : list A) :
  names_ok valueof nameof items ->
  rmap erase (snp valueof nameof true k items) = snp valueof nameof false k items /\
  rmap erase (rnp valueof nameof true k items) = rnp valueof nameof false k items.
Proof.
  intros HN.
  apply (snp_rnp_sim valueof nameof true valueof nameof false (fun x => x) (fun bn => (fst bn, []))
           (fun part => part) (fun l l' => l = l' /\ incl l items)).
  - reflexivity.
  - reflexivity.
  - intros cur. rewrite map_id, !bin_of_keep. reflexivity.
  - intros l ? [<- _]. reflexivity.
  - intros l ? [<- _]. apply map_id.
  - intros l ? cur [<- Hi] _. rewrite map_id. split; [reflexivity|].
    eapply incl_tran; [apply find_diff_incl|exact Hi].
  - intros l ? [<- Hi]. apply ckk_erase. exact (names_ok_incl valueof nameof items l HN Hi).
  - intros l ? init [<- _]. symmetry. apply map_id.
  - intros l ? init part i [<- Hi] Hp. split; [reflexivity|].
    exact (generator_parts_incl valueof nameof items l init part Hi Hp i).
  - split; [reflexivity|apply incl_refl].
  - apply kk_erase.
Qed.

Theorem snp_erase {A} (valueof nameof : A -> Z) : forall k items,
  Forall (fun x => 0 <= valueof x) items -> names_ok valueof nameof items ->
  rmap erase (snp valueof nameof true k items) = snp valueof nameof false k items.
Proof. intros k items _ HN. exact (proj1 (snp_rnp_erase valueof nameof k items HN)). Qed.

Theorem rnp_erase {A} (valueof nameof : A -> Z) : forall k items,
  Forall (fun x => 0 <= valueof x) items -> names_ok valueof nameof items ->
  rmap erase (rnp valueof nameof true k items) = rnp valueof nameof false k items.
Proof. intros k items _ HN. exact (proj2 (snp_rnp_erase valueof nameof k items HN)). Qed.

(** ---------------------------------------------------------------------------------- *)
(** * c. C06 for ckk, snp, rnp                                                          *)
(** ---------------------------------------------------------------------------------- *)
Section InstancesCKK.
  Context {A : Type} (valueof nameof : A -> Z).
  Local Notation nonneg := (Forall (fun x : A => 0 <= valueof x)).

  (** every sums-family output, any number of bins *)
  Theorem C06_ckk : forall o k items, keeps o = false -> names_ok valueof nameof items ->
    run_output_r o (fun keep => ckk valueof nameof keep k items) =
    rmap (fun b => derive o (sums b)) (ckk valueof nameof true k items).
  Proof.
    intros o k items Hk HN.
    apply (C06_schema_r (fun keep => ckk valueof nameof keep k items)); [|exact Hk].
    apply ckk_erase. exact HN.
  Qed.

  (** the bin count needs no hypothesis on the names *)
  Theorem C06_ckk_bincount : forall k items, (1 <= k)%nat -> items <> [] ->
    run_output_r OBinCount (fun keep => ckk valueof nameof keep k items) =
    rmap (fun b => derive OBinCount (sums b)) (ckk valueof nameof true k items).
  Proof.
    intros k items Hk Hne. unfold run_output_r. cbn [keeps].
    destruct (ckk_partition valueof nameof k items Hk Hne) as (bt & Et & (_ & Lt & _)).
    destruct (ckk_sums_partition valueof nameof k items Hk Hne) as (bf & (_ & Lf & _) & _ & Ef).
    rewrite Ef, Et. cbn [rmap extract derive]. rewrite sums_erase. unfold sums. rewrite !map_length.
    f_equal. f_equal. transitivity k; [exact Lf|symmetry; exact Lt].
  Qed.

  Theorem C06_snp : forall o k items, keeps o = false -> nonneg items -> names_ok valueof nameof items ->
    run_output_r o (fun keep => snp valueof nameof keep k items) =
    rmap (fun b => derive o (sums b)) (snp valueof nameof true k items).
  Proof.
    intros o k items Hk Hpos HN.
    apply (C06_schema_r (fun keep => snp valueof nameof keep k items)); [|exact Hk].
    apply snp_erase; assumption.
  Qed.

  Theorem C06_rnp : forall o k items, keeps o = false -> nonneg items -> names_ok valueof nameof items ->
    run_output_r o (fun keep => rnp valueof nameof keep k items) =
    rmap (fun b => derive o (sums b)) (rnp valueof nameof true k items).
  Proof.
    intros o k items Hk Hpos HN.
    apply (C06_schema_r (fun keep => rnp valueof nameof keep k items)); [|exact Hk].
    apply rnp_erase; assumption.
  Qed.
End InstancesCKK.

(** ---------------------------------------------------------------------------------- *)
(** * counterexamples and the generator                                                 *)
(** ---------------------------------------------------------------------------------- *)
Definition zid (x : Z) : Z := x.
Definition named : Type := (Z * Z)%type.      (* (name, value) *)
Definition nm (x : named) : Z := fst x.
Definition vl (x : named) : Z := snd x.

(** [names_ok] cannot be dropped: when all items carry the same name the contents manager
    merges combinations with different sums and misses the optimum, while the sums manager
    (which never looks at names) finds it *)
Example ckk_erase_needs_names_ok :
  rmap erase (ckk zid (fun _ => 0) true 2 [4; 5; 6; 7; 8]) = Ok [(12, []); (18, [])] /\
  ckk zid (fun _ => 0) false 2 [4; 5; 6; 7; 8] = Ok [(15, []); (15, [])].
Proof. vm_compute. split; reflexivity. Qed.

Example snp_erase_needs_names_ok :
  rmap erase (snp zid (fun _ => 0) true 2 [4; 5; 6; 7; 8]) = Ok [(14, []); (16, [])] /\
  snp zid (fun _ => 0) false 2 [4; 5; 6; 7; 8] = Ok [(15, []); (15, [])].
Proof. vm_compute. split; reflexivity. Qed.

Example rnp_erase_needs_names_ok :
  rmap erase (rnp zid (fun _ => 0) true 2 [4; 5; 6; 7; 8]) = Ok [(12, []); (18, [])] /\
  rnp zid (fun _ => 0) false 2 [4; 5; 6; 7; 8] = Ok [(15, []); (15, [])].
Proof. vm_compute. split; reflexivity. Qed.

(** the two searches pop the same heaps (before the repair: 19 and 16 nodes on this input) *)
Example ckk_managers_search_alike :
  ckk_nodes (ckk_run zid zid true true None 3 [1; 1; 1; 2; 3; 3; 5]) = 16%nat /\
  ckk_nodes (ckk_run zid zid false true None 3 [1; 1; 1; 2; 3; 3; 5]) = 16%nat /\
  rmap erase (ckk zid zid true 3 [1; 1; 1; 2; 3; 3; 5]) = ckk zid zid false 3 [1; 1; 1; 2; 3; 3; 5].
Proof.
  pose proof (names_ok_values zid [1; 1; 1; 2; 3; 3; 5]) as HN.
  rewrite <- (ckk_nodes_erase zid zid true None 3 _ HN).
  assert (E : ckk_nodes (ckk_run zid zid false true None 3 [1; 1; 1; 2; 3; 3; 5]) = 16%nat)
    by (vm_compute; reflexivity).
  split; [exact E|]. split; [exact E|]. apply ckk_erase. exact HN.
Qed.

(** the inputs on which the two managers disagreed in prtpy before its repair (four and five bins; see
    the head of Proofs/CKKManagersProofs.v): only the contents run on the first is evaluated, the rest
    is [ckk_erase] *)
Lemma ckk_contents_w4 :
  ckk zid zid true 4 [4; 5; 7; 9; 10; 10; 12; 14; 15] =
  Ok [(20, [5; 15]); (20, [10; 10]); (23, [4; 7; 12]); (23, [9; 14])].
Proof. vm_compute. reflexivity. Qed.

Example ckk_erase_former_witnesses :
  rmap erase (ckk zid zid true 4 [4; 5; 7; 9; 10; 10; 12; 14; 15]) =
    ckk zid zid false 4 [4; 5; 7; 9; 10; 10; 12; 14; 15] /\
  ckk zid zid false 4 [4; 5; 7; 9; 10; 10; 12; 14; 15] = Ok [(20, []); (20, []); (23, []); (23, [])] /\
  rmap erase (ckk zid zid true 5 [3; 4; 5; 6; 7; 8; 9; 11; 12; 13; 13]) =
    ckk zid zid false 5 [3; 4; 5; 6; 7; 8; 9; 11; 12; 13; 13].
Proof.
  split; [apply ckk_erase, names_ok_values|]. split; [|apply ckk_erase, names_ok_values].
  rewrite <- (ckk_erase zid zid 4 _ (names_ok_values zid _)), ckk_contents_w4. reflexivity.
Qed.

(** ckk_generator: [ckk_generator_erase] holds in every mode.  Before the repair the contents
    manager yielded, with an explicit bound (the mode used by rnp), partitions that differ only
    in their contents separately (16 yields against 15 on this input). *)
Definition gen_items : list named := [(1, 1); (2, 1); (3, 2); (4, 2); (5, 3)].

Lemma gen_items_names_ok : names_ok vl nm gen_items.
Proof. apply names_ok_nodup. repeat constructor; cbn [In]; intuition discriminate. Qed.

Example ckk_generator_erase_bounded :
  length (ckk_generator vl nm true 2 gen_items (Some (-10))) = 15%nat /\
  map erase (ckk_generator vl nm true 2 gen_items (Some (-10))) =
    ckk_generator vl nm false 2 gen_items (Some (-10)).
Proof.
  pose proof (ckk_generator_erase vl nm 2 gen_items (Some (-10)) gen_items_names_ok) as E.
  split; [|exact E]. rewrite <- (map_length erase), E. vm_compute. reflexivity.
Qed.

Example ckk_generator_default_example :
  map erase (ckk_generator vl nm true 3 gen_items None) = ckk_generator vl nm false 3 gen_items None /\
  ckk_generator vl nm false 3 gen_items None = [[(3, []); (3, []); (3, [])]].
Proof. split; [apply ckk_generator_erase, gen_items_names_ok|vm_compute; reflexivity]. Qed.

(** ---------------------------------------------------------------------------------- *)
(** * examples (concrete runs; several are the doctests of the adaptors)                *)
(** ---------------------------------------------------------------------------------- *)

(** b. extractors *)
Example ex_extract :
  let b : bins Z := [(11, [7; 4]); (8, [8]); (11, [6; 5])] in
  extract OSums (erase b) = OutSums [11; 8; 11] /\
  extract OSorted (erase b) = OutSums [8; 11; 11] /\
  extract OLargest (erase b) = OutNum 11 /\
  extract OSmallest (erase b) = OutNum 8 /\
  extract OExtreme (erase b) = OutPair 8 11 /\
  extract ODifference (erase b) = OutNum 3 /\
  extract OBinCount (erase b) = OutCount 3 /\
  extract OPartition b = OutLists [[7; 4]; [8]; [6; 5]] /\
  extract OPartition (erase b) = OutLists [[]; []; []].
Proof. vm_compute. repeat split; reflexivity. Qed.

(** d. sums are the totals of the lists *)
Example ex_wf :
  let b : bins Z := [(11, [7; 4]); (8, [8]); (11, [6; 5])] in
  wf zid b /\ sums (erase b) = map (fun l => zsum (map zid l)) (lists b).
Proof. split; [repeat constructor|reflexivity]. Qed.

(** c. partitioning *)
Example ex_greedy :
  run_partition OSorted (@greedy Z) zid 3 [4; 5; 6; 7; 8] = OutSums [8; 11; 11] /\
  run_partition OPartitionAndSums (@greedy Z) zid 3 [4; 5; 6; 7; 8] =
    OutBins [(8, [8]); (11, [7; 4]); (11, [6; 5])].
Proof. vm_compute. split; reflexivity. Qed.

Example ex_roundrobin :
  run_partition OExtreme (@roundrobin Z) zid 3 [4; 5; 6; 7; 8] = OutPair 6 13 /\
  run_partition OPartition (@roundrobin Z) zid 3 [4; 5; 6; 7; 8] = OutLists [[8; 5]; [7; 4]; [6]].
Proof. vm_compute. split; reflexivity. Qed.

Example ex_kk :
  run_partition_r ODifference (@kk Z) zid 3 [4; 5; 6; 7; 8] = Ok (OutNum 3) /\
  run_partition_r OPartitionAndSums (@kk Z) zid 3 [4; 5; 6; 7; 8] =
    Ok (OutBins [(8, [8]); (11, [4; 7]); (11, [5; 6])]).
Proof. vm_compute. split; reflexivity. Qed.

Example ex_cg :
  run_output_o OSorted (fun keep => cg zid keep MinLargest (mk_flags true true true true) None 3 [4; 5; 6; 7; 8])
    = Some (OutSums [8; 11; 11]) /\
  run_output_o OPartitionAndSums
    (fun keep => cg zid keep MinLargest (mk_flags true true true true) None 3 [4; 5; 6; 7; 8])
    = Some (OutBins [(8, [8]); (11, [7; 4]); (11, [6; 5])]).
Proof. vm_compute. split; reflexivity. Qed.

(** partition(algorithm=dp, numbins=3, items=[1,2,3,3,5,9,9], outputtype=LargestSum) = 11 *)
Example ex_dp :
  run_output_r OLargest (fun keep => dp zid keep MinDiff 3 [1; 2; 3; 3; 5; 9; 9]) = Ok (OutNum 11) /\
  run_output_r OPartition (fun keep => dp zid keep MinDiff 3 [1; 2; 3; 3; 5; 9; 9]) =
    Ok (OutLists [[1; 9]; [2; 9]; [3; 3; 5]]).
Proof.
  assert (E : dp zid true MinDiff 3 [1; 2; 3; 3; 5; 9; 9] = Ok [(10, [1; 9]); (11, [2; 9]); (11, [3; 3; 5])])
    by (vm_compute; reflexivity).
  split; [rewrite C06_dp by reflexivity|unfold run_output_r; cbn [keeps]]; rewrite E; reflexivity.
Qed.

(** partition(optimal, 2, {"a":1,"b":2,"c":3,"d":3,"e":5,"f":9,"g":9}, outputtype=Sums) = [16,16];
    partition(optimal, 3, the same) = [['a','f'],['c','d','e'],['b','g']]
    (NOTE: before the repair that de-duplicates the children of a node by their sums, the model and
    the doctest of complete_karmarkar_karp_sy.py gave [['a','g'],['c','d','e'],['b','f']]: the two
    combinations have the same sums [10;11;11] and only the first one is explored now) *)
Definition items_ag : list named := [(1, 1); (2, 2); (3, 3); (4, 3); (5, 5); (6, 9); (7, 9)].

Example ex_ckk :
  run_output_r OSums (fun keep => ckk vl nm keep 2 items_ag) = Ok (OutSums [16; 16]) /\
  run_output_r OSums (fun keep => ckk vl nm keep 3 items_ag) = Ok (OutSums [10; 11; 11]) /\
  run_output_r OPartition (fun keep => ckk vl nm keep 3 items_ag) =
    Ok (OutLists [[(1, 1); (6, 9)]; [(3, 3); (4, 3); (5, 5)]; [(2, 2); (7, 9)]]).
Proof. vm_compute. repeat split; reflexivity. Qed.

Example ex_snp_rnp :
  run_output_r OSums (fun keep => snp vl nm keep 3 items_ag) = Ok (OutSums [10; 11; 11]) /\
  run_output_r OPartitionAndSums (fun keep => snp vl nm keep 3 items_ag) =
    Ok (OutBins [(10, [(1, 1); (6, 9)]); (11, [(2, 2); (7, 9)]); (11, [(4, 3); (5, 5); (3, 3)])]) /\
  run_output_r OSorted (fun keep => rnp vl nm keep 3 items_ag) = Ok (OutSums [10; 11; 11]) /\
  run_output_r OPartitionAndSums (fun keep => rnp vl nm keep 3 items_ag) =
    Ok (OutBins [(10, [(1, 1); (6, 9)]); (11, [(2, 2); (7, 9)]); (11, [(4, 3); (5, 5); (3, 3)])]).
Proof. vm_compute. repeat split; reflexivity. Qed.

Example ex_cbldm :
  cbldm zid 2 [8; 7; 6; 5; 4] true 1 true None = Ok (CbBins [(15, [4; 6; 5]); (15, [8; 7])], 15%nat) /\
  run_output ODifference (fun _ : bool => [(15, [4; 6; 5]); (15, [8; 7])]) = OutNum 0.
Proof. vm_compute. split; reflexivity. Qed.

(** c. packing: the doctests of packing/adaptors.py *)
Definition ffd_items : list Z := [44; 24; 24; 22; 21; 17; 8; 8; 6; 6].

Example ex_ffd :
  run_pack_r OBinCount (@first_fit_decreasing Z) zid 60 ffd_items = Ok (OutCount 3) /\
  run_pack_r OBinCount (@first_fit_decreasing Z) zid 61 ffd_items = Ok (OutCount 4) /\
  run_pack_r OSums (@first_fit_decreasing Z) zid 60 ffd_items = Ok (OutSums [60; 60; 60]) /\
  run_pack_r OPartition (@first_fit_decreasing Z) zid 60 ffd_items =
    Ok (OutLists [[44; 8; 8]; [24; 24; 6; 6]; [22; 21; 17]]).
Proof. vm_compute. repeat split; reflexivity. Qed.

Example ex_fit :
  run_pack_r OSums (@first_fit Z) zid 10 [5; 7; 5; 2; 4; 2; 5; 1; 6] = Ok (OutSums [10; 10; 6; 5; 6]) /\
  run_pack_r OLargest (@first_fit Z) zid 10 [5; 7; 5; 2; 4; 2; 5; 1; 11] = Err ValueError /\
  run_pack_r OPartition (@first_fit Z) zid 10 [5; 7; 5; 2; 4; 2; 5; 1; 11] = Err ValueError /\
  run_pack_r OSums (@best_fit Z) zid 10 [5; 7; 5; 2; 4; 2; 5; 1; 6] = Ok (OutSums [10; 10; 6; 5; 6]) /\
  run_pack_r OPartition (@best_fit Z) zid 10 [5; 7; 5; 2; 4; 2; 5; 1; 6] =
    Ok (OutLists [[5; 5]; [7; 2; 1]; [4; 2]; [5]; [6]]) /\
  run_pack_r OBinCount (@best_fit_decreasing Z) zid 10 [5; 7; 5; 2; 4; 2; 5; 1; 6] = Ok (OutCount 4).
Proof. vm_compute. repeat split; reflexivity. Qed.

Example ex_bin_completion :
  run_output_r OBinCount (fun keep => bin_completion keep 100 1000 [99; 97; 94; 93; 8; 5; 4; 2]) =
    Ok (OutCount 5) /\
  run_output_r OPartition (fun keep => bin_completion keep 100 1000 [99; 97; 94; 93; 8; 5; 4; 2]) =
    Ok (OutLists [[99]; [97; 2]; [94; 5]; [93; 4]; [8]]).
Proof. vm_compute. split; reflexivity. Qed.

Example ex_cover :
  run_pack OSums (@cover_decreasing Z) zid 10 [5; 7; 5; 2; 4; 2; 5; 1; 6] = OutSums [13; 10; 11] /\
  run_pack OPartition (@cover_decreasing Z) zid 10 [5; 7; 5; 2; 4; 2; 5; 1; 6] =
    OutLists [[7; 6]; [5; 5]; [5; 4; 2]] /\
  run_pack OSmallest (@cover_twothirds Z) zid 10 [5; 7; 5; 2; 4; 2; 5; 1; 6] = OutNum 10 /\
  run_pack OPartitionAndSums (@cover_twothirds Z) zid 10 [5; 7; 5; 2; 4; 2; 5; 1; 6] =
    OutBins [(10, [7; 1; 2]); (12, [6; 2; 4]); (10, [5; 5])] /\
  run_pack OBinCount (@cover_threequarters Z) zid 10 [5; 7; 5; 2; 4; 2; 5; 1; 6] = OutCount 3 /\
  run_pack OPartitionAndSums (@cover_threequarters Z) zid 10 [5; 7; 5; 2; 4; 2; 5; 1; 6] =
    OutBins [(10, [7; 1; 2]); (13, [6; 2; 5]); (10, [5; 5])].
Proof. vm_compute. repeat split; reflexivity. Qed.

(** ---------------------------------------------------------------------------------- *)
Check sums_erase. Check length_erase. Check lists_erase.
Check extract_derive. Check extract_erase. Check extract_erase_same. Check derive_sorted.
Check extract_erase_OSums. Check extract_erase_OLargest. Check extract_erase_OSmallest.
Check extract_erase_OExtreme. Check extract_erase_OSorted. Check extract_erase_ODifference.
Check extract_erase_OBinCount.
Check wf_erase_sums. Check wf_sums_lists. Check wf_erase_sums_lists.
Check C06_schema. Check C06_schema_extract. Check C06_schema_observed. Check C06_schema_lists.
Check C06_schema_r. Check C06_schema_r_ok. Check C06_schema_r_err. Check C06_schema_o. Check C06_schema_const.
Check C06_greedy. Check C06_roundrobin. Check C06_kk. Check C06_cg. Check C06_dp.
Check C06_first_fit. Check C06_first_fit_decreasing. Check C06_best_fit. Check C06_best_fit_decreasing.
Check C06_bin_completion.
Check C06_cover_decreasing. Check C06_cover_twothirds. Check C06_cover_threequarters.
Check C06_greedy_lists. Check C06_cbldm.
Check ckk_children_erase. Check ckk_run_erase.
Check ckk_erase. Check ckk_erase_sums. Check ckk_generator_erase. Check ckk_nodes_erase.
Check ckk_sums_partition. Check ckk_sums_optimal. Check ckk_erase_2.
Check snp_erase. Check rnp_erase.
Check C06_ckk. Check C06_ckk_bincount. Check C06_snp. Check C06_rnp.

Print Assumptions sums_erase.
Print Assumptions length_erase.
Print Assumptions extract_derive.
Print Assumptions extract_erase.
Print Assumptions extract_erase_same.
Print Assumptions derive_sorted.
Print Assumptions wf_erase_sums.
Print Assumptions wf_sums_lists.
Print Assumptions C06_schema.
Print Assumptions C06_schema_observed.
Print Assumptions C06_schema_lists.
Print Assumptions C06_schema_r.
Print Assumptions C06_schema_o.
Print Assumptions C06_schema_const.
Print Assumptions C06_greedy.
Print Assumptions C06_roundrobin.
Print Assumptions C06_kk.
Print Assumptions C06_cg.
Print Assumptions C06_dp.
Print Assumptions C06_first_fit.
Print Assumptions C06_first_fit_decreasing.
Print Assumptions C06_best_fit.
Print Assumptions C06_best_fit_decreasing.
Print Assumptions C06_bin_completion.
Print Assumptions C06_cover_decreasing.
Print Assumptions C06_cover_twothirds.
Print Assumptions C06_cover_threequarters.
Print Assumptions C06_greedy_lists.
Print Assumptions C06_cbldm.
Print Assumptions ckk_sums_partition.
Print Assumptions ckk_sums_optimal.
Print Assumptions ckk_children_erase.
Print Assumptions ckk_run_erase.
Print Assumptions ckk_erase.
Print Assumptions ckk_erase_sums.
Print Assumptions ckk_generator_erase.
Print Assumptions ckk_nodes_erase.
Print Assumptions ckk_erase_2.
Print Assumptions snp_erase.
Print Assumptions rnp_erase.
Print Assumptions C06_ckk.
Print Assumptions C06_ckk_bincount.
Print Assumptions C06_snp.
Print Assumptions C06_rnp.
