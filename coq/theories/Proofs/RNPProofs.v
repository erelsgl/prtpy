(** Recursive number partitioning (Model/SNP.v, [rnp]) on 1 to 5 bins: the result is a
    partition (C01), and for values >= 0 there is a result.

    Structure of the model followed here (unfolding lemmas: Proofs/EraseProofs.v):
      2 bins:        ckk;
      4 bins (even): every 2-way split (l1, l2) yielded by the CKK generator is completed by
                     ckk 2 l1 ++ ckk 2 l2;
      3, 5 bins (odd): the inclusion-exclusion search picks a first bin [cur]; the other items
                     (find_diff items cur) go through the case of one bin less; the result is
                     [bin_of cur] ++ (those bins).
    Invariant: bins so far + remaining items = input.  A recursive call returns either the
    incumbent [best] itself or a partition of ITS items into ITS number of bins; in the first
    case the caller keeps the incumbent ([spread_app_ge]: adding bins never lowers the spread).

    Section hypothesis [Hinj] (equal names mean equal items) as in SNPProofs: find_diff works on
    names. *)
From Prtpy Require Import Base.Prelude Model.Binner Model.KK Model.InExTree Model.SNP
  Spec.Partition Proofs.BaseLemmas Proofs.BinnerLemmas Proofs.KKProofs Proofs.EnumProofs Proofs.SNPProofs Proofs.EraseProofs.
From Coq Require Import Sorting.Sorted.
From Coq Require Import ZifyBool.

(** ---- examples (vm_compute): numeric items, name = value ---- *)
Definition rid (x : Z) : Z := x.

Example rnp4_ex1 :
  rnp rid rid true 4 [4; 5; 7; 8; 6] = Ok [(6, [6]); (7, [7]); (8, [8]); (9, [4; 5])].
Proof. vm_compute. reflexivity. Qed.

Example rnp4_ex2 : rmap (@sums Z) (rnp rid rid true 4 [1; 3; 3; 4; 4; 5; 5; 5]) = Ok [6; 8; 8; 8].
Proof. vm_compute. reflexivity. Qed.

Example rnp5_ex1 :
  rnp rid rid true 5 [1; 2; 3; 4; 5; 6; 7; 8; 9]
  = Ok [(9, [2; 7]); (9, [4; 5]); (9, [9]); (9, [3; 6]); (9, [1; 8])].
Proof. vm_compute. reflexivity. Qed.

Example rnp5_ex2 :
  rnp rid rid true 5 [3; 16; 22; 24; 24; 29]
  = Ok [(19, [16; 3]); (22, [22]); (24, [24]); (24, [24]); (29, [29])].
Proof. vm_compute. reflexivity. Qed.

(** fewer items than bins *)
Example rnp5_ex3 : rnp rid rid true 5 [1; 2] = Ok [(0, []); (0, []); (0, []); (1, [1]); (2, [2])].
Proof. vm_compute. reflexivity. Qed.

(** 6 bins: the float bin count of the pinned code (6/2 = 3.0 used as an index) *)
Example rnp6_ex : rnp rid rid true 6 [4; 5; 7; 8; 6; 9; 3] = Err IndexError.
Proof. vm_compute. reflexivity. Qed.

(** ---- adding numbers to a non-empty list never lowers max - min ---- *)
Lemma spread_app_ge (l l' : list Z) : l <> [] -> spread l <= spread (l ++ l').
Proof.
  intros Hne. unfold spread.
  assert (H1 : zmax l <= zmax (l ++ l')).
  { apply zmax_ge_in. apply in_or_app. left. apply zmax_in. exact Hne. }
  assert (H2 : zmin (l ++ l') <= zmin l).
  { apply zmin_le_in. apply in_or_app. left. apply zmin_in. exact Hne. }
  lia.
Qed.

Section RNPProofs.
  Context {A : Type} (valueof nameof : A -> Z).
  Hypothesis Hinj : forall x y : A, nameof x = nameof y -> x = y.

  Local Notation vsum := (vsum valueof).
  Local Notation bin_of := (bin_of valueof true).
  Local Notation find_diff := (find_diff nameof).
  Local Notation rnp_rec := (rnp_rec valueof nameof true).
  Local Notation ckk2 := (ckk valueof nameof true 2).
  Local Notation isP := (is_partition valueof).

  Local Notation rnp_next_odd := (rnp_next_odd valueof nameof true).
  Local Notation rnp_step_even := (rnp_step_even valueof nameof true).

  Lemma rnp_rec_2 f isfloat prior items best : rnp_rec (S f) 2 isfloat prior items best = ckk2 items.
  Proof. reflexivity. Qed.

  (** ---- two bins: ckk ---- *)
  Lemma ckk2_ok l b : ckk2 l = Ok b -> isP 2 l b.
  Proof.
    intros H. destruct l as [|y ys]; [rewrite ckk_nil in H; discriminate H|].
    destruct (ckk_partition valueof nameof 2 (y :: ys)) as (two & E & P2); [lia|discriminate|].
    rewrite E in H. injection H as <-. exact P2.
  Qed.

  Lemma part2_contents (part : bins A) : length part = 2%nat ->
    contents part = snd (nth 0 part empty_bin) ++ snd (nth 1 part empty_bin).
  Proof.
    intros HL. destruct part as [|a [|b [|c t]]]; try discriminate HL.
    unfold contents, lists. cbn [map concat nth]. rewrite app_nil_r. reflexivity.
  Qed.

  (** two 2-partitions of the two halves of a 2-partition make a 4-partition *)
  Lemma halves_partition items part nb1 nb2 :
    isP 2 items part ->
    isP 2 (snd (nth 0 part empty_bin)) nb1 -> isP 2 (snd (nth 1 part empty_bin)) nb2 ->
    isP 4 items (nb1 ++ nb2).
  Proof.
    intros (HP & HL & _) (P1 & L1 & W1) (P2 & L2 & W2). split; [|split].
    - rewrite contents_app, P1, P2, <- (part2_contents part HL). exact HP.
    - rewrite app_length, L1, L2. reflexivity.
    - apply Forall_app. split; assumption.
  Qed.

  (** ---- four bins ---- *)

  (** the loop over the 2-way splits: the result is the incumbent it started from, or a
      4-partition *)
  Lemma rnp_even4_fold f prior d0 items best0 : forall parts acc,
    Forall (isP 2 items) parts ->
    (forall b, acc = Ok b -> b = best0 \/ isP 4 items b) ->
    forall b, fold_left (rnp_step_even (S f) 4 prior d0) parts acc = Ok b ->
              b = best0 \/ isP 4 items b.
  Proof.
    induction parts as [|part ps IH]; intros acc Hparts Hacc b H; cbn [fold_left] in H.
    - apply Hacc. exact H.
    - inversion Hparts as [|? ? Hpart Hps]; subst.
      apply (IH (rnp_step_even (S f) 4 prior d0 acc part)); [exact Hps| |exact H].
      intros b1 H1. destruct acc as [bc|e]; [|discriminate H1].
      unfold rnp_step_even in H1. change (Nat.div 4 2) with 2%nat in H1. cbv zeta in H1.
      rewrite !rnp_rec_2 in H1.
      destruct (ckk2 (snd (nth 0 part empty_bin))) as [nb1|e1] eqn:E1; [|discriminate H1].
      destruct (ckk2 (snd (nth 1 part empty_bin))) as [nb2|e2] eqn:E2; [|discriminate H1].
      destruct (spread (sums nb1 ++ sums nb2) <? d0); injection H1 as <-.
      + right. apply (halves_partition items part); [exact Hpart|apply ckk2_ok; exact E1|apply ckk2_ok; exact E2].
      + apply Hacc. reflexivity.
  Qed.

  Lemma rnp_rec_4 f isfloat prior items best b :
    rnp_rec (S (S f)) 4 isfloat prior items best = Ok b -> b = best \/ isP 4 items b.
  Proof.
    intros H. rewrite rnp_rec_S in H.
    change (Nat.eqb 4 2) with false in H. change (Nat.odd 4) with false in H. cbv iota in H.
    apply (rnp_even4_fold f prior (bins_spread best) items best _ (Ok best)) in H; [exact H| |].
    - apply Forall_forall. intros part Hp.
      apply (ckk_generator_valid_any valueof nameof 2 items (Some (- bins_spread best)) part); [lia|exact Hp].
    - intros b0 E. injection E as <-. left. reflexivity.
  Qed.

  (** ---- an odd number of bins: the search for the first bin ---- *)
  Lemma rnp_dfs_preserves (P : bins A -> Prop) (base : list A) next kz t d0 :
    (forall c b b', (exists ex, Permutation (c ++ ex) base) -> P b -> next c b = Ok b' -> P b') ->
    forall rest cur b b', (exists ex, Permutation (cur ++ rest ++ ex) base) -> P b ->
      rnp_dfs valueof next kz t d0 rest cur b = Ok b' -> P b'.
  Proof.
    intros Hnext. induction rest as [|x r IH]; intros cur b b' Hsub Pb E; cbn [rnp_dfs] in E;
      destruct ((t <? kz * vsum cur) || _).
    - injection E as <-. exact Pb.
    - destruct Hsub as (ex & HP). apply (Hnext cur b b'); [exists ex; exact HP|exact Pb|exact E].
    - injection E as <-. exact Pb.
    - destruct (rnp_dfs valueof next kz t d0 r (cur ++ [x]) b) as [b1|e] eqn:E1; [|discriminate].
      apply (IH cur b1 b' (within_skip _ _ _ _ Hsub)); [|exact E].
      exact (IH (cur ++ [x]) b b1 (within_take _ _ _ _ Hsub) Pb E1).
  Qed.

  (** what the call on the other kc - 1 bins returns: the incumbent, or a partition of its items *)
  Definition rest_ok (f kc : nat) (items : list A) : Prop :=
    forall c b nb, rnp_rec f (kc - 1) false [bin_of c] (find_diff items c) b = Ok nb ->
                   nb = b \/ isP (kc - 1) (find_diff items c) nb.

  Lemma rest_ok_3 f items : rest_ok (S f) 3 items.
  Proof. intros c b nb En. right. rewrite rnp_rec_2 in En. apply ckk2_ok. exact En. Qed.

  Lemma rest_ok_5 f items : rest_ok (S (S f)) 5 items.
  Proof. intros c b nb En. exact (rnp_rec_4 f false _ _ b nb En). Qed.

  Lemma rnp_next_odd_partition f kc items c b b' : rest_ok f kc items -> (1 <= kc)%nat ->
    (exists ex, Permutation (c ++ ex) items) -> isP kc items b ->
    rnp_next_odd f kc false [] items c b = Ok b' -> isP kc items b'.
  Proof.
    intros Hrest Hkc Hc Pb H. unfold EraseProofs.rnp_next_odd in H. cbn [andb app] in H. cbv zeta in H.
    destruct (rnp_rec f (kc - 1) false [bin_of c] (find_diff items c) b) as [nb|e] eqn:En; [|discriminate H].
    destruct (Hrest c b nb En) as [->|Pn].
    - (* the call gave the incumbent back: it is kept *)
      assert (Hge : spread (sums b) <= spread (sums b ++ sums [bin_of c])).
      { apply spread_app_ge. destruct Pb as (_ & HL & _). destruct b; [cbn [length] in HL; lia|discriminate]. }
      unfold bins_spread in H.
      destruct (spread (sums b ++ sums [bin_of c]) <? spread (sums b)) eqn:El; [lia|].
      injection H as <-. exact Pb.
    - destruct (spread (sums nb ++ sums [bin_of c]) <? bins_spread b); injection H as <-; [|exact Pb].
      destruct Pn as (Pn & Ln & Wn). split; [|split].
      + rewrite contents_cons, bin_of_eq. cbn [snd]. rewrite Pn.
        apply (find_diff_perm nameof Hinj). exact Hc.
      + cbn [length]. rewrite Ln. lia.
      + constructor; [apply bin_of_wf|exact Wn].
  Qed.

  Lemma rnp_rec_odd f kc items best b : Nat.odd kc = true -> rest_ok f kc items ->
    isP kc items best -> rnp_rec (S f) kc false [] items best = Ok b -> isP kc items b.
  Proof.
    intros Hodd Hrest Pbest H. rewrite rnp_rec_S in H.
    destruct (Nat.eqb_spec kc 2) as [->|_]; [discriminate Hodd|]. rewrite Hodd in H.
    apply (rnp_dfs_preserves (isP kc items) items) in H; [exact H| | |exact Pbest].
    - intros c b0 b' Hc Pb0 En. apply (rnp_next_odd_partition f kc items c b0 b' Hrest); [|exact Hc|exact Pb0|exact En].
      destruct kc; [discriminate Hodd|lia].
    - apply within_start.
  Qed.

  (** ---- C01 for every bin count for which prtpy's rnp can return at all without the
      float-index error at the first level ---- *)
  Theorem rnp_partition_le5 : forall k items b, (1 <= k <= 5)%nat -> items <> [] ->
    rnp valueof nameof true k items = Ok b -> is_partition valueof k items b.
  Proof.
    intros k items b Hk Hne Hr.
    destruct (kk_partition valueof k items ltac:(lia) Hne) as (best & E & Hbest).
    unfold rnp in Hr. rewrite E in Hr.
    destruct (bins_spread best =? 0) eqn:E0; [injection Hr as <-; exact Hbest|].
    assert (Hk' : k = 1%nat \/ k = 2%nat \/ k = 3%nat \/ k = 4%nat \/ k = 5%nat) by lia.
    destruct Hk' as [->|[->|[->|[->| ->]]]].
    - exfalso. destruct Hbest as (_ & HLb & _). destruct best as [|[x lx] [|? ?]]; try discriminate.
      unfold bins_spread, spread in E0. cbn in E0. lia.
    - rewrite rnp_rec_2 in Hr. apply ckk2_ok. exact Hr.
    - exact (rnp_rec_odd 3 3 items best b eq_refl (rest_ok_3 2 items) Hbest Hr).
    - destruct (rnp_rec_4 3 false [] items best b Hr) as [->|P4]; [exact Hbest|exact P4].
    - exact (rnp_rec_odd 5 5 items best b eq_refl (rest_ok_5 3 items) Hbest Hr).
  Qed.

  Corollary rnp_partition_small : forall k items b, (1 <= k <= 3)%nat -> items <> [] ->
    rnp valueof nameof true k items = Ok b -> is_partition valueof k items b.
  Proof. intros k items b Hk. apply rnp_partition_le5. lia. Qed.

  Corollary rnp_partition_45 : forall k items b, (k = 4 \/ k = 5)%nat -> items <> [] ->
    rnp valueof nameof true k items = Ok b -> is_partition valueof k items b.
  Proof. intros k items b Hk. apply rnp_partition_le5. lia. Qed.

  (** ------------------------------------------------------------------ *)
  (** * totality for values >= 0: rnp on 1..5 bins returns (no error)     *)
  (** ------------------------------------------------------------------ *)
  (** The only ways the model of 1..5 bins can fail are ckk on an empty list (OtherError, the
      UnboundLocalError of the Python code).  That needs an empty side of a 2-way split, or a
      first bin holding every item; with values >= 0 neither survives the pruning tests:
      - a split with an empty side has difference = total, and only splits of difference
        below the incumbent's spread are yielded ([generator_bounded]);
      - a first bin [c] is only expanded when kc * sum(c) <= total. *)
  Local Notation nonneg := (Forall (fun x : A => 0 <= valueof x)).

  Lemma value_le_vsum x l : nonneg l -> In x l -> valueof x <= vsum l.
  Proof. intros Hnn Hin. apply in_le_zsum; [apply in_map; exact Hin|rewrite Forall_map; exact Hnn]. Qed.

  (** in bounded mode the generator only yields splits whose difference is below the bound *)
  Lemma generator_bounded k items d0 part :
    In part (ckk_generator valueof nameof true k items (Some (- d0))) -> bins_diff part < d0.
  Proof.
    intros Hp. unfold ckk_generator in Hp. apply in_rev in Hp.
    assert (G : Pst (fun best _ ys => best = Some (- d0) /\ Forall (fun y : bins A => bins_diff y < d0) ys)
                    (ckk_run valueof nameof true false (Some (- d0)) k items)).
    { unfold ckk_run. apply (explore_preserves nameof false k (Forall (@key_ok A))).
      - intros e1 e2 rest c Hh _. eapply child_Forall; [exact (@pushed_key_ok A)|exact Hh].
      - intros e best part0 ys Hh Hg [Hb Hys]. split; [exact Hb|]. constructor; [|exact Hys].
        pose proof (Forall_inv Hh) as Hk. unfold key_ok in Hk. subst best. cbn [gt_best] in Hg. lia.
      - apply initial_heap_Forall. exact (@pushed_key_ok A).
      - unfold Pst. cbn [ckk_best ckk_part ckk_yields]. split; [reflexivity|constructor]. }
    destruct G as [_ G]. rewrite Forall_forall in G. apply G. exact Hp.
  Qed.

  (** a sorted 2-way split of non-negative items whose difference is below d0 <= total has two
      non-empty sides *)
  Lemma part_sides_nonempty items d0 part :
    nonneg items -> d0 <= vsum items -> isP 2 items part ->
    StronglySorted Z.le (sums part) -> bins_diff part < d0 ->
    snd (nth 0 part empty_bin) <> [] /\ snd (nth 1 part empty_bin) <> [].
  Proof.
    intros Hnn Hd (HP & HL & HW) Hs Hdiff.
    destruct part as [|a [|b [|c t]]]; try discriminate HL.
    inversion HW as [|? ? Ha HW']; subst. inversion HW' as [|? ? Hb _]; subst.
    unfold wf_bin in Ha, Hb. fold (vsum (snd a)) in Ha. fold (vsum (snd b)) in Hb.
    unfold contents, lists in HP. cbn [map concat] in HP. rewrite app_nil_r in HP.
    pose proof (vsum_perm valueof _ _ HP) as Et. rewrite vsum_app in Et.
    assert (Hnn' : nonneg (snd a ++ snd b)) by (eapply Permutation_Forall; [symmetry; exact HP|exact Hnn]).
    apply Forall_app in Hnn'. destruct Hnn' as [Hna Hnb].
    pose proof (nonneg_vsum valueof _ Hna) as H0a. pose proof (nonneg_vsum valueof _ Hnb) as H0b.
    unfold sums in Hs. cbn [map] in Hs. inversion Hs as [|? ? _ Hab]; subst.
    pose proof (Forall_inv Hab) as Hle.
    unfold bins_diff, sums in Hdiff. cbn [map last hd] in Hdiff.
    cbn [nth]. split; intros E; rewrite E in *; rewrite vsum_nil in *; lia.
  Qed.

  (** ---- four bins ---- *)
  Lemma rnp_even4_fold_total f prior d0 : forall parts acc,
    Forall (fun part => snd (nth 0 part empty_bin) <> [] /\ snd (nth 1 part (@empty_bin A)) <> []) parts ->
    (exists b, acc = Ok b) ->
    exists b, fold_left (rnp_step_even (S f) 4 prior d0) parts acc = Ok b.
  Proof.
    induction parts as [|part ps IH]; intros acc Hparts Hacc; cbn [fold_left]; [exact Hacc|].
    inversion Hparts as [|? ? [H1 H2] Hps]; subst. apply IH; [exact Hps|].
    destruct Hacc as (bc & ->). unfold rnp_step_even. change (Nat.div 4 2) with 2%nat. cbv zeta.
    rewrite !rnp_rec_2.
    destruct (ckk_partition valueof nameof 2 _ ltac:(lia) H1) as (nb1 & E1 & _).
    destruct (ckk_partition valueof nameof 2 _ ltac:(lia) H2) as (nb2 & E2 & _).
    rewrite E1, E2. destruct (spread (sums nb1 ++ sums nb2) <? d0); eexists; reflexivity.
  Qed.

  Lemma rnp_rec_4_total f isfloat prior items best :
    nonneg items -> bins_spread best <= vsum items ->
    exists b, rnp_rec (S (S f)) 4 isfloat prior items best = Ok b.
  Proof.
    intros Hnn Hd. rewrite rnp_rec_S.
    change (Nat.eqb 4 2) with false. change (Nat.odd 4) with false. cbv iota.
    apply rnp_even4_fold_total; [|exists best; reflexivity].
    apply Forall_forall. intros part Hp.
    apply (part_sides_nonempty items (bins_spread best)); [exact Hnn|exact Hd| | |].
    - apply (ckk_generator_valid_any valueof nameof 2 items (Some (- bins_spread best)) part); [lia|exact Hp].
    - apply (ckk_generator_sorted valueof nameof 2 items (Some (- bins_spread best)) part Hp).
    - apply (generator_bounded 2 items). exact Hp.
  Qed.

  (** ---- the search for the first bin returns when every expanded leaf does ---- *)
  Lemma rnp_dfs_total (P : bins A -> Prop) (base : list A) next kz t d0 :
    (forall c b, (exists ex, Permutation (c ++ ex) base) -> kz * vsum c <= t -> P b ->
                 exists b', next c b = Ok b' /\ P b') ->
    forall rest cur b, (exists ex, Permutation (cur ++ rest ++ ex) base) -> P b ->
      exists b', rnp_dfs valueof next kz t d0 rest cur b = Ok b' /\ P b'.
  Proof.
    intros Hnext. induction rest as [|x r IH]; intros cur b Hsub Pb; cbn [rnp_dfs];
      destruct ((t <? kz * vsum cur) || _) eqn:Epr.
    - exists b. split; [reflexivity|exact Pb].
    - apply orb_false_iff in Epr. destruct Epr as [Eu _]. destruct Hsub as (ex & HP).
      apply Hnext; [exists ex; exact HP|lia|exact Pb].
    - exists b. split; [reflexivity|exact Pb].
    - destruct (IH (cur ++ [x]) b (within_take _ _ _ _ Hsub) Pb) as (b1 & E1 & P1).
      rewrite E1. exact (IH cur b1 (within_skip _ _ _ _ Hsub) P1).
  Qed.

  (** a leaf never raises the incumbent's spread *)
  Lemma rnp_next_odd_le f kc isfloat prior items c b b' :
    rnp_next_odd f kc isfloat prior items c b = Ok b' -> bins_spread b' <= bins_spread b.
  Proof.
    unfold rnp_next_odd. intros H.
    destruct (isfloat && negb (Nat.eqb (length c) 0)); [discriminate H|]. cbv zeta in H.
    destruct (rnp_rec f (kc - 1) isfloat (prior ++ [bin_of c]) (find_diff items c) b) as [nb|e];
      [|discriminate H].
    destruct (spread (sums nb ++ sums (prior ++ [bin_of c])) <? bins_spread b) eqn:El;
      injection H as <-; [|lia].
    unfold bins_spread at 1. rewrite sums_app.
    rewrite (spread_perm _ _ (Permutation_app_comm (sums (prior ++ [bin_of c])) (sums nb))). lia.
  Qed.

  (** ---- three bins: the leaf ---- *)
  Lemma rnp_next3_total f items c b :
    0 < vsum items -> (exists ex, Permutation (c ++ ex) items) -> 3 * vsum c <= vsum items ->
    exists b', rnp_next_odd (S f) 3 false [] items c b = Ok b'.
  Proof.
    intros Ht Hc Hu. unfold rnp_next_odd. cbn [andb]. cbv zeta. change (3 - 1)%nat with 2%nat.
    rewrite rnp_rec_2.
    pose proof (find_diff_perm nameof Hinj items c Hc) as HPf.
    destruct (find_diff items c) as [|y ys] eqn:Ef.
    - exfalso. rewrite app_nil_r in HPf. pose proof (vsum_perm valueof _ _ HPf) as E. lia.
    - destruct (ckk_partition valueof nameof 2 (y :: ys)) as (two & E2 & _); [lia|discriminate|].
      rewrite E2. destruct (_ <? _); eexists; reflexivity.
  Qed.

  (** ---- five bins: the leaf keeps "5-partition with spread <= M" and returns ---- *)
  Lemma rnp_next5_total f items c b M :
    nonneg items -> (exists x, In x items /\ valueof x = M) ->
    (exists ex, Permutation (c ++ ex) items) -> 5 * vsum c <= vsum items ->
    isP 5 items b /\ bins_spread b <= M ->
    exists b', rnp_next_odd (S (S f)) 5 false [] items c b = Ok b' /\
               (isP 5 items b' /\ bins_spread b' <= M).
  Proof.
    intros Hnn (x & Hx & HM) Hc Hu [Pb Hb].
    pose proof (find_diff_perm nameof Hinj items c Hc) as HPf.
    assert (Hnn' : nonneg (c ++ find_diff items c)) by (eapply Permutation_Forall; [symmetry; exact HPf|exact Hnn]).
    apply Forall_app in Hnn'. destruct Hnn' as [Hnc Hnr].
    pose proof (vsum_perm valueof _ _ HPf) as Et. rewrite vsum_app in Et.
    pose proof (nonneg_vsum valueof _ Hnc) as H0c. pose proof (nonneg_vsum valueof _ Hnr) as H0r.
    assert (HMr : M <= vsum (find_diff items c)).
    { assert (Hx' : In x (c ++ find_diff items c)) by (eapply Permutation_in; [symmetry; exact HPf|exact Hx]).
      apply in_app_or in Hx'. destruct Hx' as [Hxc|Hxr].
      - pose proof (value_le_vsum x c Hnc Hxc). lia.
      - pose proof (value_le_vsum x _ Hnr Hxr). lia. }
    assert (Hex : exists b', rnp_next_odd (S (S f)) 5 false [] items c b = Ok b').
    { unfold rnp_next_odd. cbn [andb]. cbv zeta. change (5 - 1)%nat with 4%nat.
      destruct (rnp_rec_4_total f false ([] ++ [bin_of c]) (find_diff items c) b Hnr ltac:(lia)) as (nb & E4).
      rewrite E4. destruct (_ <? _); eexists; reflexivity. }
    destruct Hex as (b' & E). exists b'. split; [exact E|]. split.
    - apply (rnp_next_odd_partition _ 5 items c b b' (rest_ok_5 f items)); [lia|exact Hc|exact Pb|exact E].
    - pose proof (rnp_next_odd_le _ _ _ _ _ _ _ _ E). lia.
  Qed.

  (** the largest value is the value of some item and is at most the total *)
  Lemma max_value_item items : items <> [] ->
    exists x, In x items /\ valueof x = zmax (map valueof items).
  Proof.
    intros Hne. assert (Hm : map valueof items <> []) by (destruct items; [congruence|discriminate]).
    pose proof (zmax_in _ Hm) as Hin. apply in_map_iff in Hin. destruct Hin as (x & E & Hx).
    exists x. split; [exact Hx|exact E].
  Qed.

  Theorem rnp_total_le5 : forall k items, (1 <= k <= 5)%nat -> items <> [] -> nonneg items ->
    exists b, rnp valueof nameof true k items = Ok b.
  Proof.
    intros k items Hk Hne Hnn.
    destruct (kk_partition valueof k items ltac:(lia) Hne) as (best & E & Hbest).
    unfold rnp. rewrite E.
    destruct (bins_spread best =? 0) eqn:E0; [exists best; reflexivity|].
    assert (Ht : 0 < vsum items).
    { pose proof (nonneg_vsum valueof items Hnn) as H0.
      destruct (Z.eq_dec (vsum items) 0) as [Ez|Ez]; [|lia].
      pose proof (zero_total_perfect valueof k items best Hbest Hnn Ez). lia. }
    destruct (max_value_item items Hne) as (xM & HxM & EM).
    set (M := zmax (map valueof items)) in *.
    assert (Hgap : bins_spread best <= M).
    { apply (kk_gap valueof k items best); [lia|exact Hne|exact Hnn|exact E]. }
    assert (HMt : M <= vsum items) by (rewrite <- EM; apply value_le_vsum; assumption).
    assert (Hk' : k = 1%nat \/ k = 2%nat \/ k = 3%nat \/ k = 4%nat \/ k = 5%nat) by lia.
    destruct Hk' as [->|[->|[->|[->| ->]]]].
    - exfalso. destruct Hbest as (_ & HLb & _). destruct best as [|[x lx] [|? ?]]; try discriminate HLb.
      unfold bins_spread, spread in E0. cbn in E0. lia.
    - change (rnp_rec 3 2 false [] items best) with (ckk2 items).
      destruct (ckk_partition valueof nameof 2 items) as (two & E2 & _); [lia|exact Hne|].
      exists two. exact E2.
    - rewrite rnp_rec_S. change (Nat.eqb 3 2) with false. change (Nat.odd 3) with true. cbv iota.
      destruct (rnp_dfs_total (fun _ => True) items (rnp_next_odd 3 3 false [] items) (Z.of_nat 3)
                  (vsum items) (bins_spread best)) with (rest := sort_desc valueof items) (cur := @nil A) (b := best)
        as (b' & Eb & _).
      + intros c b Hc Hu _. destruct (rnp_next3_total 2 items c b Ht Hc ltac:(lia)) as (b' & Eb).
        exists b'. split; [exact Eb|exact I].
      + apply within_start.
      + exact I.
      + exists b'. exact Eb.
    - apply rnp_rec_4_total; [exact Hnn|lia].
    - rewrite rnp_rec_S. change (Nat.eqb 5 2) with false. change (Nat.odd 5) with true. cbv iota.
      destruct (rnp_dfs_total (fun b => isP 5 items b /\ bins_spread b <= M) items
                  (rnp_next_odd 5 5 false [] items) (Z.of_nat 5)
                  (vsum items) (bins_spread best)) with (rest := sort_desc valueof items) (cur := @nil A) (b := best)
        as (b' & Eb & _).
      + intros c b Hc Hu Pb. apply (rnp_next5_total 3 items c b M Hnn); [|exact Hc|lia|exact Pb].
        exists xM. split; [exact HxM|exact EM].
      + apply within_start.
      + split; [exact Hbest|exact Hgap].
      + exists b'. exact Eb.
  Qed.

  (** C01 in full for 1..5 bins and values >= 0: rnp returns, and what it returns is a partition *)
  Corollary rnp_correct_le5 : forall k items, (1 <= k <= 5)%nat -> items <> [] -> nonneg items ->
    exists b, rnp valueof nameof true k items = Ok b /\ is_partition valueof k items b.
  Proof.
    intros k items Hk Hne Hnn. destruct (rnp_total_le5 k items Hk Hne Hnn) as (b & E).
    exists b. split; [exact E|]. apply (rnp_partition_le5 k items b Hk Hne E).
  Qed.
End RNPProofs.

(* OPEN / not covered here:
   - k >= 6.  6, 7, 10, ... bins end in Err IndexError at the first odd level below an even one
     (example rnp6_ex), so there is nothing to prove about an Ok result there except vacuously;
     8 = 4 + 4 does return, but is not covered: in the even branch the test
     "spread (sums nb1 ++ sums nb2) < d0" compares with the spread d0 of the incumbent AT ENTRY,
     while a half can come back as the CURRENT incumbent (rnp_rec_4: "b = best \/ partition"),
     so the argument "an incumbent handed back is never accepted as new bins" ([spread_app_ge],
     used for 5 = 1 + 4 in rnp_next_odd_partition) does not go through as it stands.  A vm_compute search
     over 300 random inputs (10-11 items) found no 8-bin result with a wrong number of bins.
   - [rnp_total_le5] assumes values >= 0 (used for kk_gap: spread of the KK start <= largest
     value, and for the pruning arguments).  No failing input with negative values was found
     (exhaustive vm_compute search, lists of length <= 4 over -3..3, k = 3, 4, 5), so the
     hypothesis is what the proof needs, not a known necessity.
   - the sums-only manager (keep = false) is not treated here (see EraseProofs). *)

Check @rnp_partition_45.
Check @rnp_partition_le5.
Check @rnp_total_le5.
Check @rnp_correct_le5.
Print Assumptions rnp_partition_small.
Print Assumptions rnp_partition_45.
Print Assumptions rnp_partition_le5.
Print Assumptions rnp_total_le5.
Print Assumptions rnp_correct_le5.
