(** Property C08: worst-case ratio of the Karmarkar-Karp heuristic (Model/KK.v, [kk]), first part.

    The statement of the property, [kk_ratio_43_statement] (Michiels, Korst, Aarts, van Leeuwen 2003:
    3 k L <= (4 k - 1) OPT, L = largest sum of kk) is proved here for k = 1 and k = 2; the proof for
    every k is in KKRatio43Proofs ([kk_ratio_43_statement_holds]), which uses the definitions and the
    value-level lemmas of this file.

    Proved:
      kk_dichotomy            : for every threshold G >= 0 that at most k items exceed,
                                L <= largest item   \/   largest - smallest sum <= G
      kk_ratio_32_partial     : every k:  2 k L <= (3 k - 1) OPT   (3/2 - 1/(2k); improves on
                                the (2 - 1/k) of [CKKOptimal.kk_ratio_2] for every k >= 2)
      kk_ratio_43_from_dichotomy : the property's bound for any k from the hypothesis
                                "L <= OPT or the sums differ by at most the (2k+1)-th largest
                                value"; that hypothesis holds for k = 2 ([kk_dichotomy_2k_k2]) and
                                is false for k = 3 ([kk_dichotomy_2k_fails_k3])
      kk_ratio_43_k2          : k = 2:  6 L <= 7 OPT   (Fischetti and Martello 1987; attained)
      kk_ratio_43_k12_partial : the property's bound for 1 <= k <= 2
      kk_ratio_54_k2_partial  : k = 2:  4 L <= 5 OPT   (the instance of kk_ratio_32_partial)
    A [_partial] in a name marks a constant or range weaker than the published one, not an incomplete proof.

    Proof of the dichotomy (sections 4-7): call an entry of the heap "big" when its spread
    (largest - smallest sum) exceeds G.  Heap order puts the big entries first.  As long as there
    are two big entries, each of them consists of items > G only, at most one per bin, and
    together they hold at most k such items, so combining the two top entries never puts two
    items into one bin: every sum is 0 or a single item.  When one big entry is left, the entries
    it absorbs are single items y <= G; y goes to its smallest bin, which stays below its largest
    bin because the spread exceeds G >= y: the largest sum does not change.  When no big entry is
    left, all spreads are <= G for ever ([KKProofs.kk_combine_spread]).
    With G = the (k+1)-th largest value, k + 1 values are >= G, two of them share a bin of any
    partition ([pigeon]), so 2 G <= OPT, and k L <= total + (k - 1) G ([gap_ratio]).

    Proof for k = 2 (sections 10-13): the spreads of the entries of a 2-bin heap evolve by
    differencing the two largest numbers ([kd], simulation [sim2]), and 2 L = total + final
    difference d.  With a1 >= a2 >= ... the values and G = a5 (0 if there is none): when at most
    two numbers exceed G, d <= G or the top number absorbs everything, total + d = 2 a1
    ([kd_top2]); one step earlier, with three numbers above G, total + d = 2 max (a1, a2 + a3)
    ([kd_top3]); one more step earlier, according to the place of a1 - a2 among a3, a4 and the rest,
    total + d <= 2 max (a1, a2 + a3, min (a1 + a4, a2 + a3 + a4)) ([kd_four]).  Each of these is
    at most 2 OPT ([opt2_four]: enumeration of the placements of four values in two bins); this is
    [kd_dichotomy].  And 3 a5 <= OPT because three of the five largest values share a bin. *)
From Prtpy Require Import Base.Prelude Base.Perms Model.Binner Model.KK Model.Objectives
  Spec.Partition Proofs.BaseLemmas Proofs.BinnerLemmas Proofs.KKProofs Proofs.RatioProofs
  Proofs.CKKOptimal Proofs.GreedyProofs Oracle.Reach Proofs.OracleSpec Proofs.ObjectivesProofs
  Proofs.CoveringProofs.
From Coq Require Import Sorting.Sorted ZifyBool.

(** ---- 1. value level: counting values above a threshold ---- *)
Definition ind_ge (g v : Z) : Z := if g <=? v then 1 else 0.
Definition ind_gt (g v : Z) : Z := if g <? v then 1 else 0.
Definition cnt_ge (g : Z) (l : list Z) : Z := zsum (map (ind_ge g) l).
Definition cnt_gt (g : Z) (l : list Z) : Z := zsum (map (ind_gt g) l).

Lemma pigeon m k vs s g : 0 <= g -> Forall (fun v => 0 <= v) vs -> Attainable k vs s ->
  m * Z.of_nat k < cnt_ge g vs -> (m + 1) * g <= zmax s.
Proof.
  intros Hg Hpos Hs Hc. destruct (Z_lt_le_dec (zmax s) ((m + 1) * g)) as [Hlt|Hle]; [exfalso|exact Hle].
  destruct (weights_along (fun l wl => wl * g <= l) (ind_ge g) k vs s) as (t & H1 & H2 & H3).
  - lia.
  - eapply Forall_impl; [|exact Hpos]. intros a Ha l wl Hl. cbv beta in *. unfold ind_ge. destruct (g <=? a) eqn:E; lia.
  - exact Hs.
  - assert (Ht : Forall (fun b => b <= m) t).
    { apply (Forall2_transfer (fun l wl => wl * g <= l) (fun a => a <= zmax s) (fun b => b <= m)) with (s := s);
        [|exact H1|apply zmax_ge].
      intros a b Hab Ha. destruct (Z_le_gt_dec b m) as [Hb|Hb]; [exact Hb|].
      assert ((m + 1) * g <= b * g) by (apply Z.mul_le_mono_nonneg_r; lia). lia. }
    pose proof (zsum_le_bound m t Ht) as H4. rewrite H2 in H4. unfold cnt_ge in Hc. lia.
Qed.

Lemma gap_ratio c k vs s opt G : 0 <= c -> (1 <= k)%nat -> Forall (fun v => 0 <= v) vs ->
  Attainable k vs s -> Opt MinLargest k vs opt -> c * G <= opt ->
  zmax s <= opt \/ zmax s - zmin s <= G ->
  c * Z.of_nat k * zmax s <= ((c + 1) * Z.of_nat k - 1) * opt.
Proof.
  intros Hc Hk Hpos Hs Hopt HG Hd.
  destruct (opt_minlargest_lower_bounds _ _ _ Hopt Hpos Hk) as [Hsum _].
  pose proof (opt_minlargest_nonneg _ _ _ Hopt Hpos Hk) as H0.
  set (K := Z.of_nat k) in *. assert (HK : 1 <= K) by (subst K; lia).
  assert (E0 : 0 <= (K - 1) * opt) by (apply Z.mul_nonneg_nonneg; lia).
  destruct Hd as [Hd|Hd].
  - assert (E1 : c * K * zmax s <= c * K * opt).
    { apply Z.mul_le_mono_nonneg_l; [apply Z.mul_nonneg_nonneg; lia|exact Hd]. }
    lia.
  - pose proof (Attainable_length _ _ _ Hs) as Hlen. pose proof (Attainable_sum _ _ _ Hs) as Hss.
    assert (Hne : s <> []) by (apply length_pos_ne; lia).
    pose proof (zsum_ge_one_plus_rest (zmax s) (zmin s) s (zmax_in s Hne) (zmin_le s)) as H1.
    rewrite Hlen in H1. fold K in H1.
    assert (H2 : (K - 1) * (zmax s - G) <= (K - 1) * zmin s) by (apply Z.mul_le_mono_nonneg_l; lia).
    assert (H3 : (K - 1) * (c * G) <= (K - 1) * opt) by (apply Z.mul_le_mono_nonneg_l; lia).
    assert (H4 : c * (K * zmax s) <= c * (K * opt + (K - 1) * G)) by (apply Z.mul_le_mono_nonneg_l; lia).
    lia.
Qed.

(** ---- 2. the (k+1)-th largest value ---- *)
Lemma desc_nth_split : forall k l, StronglySorted (fun a b : Z => b <= a) l -> (k < length l)%nat ->
  exists l1 l2, l = l1 ++ nth k l 0 :: l2 /\ length l1 = k /\
    Forall (fun a => nth k l 0 <= a) l1 /\ Forall (fun a => a <= nth k l 0) l2.
Proof.
  induction k as [|k IH]; intros l Hs Hlen; destruct l as [|x t]; cbn [length] in Hlen; try lia.
  - exists [], t. cbn [nth app length]. repeat split; [constructor|].
    inversion Hs as [|x' t' _ Hx]; subst. exact Hx.
  - inversion Hs as [|x' t' Hst Hx]; subst.
    destruct (IH t Hst ltac:(lia)) as (l1 & l2 & E & L & F1 & F2).
    exists (x :: l1), l2. cbn [nth app length]. repeat split.
    + f_equal. exact E.
    + lia.
    + constructor; [|exact F1]. rewrite Forall_forall in Hx. apply Hx. apply nth_In. lia.
    + exact F2.
Qed.

Lemma cnt_gt_app g l1 l2 : cnt_gt g (l1 ++ l2) = cnt_gt g l1 + cnt_gt g l2.
Proof. unfold cnt_gt. rewrite map_app, zsum_app. reflexivity. Qed.
Lemma cnt_ge_app g l1 l2 : cnt_ge g (l1 ++ l2) = cnt_ge g l1 + cnt_ge g l2.
Proof. unfold cnt_ge. rewrite map_app, zsum_app. reflexivity. Qed.
Lemma cnt_gt_cons g x l : cnt_gt g (x :: l) = ind_gt g x + cnt_gt g l.
Proof. reflexivity. Qed.
Lemma cnt_ge_cons g x l : cnt_ge g (x :: l) = ind_ge g x + cnt_ge g l.
Proof. reflexivity. Qed.

Lemma cnt_gt_bounds g l : 0 <= cnt_gt g l <= Z.of_nat (length l).
Proof.
  induction l as [|x t IH]; [cbn; lia|]. rewrite cnt_gt_cons. cbn [length]. unfold ind_gt.
  destruct (g <? x); lia.
Qed.

Lemma cnt_gt_none g l : Forall (fun a => a <= g) l -> cnt_gt g l = 0.
Proof.
  induction 1 as [|x t Hx Ht IH]; [reflexivity|]. rewrite cnt_gt_cons, IH. unfold ind_gt.
  destruct (g <? x) eqn:E; lia.
Qed.

Lemma cnt_ge_all g l : Forall (fun a => g <= a) l -> cnt_ge g l = Z.of_nat (length l).
Proof.
  induction 1 as [|x t Hx Ht IH]; [reflexivity|]. rewrite cnt_ge_cons, IH. cbn [length]. unfold ind_ge.
  destruct (g <=? x) eqn:E; lia.
Qed.

Lemma cnt_ge_nonneg g l : 0 <= cnt_ge g l.
Proof.
  induction l as [|x t IH]; [cbn; lia|]. rewrite cnt_ge_cons. unfold ind_ge. destruct (g <=? x); lia.
Qed.

Lemma cnt_ge_in g z l : In z l -> g <= z -> 1 <= cnt_ge g l.
Proof.
  induction l as [|a t IH]; [intros []|]. intros [E|Hin] Hz; rewrite cnt_ge_cons; unfold ind_ge.
  - subst a. pose proof (cnt_ge_nonneg g t). destruct (g <=? z) eqn:E; lia.
  - specialize (IH Hin Hz). destruct (g <=? a); lia.
Qed.

Lemma cnt_gt_ge g l : cnt_gt g l = cnt_ge (g + 1) l.
Proof.
  unfold cnt_gt, cnt_ge. f_equal. apply map_ext. intros a. unfold ind_gt, ind_ge.
  destruct (g <? a) eqn:E1; destruct (g + 1 <=? a) eqn:E2; lia.
Qed.

Lemma cnt_gt_all g l : Forall (fun a => g < a) l -> cnt_gt g l = Z.of_nat (length l).
Proof.
  intros H. rewrite cnt_gt_ge. apply cnt_ge_all. eapply Forall_impl; [|exact H]. intros a Ha. cbv beta in Ha. lia.
Qed.

Lemma cnt_gt_in g z l : In z l -> g < z -> 1 <= cnt_gt g l.
Proof. intros Hin Hz. rewrite cnt_gt_ge. apply (cnt_ge_in _ z); [exact Hin|lia]. Qed.

Lemma kth_threshold k l : StronglySorted (fun a b : Z => b <= a) l -> Forall (fun v => 0 <= v) l ->
  0 <= nth k l 0 /\ cnt_gt (nth k l 0) l <= Z.of_nat k /\
  ((k < length l)%nat -> Z.of_nat k < cnt_ge (nth k l 0) l).
Proof.
  intros Hs Hpos. destruct (Nat.lt_ge_cases k (length l)) as [Hlt|Hge].
  - destruct (desc_nth_split k l Hs Hlt) as (l1 & l2 & E & L & F1 & F2).
    set (G := nth k l 0) in *. split; [|split].
    + rewrite Forall_forall in Hpos. apply Hpos. apply nth_In. exact Hlt.
    + rewrite E, cnt_gt_app, cnt_gt_cons, (cnt_gt_none G l2 F2).
      pose proof (cnt_gt_bounds G l1). unfold ind_gt. destruct (G <? G) eqn:E1; lia.
    + intros _. rewrite E, cnt_ge_app, cnt_ge_cons, (cnt_ge_all G l1 F1).
      pose proof (cnt_ge_nonneg G l2). unfold ind_ge. destruct (G <=? G) eqn:E1; lia.
  - rewrite (nth_overflow l 0 Hge). split; [lia|split; [|lia]].
    pose proof (cnt_gt_bounds 0 l). lia.
Qed.

(** ---- 3. runs of kk ---- *)

Lemma kk_run_inv {A} (valueof : A -> Z) (P : @heap A -> Prop) k items b : items <> [] ->
  (forall e1 e2 rest, P (e1 :: e2 :: rest) -> P (heap_push rest (kk_combine (snd e1) (snd e2)))) ->
  P (initial_heap valueof true k items) -> kk valueof true k items = Ok b ->
  exists e, P [e] /\ b = snd e.
Proof.
  intros Hne Hstep H0 Hkk.
  assert (HI : forall fuel h, P h -> P (kk_loop fuel h)).
  { induction fuel as [|f IH]; intros h Hh; cbn [kk_loop]; [exact Hh|].
    destruct h as [|e1 [|e2 rest]]; try exact Hh. apply IH, Hstep, Hh. }
  specialize (HI (length items - 1)%nat _ H0).
  assert (Hpos : (1 <= length items)%nat) by (destruct items; [congruence|cbn [length]; lia]).
  pose proof (kk_loop_length (length items - 1) (initial_heap valueof true k items)) as HN.
  rewrite initial_heap_length in HN. specialize (HN Hpos ltac:(lia)).
  unfold kk in Hkk.
  destruct (kk_loop (length items - 1) (initial_heap valueof true k items)) as [|e [|e' r]];
    cbn [length] in HN; try lia.
  injection Hkk as <-. exists e. split; [exact HI|reflexivity].
Qed.

Definition pushed {A} (b : bins A) : @hentry A := (- bins_diff (sort_bins b), sort_bins b).

Lemma heap_push_pushed {A} (h : @heap A) b : heap_push h b = heap_insert (pushed b) h.
Proof. reflexivity. Qed.

Definition keysorted {A} (h : @heap A) : Prop := StronglySorted (fun x y : @hentry A => fst x <= fst y) h.

Lemma heap_insert_sorted {A} (e : @hentry A) h : keysorted h -> keysorted (heap_insert e h).
Proof.
  unfold keysorted. induction 1 as [|y t Ht IH Hy]; cbn [heap_insert]; [repeat constructor|].
  destruct (fst e <? fst y) eqn:E.
  - constructor; [constructor; assumption|]. constructor; [lia|].
    eapply Forall_impl; [|exact Hy]. intros z Hz. cbv beta in Hz. lia.
  - constructor; [exact IH|]. eapply Permutation_Forall; [symmetry; apply heap_insert_perm|].
    constructor; [lia|exact Hy].
Qed.

Lemma keysorted_tail {A} (e : @hentry A) h : keysorted (e :: h) -> keysorted h /\ Forall (fun y => fst e <= fst y) h.
Proof. intros H. inversion H as [|x t H1 H2]; subst. split; assumption. Qed.

Lemma initial_heap_entries {A} (valueof : A -> Z) k items :
  Permutation (initial_heap valueof true k items) (map (fun x => pushed (singleton_bins valueof true k x)) items) /\
  keysorted (initial_heap valueof true k items).
Proof.
  assert (H : forall l h, keysorted h ->
    Permutation (fold_left (fun h x => heap_push h (singleton_bins valueof true k x)) l h)
                (map (fun x => pushed (singleton_bins valueof true k x)) l ++ h) /\
    keysorted (fold_left (fun h x => heap_push h (singleton_bins valueof true k x)) l h)).
  { induction l as [|x t IH]; intros h Hh; cbn [fold_left map app]; [split; [reflexivity|exact Hh]|].
    rewrite heap_push_pushed. destruct (IH _ (heap_insert_sorted (pushed (singleton_bins valueof true k x)) h Hh)) as [P S].
    split; [|exact S]. rewrite P, heap_insert_perm. symmetry. apply Permutation_middle. }
  destruct (H (sort_desc valueof items) [] ltac:(constructor)) as [P S]. split; [|exact S].
  unfold initial_heap. rewrite P, app_nil_r. apply Permutation_map, sort_desc_perm.
Qed.

Lemma kk_spread_k1 {A} (valueof : A -> Z) items b : items <> [] -> kk valueof true 1 items = Ok b ->
  zmax (sums b) - zmin (sums b) <= 0.
Proof.
  intros Hne Hkk. destruct (kk_partition valueof 1 items ltac:(lia) Hne) as (b' & Hb' & (_ & HL & _)).
  rewrite Hkk in Hb'. injection Hb' as <-.
  destruct b as [|x [|y t]]; cbn [length] in HL; try lia. cbn. lia.
Qed.

(** ---- 4. vectors of sums ---- *)
Lemma zipsum_app a1 c1 a2 c2 : length a1 = length c1 ->
  zipsum (a1 ++ a2) (c1 ++ c2) = zipsum a1 c1 ++ zipsum a2 c2.
Proof.
  revert c1. induction a1 as [|x a1 IH]; intros [|y c1] HL; cbn [length] in HL; try discriminate.
  - reflexivity.
  - cbn [app zipsum]. f_equal. apply IH. lia.
Qed.

Lemma rev_repeat {T} (x : T) n : rev (repeat x n) = repeat x n.
Proof.
  induction n as [|n IH]; [reflexivity|]. cbn [repeat rev]. rewrite IH.
  change [x] with (repeat x 1). rewrite <- repeat_app. replace (n + 1)%nat with (S n) by lia. reflexivity.
Qed.

(** zeros ++ N1 against N2 ++ zeros, with N2 shorter than the zeros of the first vector *)
Lemma zipsum_disjoint m1 N1 N2 m2 : (length N2 <= m1)%nat ->
  (m1 + length N1 = length N2 + m2)%nat ->
  zipsum (repeat 0 m1 ++ N1) (N2 ++ repeat 0 m2) = N2 ++ repeat 0 (m1 - length N2) ++ N1.
Proof.
  intros H1 H2.
  replace m1 with (length N2 + (m1 - length N2))%nat at 1 by lia.
  replace m2 with ((m1 - length N2) + length N1)%nat by lia.
  rewrite !repeat_app, <- !app_assoc.
  rewrite zipsum_app by (rewrite repeat_length; reflexivity).
  rewrite zipsum_app by (rewrite !repeat_length; reflexivity).
  rewrite zipsum_zeros_l, zipsum_zeros_r.
  replace (zipsum (repeat 0 (m1 - length N2)) (repeat 0 (m1 - length N2))) with (repeat 0 (m1 - length N2)).
  - reflexivity.
  - rewrite <- (repeat_length 0 (m1 - length N2)) at 3. rewrite zipsum_zeros_r. reflexivity.
Qed.

Lemma cnt_gt_perm g l1 l2 : Permutation l1 l2 -> cnt_gt g l1 = cnt_gt g l2.
Proof. intros P. unfold cnt_gt. apply zsum_perm, Permutation_map, P. Qed.

Lemma cnt_gt_rev g l : cnt_gt g (rev l) = cnt_gt g l.
Proof. apply cnt_gt_perm. symmetry. apply Permutation_rev. Qed.

Section Vec.
  Variables G V : Z.
  Hypothesis HG : 0 <= G.

  Definition bigv (z : Z) : Prop := G < z <= V.
  Definition pureP (z : Z) : Prop := z = 0 \/ bigv z.
  Definition pure (s : list Z) : Prop := Forall pureP s.
  Definition sp (s : list Z) : Z := zmax s - zmin s.

  Lemma pure_zeros m : pure (repeat 0 m).
  Proof. apply Forall_forall. intros z Hz. apply repeat_spec in Hz. left. exact Hz. Qed.

  Lemma cnt_gt_zeros m : cnt_gt G (repeat 0 m) = 0.
  Proof. apply cnt_gt_none. apply Forall_forall. intros z Hz. apply repeat_spec in Hz. lia. Qed.

  Lemma pure_sorted_split s : StronglySorted Z.le s -> pure s ->
    exists m N, s = repeat 0 m ++ N /\ Forall bigv N.
  Proof.
    induction s as [|x t IH]; intros Hs Hp.
    - exists O, []. split; [reflexivity|constructor].
    - inversion Hs as [|x' t' Hst Hx]; subst. apply Forall_cons_iff in Hp. destruct Hp as [Hpx Hpt].
      destruct Hpx as [Hx0|Hxb].
      + destruct (IH Hst Hpt) as (m & N & E & HN). exists (S m), N. subst x t. split; [reflexivity|exact HN].
      + exists O, (x :: t). split; [reflexivity|]. constructor; [exact Hxb|].
        rewrite Forall_forall in *. intros z Hz. specialize (Hx z Hz). specialize (Hpt z Hz).
        unfold bigv in *. destruct Hpt as [Hz0|Hzb]; [lia|exact Hzb].
  Qed.

  Lemma cnt_gt_split m N : Forall bigv N -> cnt_gt G (repeat 0 m ++ N) = Z.of_nat (length N).
  Proof.
    intros HN. rewrite cnt_gt_app, cnt_gt_zeros, cnt_gt_all; [lia|].
    eapply Forall_impl; [|exact HN]. intros a Ha. unfold bigv in Ha. lia.
  Qed.

  Lemma bigv_pure N : Forall bigv N -> pure N.
  Proof. intros H. eapply Forall_impl; [|exact H]. intros a Ha. right. exact Ha. Qed.

  (** two pure sorted vectors holding together at most k big sums: no two big sums meet *)
  Lemma pure_combine a f : length a = length f ->
    StronglySorted Z.le a -> StronglySorted Z.le f -> pure a -> pure f ->
    cnt_gt G a + cnt_gt G f <= Z.of_nat (length a) ->
    pure (zipsum a (rev f)) /\ cnt_gt G (zipsum a (rev f)) = cnt_gt G a + cnt_gt G f.
  Proof.
    intros HL Sa Sf Pa Pf Hc.
    destruct (pure_sorted_split a Sa Pa) as (m1 & N1 & Ea & HN1).
    destruct (pure_sorted_split f Sf Pf) as (mf & Nf & Ef & HNf).
    subst a f. rewrite !cnt_gt_split in * by assumption.
    rewrite !app_length, !repeat_length in *.
    rewrite rev_app_distr, rev_repeat.
    assert (HNr : Forall bigv (rev Nf)) by (apply Forall_rev; exact HNf).
    rewrite zipsum_disjoint by (rewrite rev_length; lia).
    split.
    - apply Forall_app. split; [apply bigv_pure; exact HNr|].
      apply Forall_app. split; [apply pure_zeros|apply bigv_pure; exact HN1].
    - rewrite cnt_gt_app, (cnt_gt_split _ N1 HN1), cnt_gt_all.
      + rewrite rev_length. lia.
      + eapply Forall_impl; [|exact HNr]. intros z Hz. unfold bigv in Hz. lia.
  Qed.

  Hypothesis HV : 0 <= V.

  Lemma pure_zmax s : pure s -> zmax s <= V.
  Proof.
    intros Hp. destruct s as [|x t]; [cbn; exact HV|]. apply zmax_lub; [discriminate|].
    eapply Forall_impl; [|exact Hp]. intros a [Ha|Ha]; unfold bigv in *; lia.
  Qed.

  Lemma cnt_gt_ex l : 1 <= cnt_gt G l -> exists z, In z l /\ G < z.
  Proof.
    induction l as [|x t IH]; [cbn; lia|]. rewrite cnt_gt_cons. unfold ind_gt.
    destruct (G <? x) eqn:E; intros H.
    - exists x. split; [left; reflexivity|lia].
    - destruct (IH ltac:(lia)) as (z & Hz & Hgz). exists z. split; [right; exact Hz|exact Hgz].
  Qed.

  Lemma cnt_gt_lt_ex l : cnt_gt G l < Z.of_nat (length l) -> exists z, In z l /\ z <= G.
  Proof.
    induction l as [|x t IH]; [cbn; lia|]. rewrite cnt_gt_cons. cbn [length]. unfold ind_gt.
    destruct (G <? x) eqn:E; intros H.
    - destruct (IH ltac:(lia)) as (z & Hz & Hgz). exists z. split; [right; exact Hz|exact Hgz].
    - exists x. split; [left; reflexivity|lia].
  Qed.

  (** a pure vector with a big sum and an empty bin has a big spread *)
  Lemma pure_spread s : pure s -> 1 <= cnt_gt G s -> cnt_gt G s < Z.of_nat (length s) -> G < sp s.
  Proof.
    intros Hp H1 H2. destruct (cnt_gt_ex s H1) as (z1 & Hz1 & Hg1).
    destruct (cnt_gt_lt_ex s H2) as (z0 & Hz0 & Hg0).
    assert (E0 : z0 = 0).
    { unfold pure in Hp. rewrite Forall_forall in Hp. destruct (Hp z0 Hz0) as [E|E]; [exact E|unfold bigv in E; lia]. }
    pose proof (zmax_ge_in z1 s Hz1). pose proof (zmin_le_in z0 s Hz0). unfold sp. lia.
  Qed.

  (** absorbing a single item into the smallest bin of a vector whose spread is at least the item *)
  Lemma unit_absorb a y : a <> [] -> StronglySorted Z.le a -> 0 <= y <= sp a ->
    zmax (zipsum a (rev (repeat 0 (length a - 1) ++ [y]))) <= zmax a.
  Proof.
    intros Hne Hs Hy. destruct a as [|a0 a']; [congruence|].
    cbn [length]. replace (S (length a') - 1)%nat with (length a') by lia.
    rewrite rev_app_distr, rev_repeat. cbn [rev app zipsum]. rewrite zipsum_zeros_r.
    unfold sp in Hy. rewrite <- (hd_sorted_zmin (a0 :: a') Hs) in Hy. cbn [hd] in Hy.
    apply zmax_lub; [discriminate|]. constructor; [lia|].
    pose proof (zmax_ge (a0 :: a')) as H. apply Forall_cons_iff in H. destruct H as [_ H]. exact H.
  Qed.

  Lemma unit_spread m y : 0 <= y -> sp (repeat 0 m ++ [y]) <= y.
  Proof.
    intros Hy. unfold sp.
    assert (H1 : zmax (repeat 0 m ++ [y]) <= y).
    { apply zmax_lub; [destruct m; discriminate|]. apply Forall_app. split; [|constructor; [lia|constructor]].
      apply Forall_forall. intros z Hz. apply repeat_spec in Hz. lia. }
    assert (H2 : 0 <= zmin (repeat 0 m ++ [y])).
    { apply zmin_glb; [destruct m; discriminate|]. apply Forall_app. split; [|constructor; [lia|constructor]].
      apply Forall_forall. intros z Hz. apply repeat_spec in Hz. lia. }
    lia.
  Qed.

  Lemma sp_spread s M : sp s <= M -> spread_le M s.
  Proof.
    intros H x y Hx Hy. pose proof (zmax_ge_in x s Hx). pose proof (zmin_le_in y s Hy). unfold sp in H. lia.
  Qed.

  Lemma spread_sp s M : s <> [] -> spread_le M s -> sp s <= M.
  Proof. intros Hne H. unfold sp. apply H; [apply zmax_in|apply zmin_in]; exact Hne. Qed.

  (** ---- 5. heap entries ---- *)
  Context {A : Type}.
  Variable k : nat.
  Notation sv e := (sums (snd e)).

  (** an entry is [base]: k ascending sums, keyed by minus their spread; [small]: spread <= G;
      [unitS]: a single item y <= G; [pureE]: every sum is 0 or a single value in (G, V];
      [lineok]: big (spread > G) with largest sum <= V; [bigsum]: the number of sums above G.
      [InvB]: the big entries come first and are [lineok], the others are [unitS]; there is one big
      entry, or all are [pureE] with at most k sums above G together. *)
  Definition base (e : @hentry A) : Prop :=
    length (sv e) = k /\ StronglySorted Z.le (sv e) /\ fst e = - sp (sv e).
  Definition small (e : @hentry A) : Prop := spread_le G (sv e).
  Definition unitS (e : @hentry A) : Prop := exists y, 0 <= y <= G /\ sv e = repeat 0 (k - 1) ++ [y].
  Definition pureE (e : @hentry A) : Prop := pure (sv e).
  Definition lineok (e : @hentry A) : Prop := G < sp (sv e) /\ zmax (sv e) <= V.
  Definition bigsum (l : @heap A) : Z := zsum (map (fun e => cnt_gt G (sv e)) l).

  Definition InvB (h : @heap A) : Prop :=
    exists bigs smalls, h = bigs ++ smalls /\ Forall unitS smalls /\ Forall lineok bigs /\
      ((exists E, bigs = [E]) \/ (Forall pureE bigs /\ bigsum bigs <= Z.of_nat k)).
  Definition Inv (h : @heap A) : Prop := Forall base h /\ (Forall small h \/ InvB h).

  Lemma sv_pushed_perm (b : bins A) : Permutation (sv (pushed b)) (sums b).
  Proof. apply sort_bins_sums_perm. Qed.

  Lemma sp_perm s1 s2 : Permutation s1 s2 -> sp s1 = sp s2.
  Proof. intros P. unfold sp. rewrite (zmax_perm _ _ P), (zmin_perm _ _ P). reflexivity. Qed.

  Lemma pushed_base (b : bins A) : length b = k -> base (pushed b).
  Proof.
    intros HL. unfold base, pushed. cbn [fst snd]. split; [|split].
    - unfold sums. rewrite map_length. rewrite <- HL. apply sort_bins_length.
    - apply sort_bins_sorted.
    - rewrite (bins_diff_sorted (sort_bins b) (sort_bins_sorted b)). reflexivity.
  Qed.

  Lemma combine_sums (b1 b2 : bins A) : sums (kk_combine b1 b2) = zipsum (sums b1) (rev (sums b2)).
  Proof. unfold kk_combine. rewrite zip_combine_sums. unfold sums at 2. rewrite map_rev. reflexivity. Qed.

  (** where heap_insert puts an entry *)
  Lemma heap_insert_front (e : @hentry A) l : Forall (fun y => fst e < fst y) l -> heap_insert e l = e :: l.
  Proof.
    destruct l as [|y t]; [reflexivity|]. intros H. apply Forall_cons_iff in H. destruct H as [H _].
    cbn [heap_insert]. destruct (fst e <? fst y) eqn:E; [reflexivity|lia].
  Qed.

  Lemma heap_insert_skip (e : @hentry A) l2 : forall l1, Forall (fun y => fst y <= fst e) l1 ->
    heap_insert e (l1 ++ l2) = l1 ++ heap_insert e l2.
  Proof.
    induction l1 as [|y t IH]; intros H; [reflexivity|].
    apply Forall_cons_iff in H. destruct H as [Hy H]. cbn [app heap_insert].
    destruct (fst e <? fst y) eqn:E; [lia|]. rewrite IH by exact H. reflexivity.
  Qed.

  Lemma heap_insert_within (e : @hentry A) l2 : Forall (fun y => fst e < fst y) l2 -> forall l1,
    heap_insert e (l1 ++ l2) = heap_insert e l1 ++ l2.
  Proof.
    intros H2. induction l1 as [|y t IH]; cbn [app].
    - rewrite heap_insert_front by exact H2. reflexivity.
    - cbn [heap_insert]. destruct (fst e <? fst y); [reflexivity|]. rewrite IH. reflexivity.
  Qed.

  Lemma base_len_bins (e : @hentry A) : base e -> length (snd e) = k.
  Proof. intros (H & _ & _). unfold sums in H. rewrite map_length in H. exact H. Qed.

  Lemma new_base (e1 e2 : @hentry A) : base e1 -> base e2 -> base (pushed (kk_combine (snd e1) (snd e2))).
  Proof. intros H1 H2. apply pushed_base. rewrite kk_combine_length. apply base_len_bins. exact H1. Qed.

  Lemma new_perm (e1 e2 : @hentry A) :
    Permutation (sv (pushed (kk_combine (snd e1) (snd e2)))) (zipsum (sv e1) (rev (sv e2))).
  Proof. rewrite <- combine_sums. apply sv_pushed_perm. Qed.

  Lemma unit_small (e : @hentry A) : unitS e -> small e.
  Proof. intros (y & Hy & E). unfold small. rewrite E. apply sp_spread. pose proof (unit_spread (k - 1) y). lia. Qed.

  Lemma units_small (l : @heap A) : Forall unitS l -> Forall small l.
  Proof. intros H. eapply Forall_impl; [|exact H]. exact unit_small. Qed.

  Lemma unit_key (e : @hentry A) : base e -> unitS e -> - G <= fst e.
  Proof.
    intros (_ & _ & Hk) (y & Hy & E). rewrite Hk, E. pose proof (unit_spread (k - 1) y). lia.
  Qed.

  Lemma line_key (e : @hentry A) : base e -> G < sp (sv e) -> fst e < - G.
  Proof. intros (_ & _ & Hk) H. rewrite Hk. lia. Qed.

  Lemma units_after (e : @hentry A) smalls : base e -> G < sp (sv e) -> Forall base smalls -> Forall unitS smalls ->
    Forall (fun y => fst e < fst y) smalls.
  Proof.
    intros He Hs Hb Hu. pose proof (line_key e He Hs) as H1.
    rewrite Forall_forall in *. intros y Hy. pose proof (unit_key y (Hb y Hy) (Hu y Hy)). lia.
  Qed.

  Lemma new_small (e1 e2 : @hentry A) : base e1 -> base e2 -> small e1 -> small e2 ->
    small (pushed (kk_combine (snd e1) (snd e2))).
  Proof.
    intros B1 B2 S1 S2. unfold small. eapply spread_le_perm; [symmetry; apply sv_pushed_perm|].
    pose proof (base_len_bins e1 B1) as L1. pose proof (base_len_bins e2 B2) as L2.
    destruct B1 as (_ & So1 & _). destruct B2 as (_ & So2 & _).
    apply kk_combine_spread; try assumption. rewrite L1, L2. reflexivity.
  Qed.

  Lemma step_base (e1 e2 : @hentry A) rest : Forall base (e1 :: e2 :: rest) ->
    Forall base (heap_push rest (kk_combine (snd e1) (snd e2))).
  Proof.
    intros HB. rewrite heap_push_pushed. apply heap_insert_Forall; [exact (Forall_inv_tail (Forall_inv_tail HB))|].
    apply new_base; [exact (Forall_inv HB)|exact (Forall_inv (Forall_inv_tail HB))].
  Qed.

  (** case A: all spreads <= G *)
  Lemma step_small (e1 e2 : @hentry A) rest : Forall base (e1 :: e2 :: rest) -> Forall small (e1 :: e2 :: rest) ->
    Forall small (heap_push rest (kk_combine (snd e1) (snd e2))).
  Proof.
    intros HB HS. rewrite heap_push_pushed. apply heap_insert_Forall.
    - exact (Forall_inv_tail (Forall_inv_tail HS)).
    - apply new_small; [exact (Forall_inv HB)|exact (Forall_inv (Forall_inv_tail HB))
                       |exact (Forall_inv HS)|exact (Forall_inv (Forall_inv_tail HS))].
  Qed.

  Lemma sp_nil_contra : G < sp [] -> False.
  Proof. unfold sp. cbn. lia. Qed.

  (** case B1: one big entry absorbs a single small item *)
  Lemma step_line (e1 e2 : @hentry A) rest : Forall base (e1 :: e2 :: rest) -> lineok e1 ->
    Forall unitS (e2 :: rest) ->
    Forall small (heap_push rest (kk_combine (snd e1) (snd e2))) \/ InvB (heap_push rest (kk_combine (snd e1) (snd e2))).
  Proof.
    intros HB [Hsp Hmax] HU. rewrite heap_push_pushed.
    pose proof (Forall_inv HB) as B1. pose proof (Forall_inv (Forall_inv_tail HB)) as B2.
    pose proof (Forall_inv_tail (Forall_inv_tail HB)) as BR.
    pose proof (Forall_inv HU) as (y & Hy & Ey). pose proof (Forall_inv_tail HU) as UR.
    set (new := pushed (kk_combine (snd e1) (snd e2))).
    assert (Bn : base new) by (apply new_base; assumption).
    assert (Hz : zmax (sv new) <= V).
    { unfold new. rewrite (zmax_perm _ _ (new_perm e1 e2)), Ey.
      destruct B1 as (L1 & So1 & _). rewrite <- L1.
      assert (Hne : sv e1 <> []) by (intros E; rewrite E in Hsp; exact (sp_nil_contra Hsp)).
      pose proof (unit_absorb (sv e1) y Hne So1 ltac:(lia)). lia. }
    destruct (Z_lt_le_dec G (sp (sv new))) as [Hbig|Hsm].
    - right. exists [new], rest. split; [|split; [exact UR|split]].
      + apply heap_insert_front. apply units_after; assumption.
      + constructor; [split; assumption|constructor].
      + left. exists new. reflexivity.
    - left. apply heap_insert_Forall; [exact (units_small rest UR)|apply sp_spread; exact Hsm].
  Qed.

  Lemma pure_line_cnt s : pure s -> G < sp s -> 1 <= cnt_gt G s.
  Proof.
    intros Hp Hs. assert (Hne : s <> []) by (intros E; rewrite E in Hs; exact (sp_nil_contra Hs)).
    pose proof (zmax_in s Hne) as H1. pose proof (zmin_in s Hne) as H2.
    apply (cnt_gt_in G (zmax s) s H1). unfold pure in Hp. rewrite Forall_forall in Hp.
    destruct (Hp _ H2) as [E|E]; unfold sp, bigv in *; lia.
  Qed.

  Lemma bigsum_cons (e : @hentry A) l : bigsum (e :: l) = cnt_gt G (sv e) + bigsum l.
  Proof. reflexivity. Qed.

  Lemma bigsum_perm (l1 l2 : @heap A) : Permutation l1 l2 -> bigsum l1 = bigsum l2.
  Proof. intros P. unfold bigsum. apply zsum_perm, Permutation_map, P. Qed.

  Lemma bigsum_ge_len (l : @heap A) : Forall lineok l -> Forall pureE l -> Z.of_nat (length l) <= bigsum l.
  Proof.
    induction l as [|e t IH]; intros HL HP; [cbn; lia|].
    apply Forall_cons_iff in HL. destruct HL as [[He _] HL].
    apply Forall_cons_iff in HP. destruct HP as [Hp HP].
    rewrite bigsum_cons. cbn [length]. pose proof (pure_line_cnt (sv e) Hp He). specialize (IH HL HP). lia.
  Qed.

  (** case B2: two big entries made of big items only *)
  Lemma step_pure (e1 e2 : @hentry A) bigs' smalls :
    Forall base (e1 :: e2 :: bigs' ++ smalls) -> Forall lineok (e1 :: e2 :: bigs') ->
    Forall pureE (e1 :: e2 :: bigs') -> bigsum (e1 :: e2 :: bigs') <= Z.of_nat k ->
    Forall unitS smalls ->
    Forall small (heap_push (bigs' ++ smalls) (kk_combine (snd e1) (snd e2))) \/
    InvB (heap_push (bigs' ++ smalls) (kk_combine (snd e1) (snd e2))).
  Proof.
    intros HB HL HP HS HU. rewrite heap_push_pushed.
    pose proof (Forall_inv HB) as B1. pose proof (Forall_inv (Forall_inv_tail HB)) as B2.
    pose proof (Forall_inv_tail (Forall_inv_tail HB)) as BR.
    apply Forall_app in BR. destruct BR as [_ BRs].
    pose proof (Forall_inv HP) as P1. pose proof (Forall_inv (Forall_inv_tail HP)) as P2.
    pose proof (Forall_inv_tail (Forall_inv_tail HP)) as PR.
    pose proof (Forall_inv_tail (Forall_inv_tail HL)) as LR.
    rewrite !bigsum_cons in HS.
    pose proof (bigsum_ge_len bigs' LR PR) as Hlen.
    set (new := pushed (kk_combine (snd e1) (snd e2))).
    assert (Bn : base new) by (apply new_base; assumption).
    destruct B1 as (L1 & So1 & K1). destruct B2 as (L2 & So2 & K2).
    destruct (pure_combine (sv e1) (sv e2) ltac:(congruence) So1 So2 P1 P2 ltac:(lia)) as [Pr Cr].
    assert (Pn : pureE new).
    { unfold pureE, pure. eapply Permutation_Forall; [symmetry; apply new_perm|exact Pr]. }
    assert (Cn : cnt_gt G (sv new) = cnt_gt G (sv e1) + cnt_gt G (sv e2)).
    { unfold new. rewrite (cnt_gt_perm _ _ _ (new_perm e1 e2)). exact Cr. }
    pose proof (pure_line_cnt _ P1 (proj1 (Forall_inv HL))) as C1.
    pose proof (cnt_gt_bounds G (sv e2)) as C2.
    destruct (Z_lt_le_dec G (sp (sv new))) as [Hbig|Hsm].
    - right. exists (heap_insert new bigs'), smalls. split; [|split; [exact HU|split]].
      + apply heap_insert_within. apply units_after; assumption.
      + apply heap_insert_Forall; [exact LR|]. split; [exact Hbig|apply pure_zmax; exact Pn].
      + right. split; [apply heap_insert_Forall; assumption|].
        rewrite (bigsum_perm _ _ (heap_insert_perm new bigs')), bigsum_cons. lia.
    - left. assert (Hfull : Z.of_nat k <= cnt_gt G (sv new)).
      { destruct (Z_lt_le_dec (cnt_gt G (sv new)) (Z.of_nat k)) as [Hlt|Hge]; [|exact Hge].
        destruct Bn as (Ln & _ & _). rewrite <- Ln in Hlt.
        pose proof (pure_spread (sv new) Pn ltac:(lia) Hlt). lia. }
      assert (E : bigs' = []) by (destruct bigs'; [reflexivity|cbn [length] in Hlen; lia]).
      subst bigs'. cbn [app]. apply heap_insert_Forall; [exact (units_small smalls HU)|apply sp_spread; exact Hsm].
  Qed.

  Lemma step_Inv (e1 e2 : @hentry A) rest : Inv (e1 :: e2 :: rest) ->
    Inv (heap_push rest (kk_combine (snd e1) (snd e2))).
  Proof.
    intros [HB Hc]. split; [exact (step_base e1 e2 rest HB)|].
    destruct Hc as [HS|(bigs & smalls & E & HU & HL & Hcase)]; [left; apply step_small; assumption|].
    destruct bigs as [|b1 [|b2 bigs']]; cbn [app] in E.
    - subst smalls. left. apply step_small; [exact HB|exact (units_small _ HU)].
    - injection E as E1 E2. subst b1. apply step_line; [exact HB|exact (Forall_inv HL)|]. rewrite E2. exact HU.
    - destruct Hcase as [(E0 & Eb)|[HP Hsum]]; [discriminate Eb|].
      injection E as E1 E2 E3. subst b1 b2 rest. apply step_pure; assumption.
  Qed.

  (** what the invariant says about a heap with a single entry *)
  Lemma Inv_single (e : @hentry A) : (1 <= k)%nat -> Inv [e] ->
    zmax (sv e) <= V \/ zmax (sv e) - zmin (sv e) <= G.
  Proof.
    intros Hk [HB Hc]. pose proof (Forall_inv HB) as (L & _ & _).
    assert (Hne : sv e <> []) by (intros E; rewrite E in L; cbn [length] in L; lia).
    assert (HS : small e -> zmax (sv e) - zmin (sv e) <= G) by (intros H; apply (spread_sp _ _ Hne H)).
    destruct Hc as [HSm|(bigs & smalls & E & HU & HL & _)].
    - right. apply HS. exact (Forall_inv HSm).
    - destruct bigs as [|b1 bigs'].
      + cbn [app] in E. subst smalls. right. apply HS, unit_small. exact (Forall_inv HU).
      + cbn [app] in E. injection E as E1 _. subst b1. left. exact (proj2 (Forall_inv HL)).
  Qed.

  (** ---- 6. the initial heap ---- *)
  Lemma unit_sorted m v : 0 <= v -> StronglySorted Z.le (repeat 0 m ++ [v]).
  Proof.
    intros Hv. induction m as [|m IH]; cbn [repeat app]; [repeat constructor|].
    constructor; [exact IH|]. apply Forall_app. split; [|constructor; [lia|constructor]].
    apply Forall_forall. intros z Hz. apply repeat_spec in Hz. lia.
  Qed.

  Lemma single_vec_unit v : (1 <= k)%nat -> single_vec k v = repeat 0 (k - 1) ++ [v].
  Proof.
    intros Hk. unfold single_vec. replace k with ((k - 1) + 1)%nat at 2 by lia.
    rewrite repeat_app. cbn [repeat].
    rewrite <- (repeat_length 0 (k - 1)) at 1. rewrite update_app_r. reflexivity.
  Qed.

  Variable valueof : A -> Z.
  Notation entry x := (pushed (singleton_bins valueof true k x)).

  Lemma entry_sv x : (1 <= k)%nat -> 0 <= valueof x -> sv (entry x) = repeat 0 (k - 1) ++ [valueof x].
  Proof.
    intros Hk Hv. apply sorted_perm_eq.
    - apply sort_bins_sorted.
    - apply unit_sorted. exact Hv.
    - rewrite <- (single_vec_unit (valueof x) Hk), <- (singleton_bins_sums valueof k x). apply sv_pushed_perm.
  Qed.

  Lemma entry_base x : base (entry x).
  Proof. apply pushed_base. apply singleton_bins_length. Qed.

  Lemma entry_unit x : (1 <= k)%nat -> 0 <= valueof x <= G -> unitS (entry x).
  Proof. intros Hk Hv. exists (valueof x). split; [exact Hv|]. apply entry_sv; [exact Hk|lia]. Qed.

  Lemma entry_big x : (2 <= k)%nat -> G < valueof x <= V ->
    lineok (entry x) /\ pureE (entry x) /\ cnt_gt G (sv (entry x)) = 1.
  Proof.
    intros Hk Hv. pose proof (entry_sv x ltac:(lia) ltac:(lia)) as E.
    assert (HN : Forall bigv [valueof x]) by (constructor; [exact Hv|constructor]).
    assert (Hp : pure (sv (entry x))).
    { rewrite E. apply Forall_app. split; [apply pure_zeros|apply bigv_pure; exact HN]. }
    assert (Hc : cnt_gt G (sv (entry x)) = 1) by (rewrite E, (cnt_gt_split _ _ HN); reflexivity).
    split; [|split; [exact Hp|exact Hc]]. split; [|apply pure_zmax; exact Hp].
    apply (pure_spread _ Hp); [lia|]. rewrite Hc, E, app_length, repeat_length. cbn [length]. lia.
  Qed.

  Lemma init_fold : (2 <= k)%nat -> forall l, Forall (fun x => 0 <= valueof x <= V) l ->
    forall bigs smalls, Forall base (bigs ++ smalls) -> Forall unitS smalls ->
    Forall lineok bigs -> Forall pureE bigs ->
    exists bigs' smalls',
      fold_left (fun h x => heap_push h (singleton_bins valueof true k x)) l (bigs ++ smalls) = bigs' ++ smalls' /\
      Forall base (bigs' ++ smalls') /\ Forall unitS smalls' /\ Forall lineok bigs' /\ Forall pureE bigs' /\
      bigsum bigs' = bigsum bigs + cnt_gt G (map valueof l).
  Proof.
    intros Hk. induction l as [|x t IH]; intros Hl bigs smalls HB HU HL HP.
    - exists bigs, smalls. cbn [fold_left map]. repeat split; try assumption. cbn. lia.
    - apply Forall_cons_iff in Hl. destruct Hl as [Hx Hl]. cbn [fold_left map].
      rewrite cnt_gt_cons, heap_push_pushed.
      pose proof HB as HB'. apply Forall_app in HB'. destruct HB' as [HBb HBs].
      destruct (Z_lt_le_dec G (valueof x)) as [Hbig|Hsm].
      + destruct (entry_big x Hk ltac:(lia)) as (E1 & E2 & E3).
        rewrite heap_insert_within by (apply units_after; [apply entry_base|exact (proj1 E1)|exact HBs|exact HU]).
        destruct (IH Hl (heap_insert (entry x) bigs) smalls) as (b' & s' & F1 & F2 & F3 & F4 & F5 & F6).
        * apply Forall_app. split; [apply heap_insert_Forall; [exact HBb|apply entry_base]|exact HBs].
        * exact HU.
        * apply heap_insert_Forall; assumption.
        * apply heap_insert_Forall; assumption.
        * exists b', s'. repeat split; try assumption.
          rewrite F6, (bigsum_perm _ _ (heap_insert_perm (entry x) bigs)), bigsum_cons, E3.
          unfold ind_gt. destruct (G <? valueof x) eqn:E; lia.
      + assert (HUx : unitS (entry x)) by (apply entry_unit; lia).
        rewrite heap_insert_skip.
        * destruct (IH Hl bigs (heap_insert (entry x) smalls)) as (b' & s' & F1 & F2 & F3 & F4 & F5 & F6).
          -- apply Forall_app. split; [exact HBb|apply heap_insert_Forall; [exact HBs|apply entry_base]].
          -- apply heap_insert_Forall; assumption.
          -- exact HL.
          -- exact HP.
          -- exists b', s'. repeat split; try assumption. rewrite F6.
             unfold ind_gt. destruct (G <? valueof x) eqn:E; lia.
        * pose proof (unit_key _ (entry_base x) HUx) as Hkx.
          rewrite Forall_forall in *. intros y Hy.
          pose proof (line_key y (HBb y Hy) (proj1 (HL y Hy))). lia.
  Qed.

  Lemma initial_Inv items : (2 <= k)%nat -> Forall (fun x => 0 <= valueof x <= V) items ->
    cnt_gt G (map valueof items) <= Z.of_nat k -> Inv (initial_heap valueof true k items).
  Proof.
    intros Hk Hl Hc. unfold initial_heap.
    assert (Hl' : Forall (fun x => 0 <= valueof x <= V) (sort_desc valueof items)).
    { eapply Permutation_Forall; [symmetry; apply sort_desc_perm|exact Hl]. }
    destruct (init_fold Hk (sort_desc valueof items) Hl' [] [] ltac:(constructor) ltac:(constructor)
                ltac:(constructor) ltac:(constructor)) as (b' & s' & F1 & F2 & F3 & F4 & F5 & F6).
    cbn [app] in F1. rewrite F1. split; [exact F2|]. right. exists b', s'.
    split; [reflexivity|split; [exact F3|split; [exact F4|]]]. right. split; [exact F5|].
    rewrite F6. change (bigsum []) with 0.
    rewrite (cnt_gt_perm G _ _ (Permutation_map valueof (sort_desc_perm valueof items))). lia.
  Qed.

  (** ---- 7. the dichotomy ---- *)
  Theorem kk_dichotomy_gen items b : (1 <= k)%nat -> items <> [] ->
    Forall (fun x => 0 <= valueof x <= V) items -> cnt_gt G (map valueof items) <= Z.of_nat k ->
    kk valueof true k items = Ok b ->
    zmax (sums b) <= V \/ zmax (sums b) - zmin (sums b) <= G.
  Proof.
    intros Hk Hne Hl Hc Hkk.
    destruct (Nat.eq_dec k 1) as [E1|E1].
    - right. rewrite E1 in Hkk. pose proof (kk_spread_k1 valueof items b Hne Hkk). lia.
    - destruct (kk_run_inv valueof Inv k items b Hne step_Inv (initial_Inv items ltac:(lia) Hl Hc) Hkk)
        as (e & HI & ->).
      apply Inv_single; assumption.
  Qed.
End Vec.

(** ---- 8. the theorems ---- *)
Section KKRatio.
  Context {A : Type} (valueof : A -> Z).

  (** for every threshold G that at most k items exceed: either the largest sum is a single item,
      or the sums differ by at most G *)
  Theorem kk_dichotomy k items b G : (1 <= k)%nat -> items <> [] ->
    Forall (fun x => 0 <= valueof x) items -> 0 <= G ->
    cnt_gt G (map valueof items) <= Z.of_nat k ->
    kk valueof true k items = Ok b ->
    zmax (sums b) <= zmax (map valueof items) \/ zmax (sums b) - zmin (sums b) <= G.
  Proof.
    intros Hk Hne Hpos HG Hc Hkk. destruct (zmax_values_bound valueof items Hpos) as [HM Hall].
    apply (kk_dichotomy_gen G (zmax (map valueof items)) HG HM k valueof items b); assumption.
  Qed.

  (** G = the (k+1)-th largest value (0 when there are at most k items) *)
  Definition kth_value (k : nat) (items : list A) : Z := nth k (sorted_values valueof items) 0.

  Theorem kk_gap_kth k items b : (1 <= k)%nat -> items <> [] ->
    Forall (fun x => 0 <= valueof x) items -> kk valueof true k items = Ok b ->
    zmax (sums b) <= zmax (map valueof items) \/ zmax (sums b) - zmin (sums b) <= kth_value k items.
  Proof.
    intros Hk Hne Hpos Hkk.
    destruct (kth_threshold k (sorted_values valueof items) (sorted_values_sorted valueof items)
                (sorted_values_nonneg valueof items Hpos)) as (H0 & H1 & _).
    apply (kk_dichotomy k items b (kth_value k items)); try assumption.
    rewrite <- (cnt_gt_perm _ _ _ (sorted_values_perm valueof items)). exact H1.
  Qed.

  (** m k + 1 values are at least the (m k + 1)-th largest one, and m + 1 of them share a bin *)
  Lemma kth_value_opt m j k items opt : (1 <= k)%nat -> Forall (fun x => 0 <= valueof x) items ->
    Opt MinLargest k (map valueof items) opt -> Z.of_nat j = m * Z.of_nat k ->
    (m + 1) * kth_value j items <= opt.
  Proof.
    intros Hk Hpos Hopt Ej. pose proof (values_nonneg valueof items Hpos) as Hvs.
    destruct (kth_threshold j (sorted_values valueof items) (sorted_values_sorted valueof items)
                (sorted_values_nonneg valueof items Hpos)) as (H0 & _ & H2).
    unfold kth_value. destruct (Nat.lt_ge_cases j (length (sorted_values valueof items))) as [Hlt|Hge].
    - destruct Hopt as [(s & Hs & Ev) _]. rewrite value_MinLargest in Ev. subst opt.
      apply (pigeon m k (map valueof items) s); try assumption.
      unfold cnt_ge. rewrite <- (zsum_perm _ _ (Permutation_map _ (sorted_values_perm valueof items))).
      specialize (H2 Hlt). unfold cnt_ge in H2. lia.
    - rewrite (nth_overflow _ 0 Hge). pose proof (opt_minlargest_nonneg _ _ _ Hopt Hvs Hk). lia.
  Qed.

  (** KK's largest sum is at most (3/2 - 1/(2k)) times the optimum *)
  Theorem kk_ratio_32_partial k items b opt : (1 <= k)%nat -> items <> [] ->
    Forall (fun x => 0 <= valueof x) items -> kk valueof true k items = Ok b ->
    Opt MinLargest k (map valueof items) opt ->
    2 * Z.of_nat k * zmax (sums b) <= (3 * Z.of_nat k - 1) * opt.
  Proof.
    intros Hk Hne Hpos Hkk Hopt.
    pose proof (values_nonneg valueof items Hpos) as Hvs.
    destruct (kk_partition valueof k items Hk Hne) as (b' & Hb' & Hpart).
    rewrite Hkk in Hb'. injection Hb' as <-.
    pose proof (kth_value_opt 1 k k items opt Hk Hpos Hopt ltac:(lia)) as HG.
    pose proof (opt_minlargest_ge_vmax _ _ _ Hopt Hvs Hk) as Hvmax.
    pose proof (gap_ratio 2 k (map valueof items) (sums b) opt (kth_value k items) ltac:(lia) Hk Hvs
                  (partition_attainable valueof k items b Hpart) Hopt ltac:(lia)) as H.
    destruct (kk_gap_kth k items b Hk Hne Hpos Hkk) as [Hd|Hd]; lia.
  Qed.
End KKRatio.

(** ---- 9. the statement of property C08: 3 k L <= (4 k - 1) OPT
    (Michiels, Korst, Aarts, van Leeuwen 2003); proved for every k in KKRatio43Proofs ---- *)
Definition kk_ratio_43_statement : Prop :=
  forall (A : Type) (valueof : A -> Z) (k : nat) (items : list A) (b : bins A) (opt : Z),
    (1 <= k)%nat -> items <> [] -> Forall (fun x => 0 <= valueof x) items ->
    kk valueof true k items = Ok b -> Opt MinLargest k (map valueof items) opt ->
    3 * Z.of_nat k * zmax (sums b) <= (4 * Z.of_nat k - 1) * opt.

Section KKRatio43.
  Context {A : Type} (valueof : A -> Z).

  (** k = 1 *)
  Theorem kk_ratio_43_k1 items b opt : items <> [] -> Forall (fun x => 0 <= valueof x) items ->
    kk valueof true 1 items = Ok b -> Opt MinLargest 1 (map valueof items) opt ->
    3 * Z.of_nat 1 * zmax (sums b) <= (4 * Z.of_nat 1 - 1) * opt.
  Proof.
    intros Hne Hpos Hkk Hopt.
    pose proof (kk_ratio_2 valueof 1 items b opt ltac:(lia) Hne Hpos Hkk Hopt). lia.
  Qed.

  (** k = 2: 5/4 instead of the 7/6 of Fischetti and Martello *)
  Corollary kk_ratio_54_k2_partial items b opt : items <> [] -> Forall (fun x => 0 <= valueof x) items ->
    kk valueof true 2 items = Ok b -> Opt MinLargest 2 (map valueof items) opt ->
    4 * zmax (sums b) <= 5 * opt.
  Proof.
    intros Hne Hpos Hkk Hopt.
    pose proof (kk_ratio_32_partial valueof 2 items b opt ltac:(lia) Hne Hpos Hkk Hopt). lia.
  Qed.

  Theorem kk_ratio_43_from_dichotomy k items b opt : (1 <= k)%nat -> items <> [] ->
    Forall (fun x => 0 <= valueof x) items -> kk valueof true k items = Ok b ->
    Opt MinLargest k (map valueof items) opt ->
    zmax (sums b) <= opt \/ zmax (sums b) - zmin (sums b) <= kth_value valueof (2 * k) items ->
    3 * Z.of_nat k * zmax (sums b) <= (4 * Z.of_nat k - 1) * opt.
  Proof.
    intros Hk Hne Hpos Hkk Hopt Hd.
    destruct (kk_partition valueof k items Hk Hne) as (b' & Hb' & Hpart).
    rewrite Hkk in Hb'. injection Hb' as <-.
    pose proof (kth_value_opt valueof 2 (2 * k) k items opt Hk Hpos Hopt ltac:(lia)) as HG.
    pose proof (gap_ratio 3 k (map valueof items) (sums b) opt (kth_value valueof (2 * k) items) ltac:(lia) Hk
                  (values_nonneg valueof items Hpos) (partition_attainable valueof k items b Hpart) Hopt
                  ltac:(lia) Hd) as H.
    lia.
  Qed.
End KKRatio43.

(** ---- 10. k = 2: number differencing (Fischetti and Martello's 7/6) ---- *)

(** the list of spreads of a 2-bin heap evolves by differencing the two largest numbers *)
Fixpoint ins (x : Z) (l : list Z) : list Z :=
  match l with
  | [] => [x]
  | y :: t => if y <? x then x :: y :: t else y :: ins x t
  end.

Fixpoint kd (fuel : nat) (l : list Z) : list Z :=
  match fuel with
  | O => l
  | S f => match l with x :: y :: r => kd f (ins (x - y) r) | _ => l end
  end.

Notation desc := (StronglySorted (fun a b : Z => b <= a)).

Lemma ins_perm x l : Permutation (ins x l) (x :: l).
Proof.
  induction l as [|y t IH]; cbn [ins]; [reflexivity|]. destruct (y <? x); [reflexivity|].
  rewrite IH. apply perm_swap.
Qed.

Lemma ins_zsum x l : zsum (ins x l) = x + zsum l.
Proof. rewrite (zsum_perm _ _ (ins_perm x l)). reflexivity. Qed.

Lemma ins_length x l : length (ins x l) = S (length l).
Proof. apply (Permutation_length (ins_perm x l)). Qed.

Lemma ins_desc x l : desc l -> desc (ins x l).
Proof.
  induction 1 as [|y t Ht IH Hy]; cbn [ins]; [repeat constructor|].
  destruct (y <? x) eqn:E.
  - constructor; [constructor; assumption|]. constructor; [lia|].
    eapply Forall_impl; [|exact Hy]. intros a Ha. cbv beta in Ha. lia.
  - constructor; [exact IH|]. eapply Permutation_Forall; [symmetry; apply ins_perm|].
    constructor; [lia|exact Hy].
Qed.

Lemma ins_Forall (P : Z -> Prop) x l : P x -> Forall P l -> Forall P (ins x l).
Proof. intros Hx Hl. eapply Permutation_Forall; [symmetry; apply ins_perm|]. constructor; assumption. Qed.

Lemma ins_front x l : Forall (fun y => y < x) l -> ins x l = x :: l.
Proof.
  destruct l as [|y t]; [reflexivity|]. intros H. apply Forall_cons_iff in H. destruct H as [H _].
  cbn [ins]. destruct (y <? x) eqn:E; [reflexivity|lia].
Qed.

Lemma ins_lt x y t : y < x -> ins x (y :: t) = x :: y :: t.
Proof. intros H. cbn [ins]. destruct (y <? x) eqn:E; [reflexivity|lia]. Qed.

Lemma ins_after x y t : x <= y -> ins x (y :: t) = y :: ins x t.
Proof. intros H. cbn [ins]. destruct (y <? x) eqn:E; [lia|reflexivity]. Qed.

Lemma ins_hd x l : 0 <= x -> hd 0 (ins x l) = Z.max x (hd 0 l).
Proof.
  intros Hx. destruct l as [|y t]; cbn [ins hd]; [lia|]. destruct (y <? x) eqn:E; cbn [hd]; lia.
Qed.

Lemma desc_inv x l : desc (x :: l) -> desc l /\ Forall (fun a => a <= x) l.
Proof. intros H. inversion H as [|x' l' H1 H2]; subst. split; assumption. Qed.

Lemma desc_hd a b l : desc (a :: b :: l) -> b <= a /\ desc (b :: l).
Proof. intros H. destruct (desc_inv _ _ H) as [H1 H2]. split; [exact (Forall_inv H2)|exact H1]. Qed.

Section Diff.
  Variable G : Z.
  Hypothesis HG : 0 <= G.
  Notation below := (fun a : Z => a <= G).
  Notation nonneg := (fun a : Z => 0 <= a).

  Lemma ins_skipn x : forall l n, Forall below (skipn n l) -> Forall below (skipn (S n) (ins x l)).
  Proof.
    induction l as [|y t IH]; intros n H; cbn [ins].
    - destruct n; constructor.
    - destruct (y <? x) eqn:E; [exact H|]. destruct n as [|n]; cbn [skipn] in *.
      + apply ins_Forall; [|exact (Forall_inv_tail H)]. pose proof (Forall_inv H) as Hy. cbv beta in Hy. lia.
      + apply IH. exact H.
  Qed.

  (** a step leaves at most one number above G, at the head *)
  Lemma kd_top2 : forall f l, desc l -> Forall nonneg l -> Forall below (skipn 2 l) ->
    (1 <= length l <= S f)%nat -> exists d, kd f l = [d] /\ (d <= G \/ zsum l + d = 2 * hd 0 l).
  Proof.
    induction f as [|f IH]; intros l Hd Hp Hs Hlen; destruct l as [|x [|y r]]; cbn [length] in Hlen; try lia;
      try (exists x; split; [reflexivity|right; rewrite zsum_cons, zsum_nil; cbn [hd]; lia]).
    cbn [kd skipn] in *. destruct (desc_hd _ _ _ Hd) as [Hyx Hd1]. destruct (desc_inv _ _ Hd1) as [Hd2 _].
    apply Forall_inv_tail in Hp. apply Forall_cons_iff in Hp. destruct Hp as [Hy Hp].
    destruct (IH (ins (x - y) r)) as (d & E & Hdd).
    - apply ins_desc, Hd2.
    - apply ins_Forall; [lia|exact Hp].
    - apply (ins_skipn (x - y) r 1). destruct Hs; [constructor|assumption].
    - rewrite ins_length. lia.
    - exists d. split; [exact E|]. rewrite ins_zsum, ins_hd in Hdd by lia. rewrite !zsum_cons. cbn [hd].
      assert (Hr : hd 0 r <= G /\ hd 0 r <= zsum r).
      { destruct Hs as [|z r' Hz _]; cbn [hd]; [rewrite zsum_nil; lia|].
        rewrite zsum_cons. pose proof (zsum_nonneg r' (Forall_inv_tail Hp)). lia. }
      lia.
  Qed.

  Lemma kd_top3 f x y z q : desc (x :: y :: z :: q) -> Forall nonneg (x :: y :: z :: q) -> Forall below q ->
    (S (S (length q)) <= f)%nat ->
    exists d, kd f (x :: y :: z :: q) = [d] /\ (d <= G \/ zsum (x :: y :: z :: q) + d = 2 * Z.max x (y + z)).
  Proof.
    intros Hd Hp Hs Hlen. destruct f as [|f]; [lia|]. cbn [kd].
    destruct (desc_hd _ _ _ Hd) as [Hyx Hd1]. destruct (desc_inv _ _ Hd1) as [Hd2 _].
    destruct (kd_top2 f (ins (x - y) (z :: q))) as (d & E & Hdd).
    - apply ins_desc, Hd2.
    - apply ins_Forall; [lia|exact (Forall_inv_tail (Forall_inv_tail Hp))].
    - apply (ins_skipn (x - y) (z :: q) 1). exact Hs.
    - rewrite ins_length. cbn [length]. lia.
    - exists d. split; [exact E|]. rewrite ins_zsum, ins_hd in Hdd by lia. rewrite !zsum_cons in *.
      cbn [hd] in Hdd. lia.
  Qed.

  (** the first difference a1 - a2 lands before a3, between a3 and a4, between a4 and q, or inside q *)
  Lemma kd_four f a1 a2 a3 a4 q : desc (a1 :: a2 :: a3 :: a4 :: q) ->
    Forall nonneg (a1 :: a2 :: a3 :: a4 :: q) -> Forall below q -> (S (S (S (length q))) <= f)%nat ->
    exists d, kd f (a1 :: a2 :: a3 :: a4 :: q) = [d] /\
      (d <= G \/ zsum (a1 :: a2 :: a3 :: a4 :: q) + d
                 <= 2 * Z.max a1 (Z.max (a2 + a3) (Z.min (a1 + a4) (a2 + a3 + a4)))).
  Proof.
    intros Hd Hp Hs Hlen. destruct f as [|f]; [lia|]. cbn [kd].
    destruct (desc_hd _ _ _ Hd) as [H21 Hd1]. destruct (desc_inv _ _ Hd1) as [Hd2 _].
    pose proof (ins_desc (a1 - a2) _ Hd2) as D.
    assert (P : Forall nonneg (ins (a1 - a2) (a3 :: a4 :: q))).
    { apply ins_Forall; [lia|exact (Forall_inv_tail (Forall_inv_tail Hp))]. }
    assert (Hq : G < a1 - a2 -> Forall (fun a => a < a1 - a2) q).
    { intros Hc. eapply Forall_impl; [|exact Hs]. intros a Ha. cbv beta in Ha. lia. }
    destruct (Z_lt_le_dec a3 (a1 - a2)) as [H3|H3]; [rewrite (ins_lt _ _ _ H3) in *|rewrite (ins_after _ _ _ H3) in *].
    - destruct (kd_top3 f _ _ _ _ D P Hs ltac:(lia)) as (d & E & Hdd).
      exists d. split; [exact E|]. rewrite !zsum_cons in *. lia.
    - destruct (Z_lt_le_dec a4 (a1 - a2)) as [H4|H4]; [rewrite (ins_lt _ _ _ H4) in *|rewrite (ins_after _ _ _ H4) in *].
      + destruct (kd_top3 f _ _ _ _ D P Hs ltac:(lia)) as (d & E & Hdd).
        exists d. split; [exact E|]. rewrite !zsum_cons in *. lia.
      + destruct (Z_lt_le_dec G (a1 - a2)) as [Hc|Hc].
        * rewrite (ins_front _ _ (Hq Hc)) in *. destruct (kd_top3 f _ _ _ _ D P Hs ltac:(lia)) as (d & E & Hdd).
          exists d. split; [exact E|]. rewrite !zsum_cons in *. lia.
        * destruct (kd_top2 f _ D P) as (d & E & Hdd).
          -- cbn [skipn]. apply ins_Forall; [lia|exact Hs].
          -- cbn [length]. rewrite ins_length. lia.
          -- exists d. split; [exact E|]. rewrite !zsum_cons, ins_zsum in *. cbn [hd] in Hdd. lia.
  Qed.
End Diff.

(** ---- 11. lower bounds on the optimum for two bins ---- *)
Lemma att_prefix k p : forall q s, Forall (fun v => 0 <= v) q -> Attainable k (p ++ q) s ->
  exists s', Attainable k p s' /\ zmax s' <= zmax s.
Proof.
  intros q. induction q as [|x q IH] using rev_ind; intros s Hq Hs.
  - rewrite app_nil_r in Hs. exists s. split; [exact Hs|lia].
  - apply Forall_app in Hq. destruct Hq as [Hq Hx]. apply Forall_inv in Hx.
    rewrite app_assoc in Hs. destruct (Attainable_snoc_inv _ _ _ _ Hs) as (s1 & i & Hs1 & Hi & Es).
    destruct (IH s1 Hq Hs1) as (s' & Hs' & Hle). exists s'. split; [exact Hs'|].
    pose proof (zmax_update_mono s1 i x Hx) as H. rewrite <- Es in H. lia.
Qed.

(** the bin index i of a valid assignment to 2 bins (H : Forall (fun i => i < 2) (i :: _)) is 0 or 1 *)
Ltac two_bins i H := destruct i as [|[|i]]; [| |exfalso; apply Forall_inv in H; lia].

Lemma att2_three a1 a2 a3 s : a2 <= a1 -> a3 <= a2 -> 0 <= a3 ->
  Attainable 2 [a1; a2; a3] s -> a2 + a3 <= zmax s.
Proof.
  intros H1 H2 H3 (asg & Hl & Hv & E). subst s.
  destruct asg as [|i1 [|i2 [|i3 [|i4 r]]]]; cbn [length] in Hl; try lia.
  unfold valid_asg in Hv.
  pose proof Hv as V1. pose proof (Forall_inv_tail V1) as V2. pose proof (Forall_inv_tail V2) as V3.
  two_bins i1 V1; two_bins i2 V2; two_bins i3 V3; cbn; lia.
Qed.

Lemma att2_four a1 a2 a3 a4 s : a2 <= a1 -> a3 <= a2 -> a4 <= a3 -> 0 <= a4 ->
  Attainable 2 [a1; a2; a3; a4] s ->
  a2 + a3 <= zmax s /\ (a1 + a4 <= zmax s \/ a2 + a3 + a4 <= zmax s).
Proof.
  intros H1 H2 H3 H4 (asg & Hl & Hv & E). subst s.
  destruct asg as [|i1 [|i2 [|i3 [|i4 [|i5 r]]]]]; cbn [length] in Hl; try lia.
  unfold valid_asg in Hv.
  pose proof Hv as V1. pose proof (Forall_inv_tail V1) as V2.
  pose proof (Forall_inv_tail V2) as V3. pose proof (Forall_inv_tail V3) as V4.
  two_bins i1 V1; two_bins i2 V2; two_bins i3 V3; two_bins i4 V4; cbn; lia.
Qed.

Lemma opt2_three vs opt a1 a2 a3 q : Opt MinLargest 2 vs opt -> Permutation vs (a1 :: a2 :: a3 :: q) ->
  a2 <= a1 -> a3 <= a2 -> 0 <= a3 -> Forall (fun v => 0 <= v) q -> a2 + a3 <= opt.
Proof.
  intros [(s & Hs & Ev) _] P H1 H2 H3 Hq. rewrite value_MinLargest in Ev. subst opt.
  apply (Attainable_perm 2 _ _ s P) in Hs.
  destruct (att_prefix 2 [a1; a2; a3] q s Hq Hs) as (s' & Hs' & Hle).
  pose proof (att2_three a1 a2 a3 s' H1 H2 H3 Hs'). lia.
Qed.

Lemma opt2_four vs opt a1 a2 a3 a4 q : Opt MinLargest 2 vs opt ->
  Permutation vs (a1 :: a2 :: a3 :: a4 :: q) ->
  a2 <= a1 -> a3 <= a2 -> a4 <= a3 -> 0 <= a4 -> Forall (fun v => 0 <= v) q ->
  a2 + a3 <= opt /\ (a1 + a4 <= opt \/ a2 + a3 + a4 <= opt).
Proof.
  intros [(s & Hs & Ev) _] P H1 H2 H3 H4 Hq. rewrite value_MinLargest in Ev. subst opt.
  apply (Attainable_perm 2 _ _ s P) in Hs.
  destruct (att_prefix 2 [a1; a2; a3; a4] q s Hq Hs) as (s' & Hs' & Hle).
  pose proof (att2_four a1 a2 a3 a4 s' H1 H2 H3 H4 Hs'). lia.
Qed.

(** ---- 12. the dichotomy for number differencing: the larger part (total + d) / 2 is at most the
    optimum, or d is at most the fifth largest number ---- *)
Lemma desc_le_hd q : desc q -> Forall (fun v => 0 <= v) q ->
  0 <= nth 0 q 0 /\ Forall (fun v => v <= nth 0 q 0) q.
Proof.
  intros Hd Hq. destruct q as [|a q']; cbn [nth]; [split; [lia|constructor]|].
  split; [exact (Forall_inv Hq)|]. constructor; [lia|exact (proj2 (desc_inv _ _ Hd))].
Qed.

Theorem kd_dichotomy l vs opt : desc l -> Forall (fun v => 0 <= v) l -> l <> [] ->
  Permutation vs l -> Opt MinLargest 2 vs opt ->
  exists d, kd (length l - 1) l = [d] /\ (zsum l + d <= 2 * opt \/ d <= nth 4 l 0).
Proof.
  intros Hd Hpos Hne P Hopt.
  assert (Hvs : Forall (fun v => 0 <= v) vs) by (eapply Permutation_Forall; [symmetry; exact P|exact Hpos]).
  destruct (opt_minlargest_lower_bounds _ _ _ Hopt Hvs ltac:(lia)) as [_ Hall].
  assert (Ha1 : hd 0 l <= opt).
  { destruct l as [|a1 t]; [congruence|]. exact (Forall_inv (Permutation_Forall P Hall)). }
  destruct l as [|a1 [|a2 [|a3 [|a4 q]]]]; [congruence| | | |]; cbn [hd nth] in *.
  - exists a1. split; [reflexivity|]. rewrite zsum_cons, zsum_nil. lia.
  - exists (a1 - a2). split; [reflexivity|]. rewrite !zsum_cons, zsum_nil. lia.
  - destruct (desc_hd _ _ _ Hd) as [H21 Hd1]. destruct (desc_hd _ _ _ Hd1) as [H32 _].
    pose proof (Forall_inv (Forall_inv_tail (Forall_inv_tail Hpos))) as H3. cbv beta in H3.
    pose proof (opt2_three vs opt a1 a2 a3 [] Hopt P H21 H32 H3 ltac:(constructor)) as L23.
    destruct (kd_top3 0 ltac:(lia) 2 a1 a2 a3 [] Hd Hpos ltac:(constructor) ltac:(cbn [length]; lia))
      as (d & E & Hdd).
    exists d. split; [exact E|]. rewrite !zsum_cons, zsum_nil in *. lia.
  - destruct (desc_hd _ _ _ Hd) as [H21 Hd1]. destruct (desc_hd _ _ _ Hd1) as [H32 Hd2].
    destruct (desc_hd _ _ _ Hd2) as [H43 Hd3]. destruct (desc_inv _ _ Hd3) as [Hd4 _].
    pose proof (Forall_inv_tail (Forall_inv_tail (Forall_inv_tail Hpos))) as Hpos4.
    pose proof (Forall_inv Hpos4) as H4. pose proof (Forall_inv_tail Hpos4) as Hq. cbv beta in H4.
    destruct (opt2_four vs opt a1 a2 a3 a4 q Hopt P H21 H32 H43 H4 Hq) as [L23 L4].
    destruct (desc_le_hd q Hd4 Hq) as [HG Hs].
    destruct (kd_four (nth 0 q 0) HG (length (a1 :: a2 :: a3 :: a4 :: q) - 1) a1 a2 a3 a4 q Hd Hpos Hs
                ltac:(cbn [length]; lia)) as (d & E & Hdd).
    exists d. split; [exact E|]. rewrite !zsum_cons in *. lia.
Qed.

(** ---- 13. k = 2: the heap of the model is simulated by number differencing ---- *)
Section Sim2.
  Context {A : Type} (valueof : A -> Z).

  Definition dvals (h : @heap A) : list Z := map (fun e => - fst e) h.

  Lemma dvals_insert (e : @hentry A) h : dvals (heap_insert e h) = ins (- fst e) (dvals h).
  Proof.
    induction h as [|y t IH]; [reflexivity|]. cbn [heap_insert dvals map ins].
    destruct (fst e <? fst y) eqn:E1; destruct (- fst y <? - fst e) eqn:E2; try lia.
    - reflexivity.
    - cbn [map]. f_equal. exact IH.
  Qed.

  Lemma two_vec (e : @hentry A) : base 2 e ->
    exists lo hi, sums (snd e) = [lo; hi] /\ lo <= hi /\ fst e = - (hi - lo).
  Proof.
    intros (L & So & K). destruct (sums (snd e)) as [|lo [|hi [|z r]]]; cbn [length] in L; try lia.
    exists lo, hi. split; [reflexivity|]. inversion So as [|x t _ H]; subst.
    apply Forall_inv in H. split; [exact H|]. rewrite K. unfold sp, zmax, zmin. cbn. lia.
  Qed.

  Lemma combine_d (e1 e2 : @hentry A) : base 2 e1 -> base 2 e2 -> - fst e2 <= - fst e1 ->
    - fst (pushed (kk_combine (snd e1) (snd e2))) = (- fst e1) - (- fst e2).
  Proof.
    intros B1 B2 Hle. pose proof (new_base 2 e1 e2 B1 B2) as (_ & _ & Kn).
    rewrite Kn, (sp_perm _ _ (new_perm e1 e2)).
    destruct (two_vec e1 B1) as (l1 & h1 & E1 & O1 & K1). destruct (two_vec e2 B2) as (l2 & h2 & E2 & O2 & K2).
    rewrite E1, E2, K1, K2 in *. cbn [rev app zipsum]. unfold sp, zmax, zmin. cbn. lia.
  Qed.

  Lemma sim2 : forall f (h : @heap A), Forall (base 2) h -> desc (dvals h) ->
    dvals (kk_loop f h) = kd f (dvals h) /\ Forall (base 2) (kk_loop f h).
  Proof.
    induction f as [|f IH]; intros h HB Hd; [split; [reflexivity|exact HB]|].
    destruct h as [|e1 [|e2 rest]]; [split; [reflexivity|exact HB]|split; [reflexivity|exact HB]|].
    cbn [kk_loop]. cbn [dvals map kd]. fold (dvals rest).
    pose proof (Forall_inv HB) as B1. pose proof (Forall_inv (Forall_inv_tail HB)) as B2.
    pose proof (Forall_inv_tail (Forall_inv_tail HB)) as BR.
    cbn [dvals map] in Hd. fold (dvals rest) in Hd.
    destruct (desc_inv _ _ Hd) as [Hd1 Hx1]. destruct (desc_inv _ _ Hd1) as [Hd2 _].
    pose proof (Forall_inv Hx1) as H21. cbv beta in H21.
    rewrite <- (combine_d e1 e2 B1 B2 H21), <- dvals_insert, <- heap_push_pushed.
    apply IH.
    - rewrite heap_push_pushed. apply heap_insert_Forall; [exact BR|apply new_base; assumption].
    - rewrite heap_push_pushed, dvals_insert. apply ins_desc. exact Hd2.
  Qed.

  Lemma dvals_desc (h : @heap A) : keysorted h -> desc (dvals h).
  Proof.
    induction 1 as [|e t Ht IH He]; cbn [dvals map]; constructor; [exact IH|].
    unfold dvals. rewrite Forall_map. eapply Forall_impl; [|exact He]. intros y Hy. cbv beta in Hy. lia.
  Qed.

  Lemma desc_perm_eq l1 l2 : desc l1 -> desc l2 -> Permutation l1 l2 -> l1 = l2.
  Proof.
    intros H1 H2 P. rewrite <- (rev_involutive l1), <- (rev_involutive l2). f_equal.
    apply sorted_perm_eq; [exact (SSorted_rev _ _ H1)|exact (SSorted_rev _ _ H2)|].
    rewrite <- !Permutation_rev. exact P.
  Qed.

  Lemma entry_d x : 0 <= valueof x -> - fst (pushed (singleton_bins valueof true 2 x)) = valueof x.
  Proof.
    intros Hv. destruct (entry_base 2 valueof x) as (_ & _ & K).
    rewrite K, (entry_sv 2 valueof x ltac:(lia) Hv). unfold sp, zmax, zmin. cbn. lia.
  Qed.

  Lemma initial_dvals items : Forall (fun x => 0 <= valueof x) items ->
    dvals (initial_heap valueof true 2 items) = sorted_values valueof items /\
    Forall (base 2) (initial_heap valueof true 2 items).
  Proof.
    intros Hpos. destruct (initial_heap_entries valueof 2 items) as [P HS]. split.
    - apply desc_perm_eq; [exact (dvals_desc _ HS)|apply (sorted_values_sorted valueof items)|].
      unfold dvals. rewrite (Permutation_map _ P), map_map, (sorted_values_perm valueof items).
      rewrite (map_ext_in _ valueof); [reflexivity|].
      intros x Hx. apply entry_d. rewrite Forall_forall in Hpos. exact (Hpos x Hx).
    - eapply Permutation_Forall; [symmetry; exact P|]. rewrite Forall_map. apply Forall_forall.
      intros x _. apply entry_base.
  Qed.

  Theorem kk_dichotomy_2k_k2 items b opt : items <> [] -> Forall (fun x => 0 <= valueof x) items ->
    kk valueof true 2 items = Ok b -> Opt MinLargest 2 (map valueof items) opt ->
    zmax (sums b) <= opt \/ zmax (sums b) - zmin (sums b) <= kth_value valueof (2 * 2) items.
  Proof.
    intros Hne Hpos Hkk Hopt.
    destruct (kk_partition valueof 2 items ltac:(lia) Hne) as (b' & Hb' & Hpart).
    rewrite Hkk in Hb'. injection Hb' as <-.
    pose proof (Attainable_sum _ _ _ (partition_attainable valueof 2 items b Hpart)) as Hsum.
    destruct (initial_dvals items Hpos) as [Ed HB].
    change (kth_value valueof (2 * 2) items) with (nth 4 (sorted_values valueof items) 0).
    set (l := sorted_values valueof items) in *.
    assert (Hlen : length l = length items).
    { unfold l, sorted_values. rewrite map_length. apply sort_desc_length. }
    assert (Hl : l <> []).
    { intros E. rewrite E in Hlen. destruct items; [congruence|discriminate Hlen]. }
    destruct (kd_dichotomy l (map valueof items) opt (sorted_values_sorted valueof items)
                (sorted_values_nonneg valueof items Hpos) Hl
                (Permutation_sym (sorted_values_perm valueof items)) Hopt) as (d & Ek & Hd).
    destruct (sim2 (length items - 1) _ HB) as [Es HBf].
    { rewrite Ed. apply (sorted_values_sorted valueof items). }
    rewrite Hlen in Ek. rewrite Ed, Ek in Es.
    unfold kk in Hkk.
    destruct (kk_loop (length items - 1) (initial_heap valueof true 2 items)) as [|e [|e' r]];
      cbn [dvals map] in Es; try discriminate Es.
    injection Hkk as <-. injection Es as Ee.
    destruct (two_vec e (Forall_inv HBf)) as (lo & hi & E & Ho & K).
    rewrite E in *. rewrite <- (zsum_perm _ _ (sorted_values_perm valueof items)) in Hsum. fold l in Hsum.
    rewrite !zsum_cons, zsum_nil in Hsum.
    change (zmax [lo; hi]) with (Z.max lo hi). change (zmin [lo; hi]) with (Z.min lo hi). lia.
  Qed.

  (** C08 for k = 2 (Fischetti and Martello 1987: 7/6) *)
  Theorem kk_ratio_43_k2 items b opt : items <> [] -> Forall (fun x => 0 <= valueof x) items ->
    kk valueof true 2 items = Ok b -> Opt MinLargest 2 (map valueof items) opt ->
    3 * Z.of_nat 2 * zmax (sums b) <= (4 * Z.of_nat 2 - 1) * opt.
  Proof.
    intros Hne Hpos Hkk Hopt.
    apply (kk_ratio_43_from_dichotomy valueof 2 items b opt ltac:(lia) Hne Hpos Hkk Hopt).
    apply kk_dichotomy_2k_k2; assumption.
  Qed.
End Sim2.

Theorem kk_ratio_43_k12_partial {A} (valueof : A -> Z) k items b opt : (1 <= k <= 2)%nat ->
  items <> [] -> Forall (fun x => 0 <= valueof x) items -> kk valueof true k items = Ok b ->
  Opt MinLargest k (map valueof items) opt ->
  3 * Z.of_nat k * zmax (sums b) <= (4 * Z.of_nat k - 1) * opt.
Proof.
  intros Hk Hne Hpos Hkk Hopt. destruct (Nat.eq_dec k 1) as [E|E].
  - subst k. apply (kk_ratio_43_k1 valueof items b opt); assumption.
  - assert (E2 : k = 2%nat) by lia. subst k. apply (kk_ratio_43_k2 valueof items b opt); assumption.
Qed.

(** ---- 14. examples and checks against the exact oracle ---- *)
Notation idZ := (fun v : Z => v).

Definition kk_sums (k : nat) (vs : list Z) : list Z :=
  match kk idZ true k vs with Ok b => sums b | Err _ => [] end.
Definition optv (k : nat) (vs : list Z) : Z :=
  match opt_value MinLargest k vs with Some v => v | None => 0 end.

Lemma kk_sums_spec k vs : (1 <= k)%nat -> vs <> [] ->
  exists b, kk idZ true k vs = Ok b /\ kk_sums k vs = sums b.
Proof.
  intros Hk Hne. destruct (kk_partition idZ k vs Hk Hne) as (b & Hb & _). exists b.
  split; [exact Hb|]. unfold kk_sums. rewrite Hb. reflexivity.
Qed.

Lemma optv_spec k vs : (1 <= k)%nat -> Opt MinLargest k (map idZ vs) (optv k vs).
Proof.
  intros Hk. destruct (opt_value_spec MinLargest k vs Hk) as (v & Ev & Hv).
  unfold optv. rewrite Ev, map_id. exact Hv.
Qed.

Example kk_43_tight_k2 :
  kk_sums 2 [3; 3; 2; 2; 2] = [5; 7] /\ optv 2 [3; 3; 2; 2; 2] = 6 /\ 3 * 2 * 7 = (4 * 2 - 1) * 6.
Proof. vm_compute. repeat split; reflexivity. Qed.

Lemma opt_tight_k2 : Opt MinLargest 2 (map idZ [3; 3; 2; 2; 2]) 6.
Proof. rewrite <- (proj1 (proj2 kk_43_tight_k2)). apply optv_spec. lia. Qed.

Example kk_32_example b : kk idZ true 2 [3; 3; 2; 2; 2] = Ok b -> 4 * zmax (sums b) <= 5 * 6.
Proof.
  intros H. apply (kk_ratio_54_k2_partial idZ [3; 3; 2; 2; 2] b 6); [discriminate| |exact H|exact opt_tight_k2].
  repeat constructor; lia.
Qed.

Example kk_43_example b : kk idZ true 2 [3; 3; 2; 2; 2] = Ok b -> 6 * zmax (sums b) <= 7 * 6.
Proof.
  intros H.
  pose proof (kk_ratio_43_k2 idZ [3; 3; 2; 2; 2] b 6 ltac:(discriminate) ltac:(repeat constructor; lia) H
                opt_tight_k2) as T.
  lia.
Qed.

(** pseudo-random instances: values in 1..md *)
Fixpoint lcg43 (n : nat) (s md : Z) : list Z :=
  match n with
  | O => []
  | S m => let s' := (s * 1103515245 + 12345) mod 2147483648 in (1 + (s' / 65536) mod md) :: lcg43 m s' md
  end.
Definition inst43 (seed : Z) : nat * list Z :=
  (Z.to_nat (1 + seed mod 4), lcg43 (Z.to_nat (1 + seed mod 9)) seed (3 + seed mod 17)).

Lemma lcg43_ok n : forall s md, (1 <= n)%nat -> 0 < md ->
  lcg43 n s md <> [] /\ Forall (fun v => 0 <= v) (lcg43 n s md).
Proof.
  intros s md Hn Hmd. split; [destruct n; [lia|discriminate]|]. clear Hn. revert s.
  induction n as [|n IH]; intros s; cbn [lcg43]; constructor; [|apply IH].
  pose proof (Z.mod_pos_bound (((s * 1103515245 + 12345) mod 2147483648) / 65536) md Hmd). lia.
Qed.

Lemma inst43_ok s :
  (1 <= fst (inst43 s))%nat /\ snd (inst43 s) <> [] /\ Forall (fun v => 0 <= v) (snd (inst43 s)).
Proof.
  pose proof (Z.mod_pos_bound s 4 ltac:(lia)). pose proof (Z.mod_pos_bound s 9 ltac:(lia)).
  pose proof (Z.mod_pos_bound s 17 ltac:(lia)). unfold inst43. cbn [fst snd].
  split; [lia|apply lcg43_ok; lia].
Qed.

Definition kth_of (j : nat) (vs : list Z) : Z := nth j (sort_desc idZ vs) 0.
Definition check_dichotomy (k : nat) (vs : list Z) : bool :=
  let s := kk_sums k vs in (zmax s <=? zmax vs) || (zmax s - zmin s <=? kth_of k vs).
Definition check_32 (k : nat) (vs : list Z) : bool :=
  2 * Z.of_nat k * zmax (kk_sums k vs) <=? (3 * Z.of_nat k - 1) * optv k vs.
Definition check_43 (k : nat) (vs : list Z) : bool :=
  3 * Z.of_nat k * zmax (kk_sums k vs) <=? (4 * Z.of_nat k - 1) * optv k vs.
(** the hypothesis of [kk_ratio_43_from_dichotomy] *)
Definition check_dichotomy_2k (k : nat) (vs : list Z) : bool :=
  let s := kk_sums k vs in (zmax s <=? optv k vs) || (zmax s - zmin s <=? kth_of (2 * k) vs).

(** the property's bound read off the two elementary lower bounds of the optimum, the largest value
    and the average *)
Definition check_43_easy (k : nat) (vs : list Z) : bool :=
  let L := zmax (kk_sums k vs) in let K := Z.of_nat k in
  (3 * K * L <=? (4 * K - 1) * zmax vs) || (3 * K * (K * L) <=? (4 * K - 1) * zsum vs).

Lemma kth_of_value j vs : kth_of j vs = kth_value idZ j vs.
Proof. unfold kth_of, kth_value, sorted_values. rewrite map_id. reflexivity. Qed.

Section Checks.
  Variables (k : nat) (vs : list Z).
  Hypotheses (Hk : (1 <= k)%nat) (Hne : vs <> []) (Hpos : Forall (fun v => 0 <= v) vs).

  Lemma check_dichotomy_holds : check_dichotomy k vs = true.
  Proof.
    destruct (kk_sums_spec k vs Hk Hne) as (b & Hb & E). unfold check_dichotomy. rewrite E, kth_of_value.
    pose proof (kk_gap_kth idZ k vs b Hk Hne Hpos Hb) as H. rewrite map_id in H. lia.
  Qed.

  Lemma check_32_holds : check_32 k vs = true.
  Proof.
    destruct (kk_sums_spec k vs Hk Hne) as (b & Hb & E). unfold check_32. rewrite E.
    pose proof (kk_ratio_32_partial idZ k vs b _ Hk Hne Hpos Hb (optv_spec k vs Hk)). lia.
  Qed.

  Lemma check_43_k12_holds : (k <= 2)%nat -> check_43 k vs = true.
  Proof.
    intros Hk2. destruct (kk_sums_spec k vs Hk Hne) as (b & Hb & E). unfold check_43. rewrite E.
    pose proof (kk_ratio_43_k12_partial idZ k vs b _ (conj Hk Hk2) Hne Hpos Hb (optv_spec k vs Hk)). lia.
  Qed.

  Lemma check_43_easy_holds : check_43_easy k vs = true -> check_43 k vs = true.
  Proof.
    pose proof (optv_spec k vs Hk) as Hopt. rewrite map_id in Hopt.
    destruct (opt_minlargest_lower_bounds _ _ _ Hopt Hpos Hk) as [Hsum _].
    pose proof (opt_minlargest_ge_vmax _ _ _ Hopt Hpos Hk) as Hmax.
    unfold check_43_easy, check_43. set (K := Z.of_nat k) in *. set (L := zmax (kk_sums k vs)).
    assert (HK : 1 <= K) by (subst K; lia). intros H. apply Z.leb_le.
    apply orb_true_iff in H. destruct H as [H|H]; apply Z.leb_le in H.
    - assert ((4 * K - 1) * zmax vs <= (4 * K - 1) * optv k vs) by (apply Z.mul_le_mono_nonneg_l; lia). lia.
    - assert ((4 * K - 1) * zsum vs <= (4 * K - 1) * (K * optv k vs)) by (apply Z.mul_le_mono_nonneg_l; lia).
      apply (Z.mul_le_mono_pos_l _ _ K); lia.
  Qed.

  Lemma check_dichotomy_2k_k2_holds : k = 2%nat -> check_dichotomy_2k k vs = true.
  Proof.
    intros ->. destruct (kk_sums_spec 2 vs Hk Hne) as (b & Hb & E).
    unfold check_dichotomy_2k. rewrite E, kth_of_value.
    pose proof (kk_dichotomy_2k_k2 idZ vs b _ Hne Hpos Hb (optv_spec 2 vs Hk)). lia.
  Qed.
End Checks.

(** the property's bound on the instances with k = 3, 4 (proved for every k in KKRatio43Proofs), here by
    evaluation: against the oracle where the elementary lower bounds do not give it (3 instances of 150) *)
Lemma check_43_random_k34 :
  forallb (fun s => let (k, vs) := inst43 s in (k <=? 2)%nat || check_43_easy k vs || check_43 k vs)
          (map Z.of_nat (seq 1 300)) = true.
Proof. vm_compute. reflexivity. Qed.

Example kk_checks_random :
  forallb (fun s => let (k, vs) := inst43 s in check_dichotomy k vs && check_32 k vs && check_43 k vs)
          (map Z.of_nat (seq 1 300)) = true.
Proof.
  apply forallb_forall. intros s Hs.
  pose proof (proj1 (forallb_forall _ _) check_43_random_k34 s Hs) as H43. cbv beta in H43.
  destruct (inst43_ok s) as (Hk & Hne & Hpos). destruct (inst43 s) as [k vs]. cbn [fst snd] in *.
  rewrite check_dichotomy_holds, check_32_holds by assumption.
  destruct (k <=? 2)%nat eqn:E; [apply check_43_k12_holds; try assumption; lia|].
  destruct (check_43_easy k vs) eqn:E'; [apply check_43_easy_holds; assumption|exact H43].
Qed.

Example kk_dichotomy_2k_k2_random :
  forallb (fun s => check_dichotomy_2k 2 (lcg43 (Z.to_nat (1 + s mod 11)) s (3 + s mod 23)))
          (map Z.of_nat (seq 1 300)) = true.
Proof.
  apply forallb_forall. intros s _.
  pose proof (Z.mod_pos_bound s 11 ltac:(lia)). pose proof (Z.mod_pos_bound s 23 ltac:(lia)).
  destruct (lcg43_ok (Z.to_nat (1 + s mod 11)) s (3 + s mod 23) ltac:(lia) ltac:(lia)) as [Hne Hpos].
  apply check_dichotomy_2k_k2_holds; [lia|assumption|assumption|reflexivity].
Qed.

(** the hypothesis of [kk_ratio_43_from_dichotomy] is FALSE for k = 3: sums 6, 7, 8, optimum 7, 7th largest value 1.
    (The bound itself holds: 9 * 8 <= 11 * 7.)  So the proof of the general bound cannot be
    the threshold argument used here. *)
Example kk_dichotomy_2k_fails_k3 :
  kk_sums 3 [6; 4; 3; 3; 2; 2; 1] = [6; 7; 8] /\ optv 3 [6; 4; 3; 3; 2; 2; 1] = 7 /\
  kth_of 6 [6; 4; 3; 3; 2; 2; 1] = 1 /\ check_dichotomy_2k 3 [6; 4; 3; 3; 2; 2; 1] = false /\
  check_43 3 [6; 4; 3; 3; 2; 2; 1] = true.
Proof. vm_compute. repeat split; reflexivity. Qed.

Check kk_dichotomy.
Check kk_gap_kth.
Check kk_ratio_32_partial.
Check kk_ratio_54_k2_partial.
Check kk_ratio_43_from_dichotomy.
Check kk_ratio_43_k1.
Check kk_ratio_43_k2.
Check kk_ratio_43_k12_partial.

Print Assumptions kk_dichotomy.
Print Assumptions kk_ratio_32_partial.
Print Assumptions kk_ratio_43_from_dichotomy.
Print Assumptions kk_ratio_43_k2.
Print Assumptions kk_ratio_43_k12_partial.
Print Assumptions kk_32_example.
Print Assumptions kk_43_example.
Print Assumptions kk_checks_random.
