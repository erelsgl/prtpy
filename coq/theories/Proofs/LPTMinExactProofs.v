(** C08, max-min side, concluded: the exact guarantee of Csirik, Kellerer and Woeginger (1992) for the
    smallest sum produced by greedy (LPT), for items,
        (3k - 1) * OPTmin <= (4k - 2) * LPTmin        for every number k of bins.
    The proof is in [Proofs/LPTMinExactValues.v]; [Proofs/LPTMinProofs.v] has the statement as a proposition,
    its weaker forms and tightness. *)
From Prtpy Require Import Base.Prelude Model.Binner Model.Greedy Model.Objectives Spec.Partition
  Oracle.Reach Proofs.BaseLemmas Proofs.BinnerLemmas Proofs.GreedyProofs Proofs.RatioProofs Proofs.OracleSpec
  Proofs.LPTMinCore Proofs.LPTMinExactValues Proofs.LPTMinProofs.
From Coq Require Import Sorting.Sorted Arith ZifyBool.

Section MinExact.
  Context {A : Type} (valueof : A -> Z) (keep : bool).

  (** Csirik, Kellerer, Woeginger 1992: LPTmin >= (3k-1)/(4k-2) * OPTmin for every number of bins *)
  Theorem lpt_min_exact k items v : (1 <= k)%nat ->
    Forall (fun x => 0 <= valueof x) items -> Opt MaxSmallest k (map valueof items) v ->
    (3 * Z.of_nat k - 1) * (- v) <= (4 * Z.of_nat k - 2) * zmin (sums (greedy valueof keep k items)).
  Proof.
    intros Hk Hpos Hopt. destruct (opt_min_attained _ _ _ Hopt) as (s & Hs & ->).
    apply lpt_min_exact_attainable; assumption.
  Qed.

  (** three bins: 8 * OPTmin <= 10 * LPTmin *)
  Corollary lpt_min_exact_k3 items v :
    Forall (fun x => 0 <= valueof x) items -> Opt MaxSmallest 3 (map valueof items) v ->
    4 * (- v) <= 5 * zmin (sums (greedy valueof keep 3 items)).
  Proof.
    intros Hpos Hopt. pose proof (lpt_min_exact 3 items v ltac:(lia) Hpos Hopt) as H.
    change (Z.of_nat 3) with 3 in H. lia.
  Qed.

  (** four bins: 11 * OPTmin <= 14 * LPTmin *)
  Corollary lpt_min_exact_k4 items v :
    Forall (fun x => 0 <= valueof x) items -> Opt MaxSmallest 4 (map valueof items) v ->
    11 * (- v) <= 14 * zmin (sums (greedy valueof keep 4 items)).
  Proof.
    intros Hpos Hopt. pose proof (lpt_min_exact 4 items v ltac:(lia) Hpos Hopt) as H.
    change (Z.of_nat 4) with 4 in H. lia.
  Qed.
End MinExact.

Theorem lpt_min_ratio_statement_holds : lpt_min_ratio_statement.
Proof. intros A valueof keep k items v Hk Hpos Hopt. apply lpt_min_exact; assumption. Qed.

Print Assumptions lpt_min_exact.
Print Assumptions lpt_min_exact_k3.
Print Assumptions lpt_min_exact_k4.
Print Assumptions lpt_min_ratio_statement_holds.
