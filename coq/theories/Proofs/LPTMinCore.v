(** C08, max-min side: the greedy (LPT) loop on a list of values, run together with a weight per bin.
    The guarantees for the smallest sum ([Proofs/LPTMinFullProofs.v], [Proofs/LPTMinExactValues.v]) are
    weighting arguments whose weights depend on the run.  This file has what they share: a run is cut at its
    last step of some kind ([last_step]); a relation between the load and the weight of a bin is carried
    along each part ([run_inv]); in the end all bins of greedy
    weigh at most some B and the smallest one less ([one_light_bin]), while the values weigh at least k B
    because they can be distributed so that every bin reaches T ([subadditive_total]).  The weights used are
    staircases with any number of levels ([stair]), subadditive by one argument ([stair_sub]). *)
From Prtpy Require Import Base.Prelude Model.Binner Model.Greedy Model.Objectives Spec.Partition
  Oracle.Reach Proofs.BaseLemmas Proofs.BinnerLemmas Proofs.GreedyProofs Proofs.RatioProofs Proofs.OracleSpec.
From Coq Require Import Sorting.Sorted Arith ZifyBool.

(** ---- pairs of lists ---- *)

Lemma Forall2_impl {T U} (P Q : T -> U -> Prop) : (forall a b, P a b -> Q a b) ->
  forall s t, Forall2 P s t -> Forall2 Q s t.
Proof. intros H s t H2. induction H2 as [|a b s t Hab Hst IH]; constructor; auto. Qed.

Lemma Forall2_impl_l {U V} (R : U -> Prop) (P Q : U -> V -> Prop) :
  (forall a b, R a -> P a b -> Q a b) -> forall s t, Forall R s -> Forall2 P s t -> Forall2 Q s t.
Proof.
  intros H s t HR H2. induction H2 as [|a b s t Hab Hst IH]; constructor.
  - apply H; [exact (Forall_inv HR)|exact Hab].
  - apply IH. exact (Forall_inv_tail HR).
Qed.

Lemma Forall2_nth {T U} (P : T -> U -> Prop) d e s t : Forall2 P s t ->
  forall i, (i < length s)%nat -> P (nth i s d) (nth i t e).
Proof.
  induction 1 as [|a b s t Hab Hst IH]; intros [|i] Hi; simpl in *; try lia; auto.
  apply IH. lia.
Qed.

(** update at one index, the new pair being justified separately *)
Lemma Forall2_update_at {T U} (P : T -> U -> Prop) (f : T -> T) (g : U -> U) d e s t i :
  Forall2 P s t -> (i < length s)%nat -> P (f (nth i s d)) (g (nth i t e)) ->
  Forall2 P (update i f s) (update i g t).
Proof.
  intros H. revert i. induction H as [|a b s t Hab Hst IH]; intros [|i] Hi Hp; simpl in *; try lia.
  - constructor; auto.
  - constructor; auto. apply IH; [lia|exact Hp].
Qed.

Lemma Forall2_zsum_le {U} (P : U -> Z -> Prop) B g t : Forall2 P g t -> (forall l wl, P l wl -> wl <= B) ->
  zsum t <= Z.of_nat (length g) * B.
Proof.
  intros H HB. induction H as [|a b g t Hab Hgt IH]; [simpl; lia|].
  pose proof (HB a b Hab). simpl zsum. cbn [length]. lia.
Qed.

Lemma one_light_bin (P : Z -> Z -> Prop) A B g t : g <> [] -> Forall2 P g t ->
  (forall l wl, P l wl -> wl <= B) -> (forall wl, P (zmin g) wl -> wl <= A) ->
  zsum t <= A + (Z.of_nat (length g) - 1) * B.
Proof.
  intros Hne H HB HA. pose proof (zmin_in g Hne) as Hin.
  remember (zmin g) as m eqn:E. clear E Hne.
  induction H as [|a b g t Hab Hgt IH]; [contradiction|].
  simpl zsum. cbn [length]. destruct Hin as [E|Hin].
  - subst a. pose proof (HA b Hab). pose proof (Forall2_zsum_le P B g t Hgt HB). lia.
  - specialize (IH Hin). pose proof (HB a b Hab). lia.
Qed.

Lemma light_bin_refutes (P : Z -> Z -> Prop) (w : Z -> Z) B k g t vs : (1 <= k)%nat -> length g = k ->
  Forall2 P g t -> zsum t = zsum (map w vs) ->
  (forall l wl, P l wl -> wl <= B) -> (forall wl, P (zmin g) wl -> wl < B) ->
  Z.of_nat k * B <= zsum (map w vs) -> False.
Proof.
  intros Hk Hg Ht Hsum HB HA Hdown.
  assert (Hne : g <> []) by (intros E; subst g; simpl in Hg; lia).
  pose proof (one_light_bin P (B - 1) B g t Hne Ht HB) as Hup. rewrite Hg in Hup.
  assert (zsum t <= B - 1 + (Z.of_nat k - 1) * B) by (apply Hup; intros wl Hw; pose proof (HA wl Hw); lia).
  lia.
Qed.

(** ---- the smallest load along the greedy loop ---- *)

Lemma vgreedy_cons a l g : vgreedy (a :: l) g = vgreedy l (vstep g a).
Proof. reflexivity. Qed.

Lemma vgreedy_app l1 l2 g : vgreedy (l1 ++ l2) g = vgreedy l2 (vgreedy l1 g).
Proof. unfold vgreedy. apply fold_left_app. Qed.

Lemma argmin_is_zmin s : (1 <= length s)%nat -> nth (argmin s) s 0 = zmin s.
Proof.
  intros H. pose proof (argmin_least s H) as Hl. pose proof (argmin_lt s H) as Hi.
  assert (Hne : s <> []) by (apply length_pos_ne; exact H).
  pose proof (zmin_in s Hne) as Hin. rewrite Forall_forall in Hl. specialize (Hl _ Hin).
  assert (Hn : In (nth (argmin s) s 0) s) by (apply nth_In; exact Hi).
  pose proof (zmin_le_in _ _ Hn). lia.
Qed.

Lemma vstep_zmin_ge s x : (1 <= length s)%nat -> 0 <= x -> zmin s <= zmin (vstep s x).
Proof.
  intros H Hx.
  assert (Hne : vstep s x <> []) by (apply length_pos_ne; rewrite vstep_length; exact H).
  pose proof (zmin_in _ Hne) as Hin. unfold vstep in Hin. apply (In_update _ 0) in Hin.
  destruct Hin as [Hin|[_ Hin]].
  - apply zmin_le_in. exact Hin.
  - fold (vstep s x) in Hin. rewrite Hin, argmin_is_zmin by exact H. lia.
Qed.

Lemma vgreedy_zmin_ge l : forall g, (1 <= length g)%nat -> Forall (fun v => 0 <= v) l ->
  zmin g <= zmin (vgreedy l g).
Proof.
  induction l as [|a l IH]; intros g Hg Hpos; [cbn; lia|].
  inversion Hpos as [|a' l' Ha Hl]; subst. rewrite vgreedy_cons.
  pose proof (vstep_zmin_ge g a Hg Ha) as H1.
  specialize (IH (vstep g a) ltac:(rewrite vstep_length; exact Hg) Hl). lia.
Qed.

Lemma zmin_repeat0 n : zmin (repeat 0 n) = 0.
Proof.
  destruct n as [|n]; [reflexivity|].
  assert (H : In (zmin (repeat 0 (S n))) (repeat 0 (S n))) by (apply zmin_in; simpl; discriminate).
  apply repeat_spec in H. exact H.
Qed.

Lemma vgreedy0_length k l : length (vgreedy l (repeat 0 k)) = k.
Proof. rewrite vgreedy_length. apply repeat_length. Qed.

Lemma init_zmin_nonneg k l : (1 <= k)%nat -> Forall (fun v => 0 <= v) l -> 0 <= zmin (vgreedy l (repeat 0 k)).
Proof.
  intros Hk Hpos.
  pose proof (vgreedy_zmin_ge l (repeat 0 k) ltac:(rewrite repeat_length; exact Hk) Hpos) as H.
  rewrite zmin_repeat0 in H. exact H.
Qed.

(** ---- what the values weigh at least ---- *)

Lemma subadditive_total (w : Z -> Z) T B k vs s :
  w 0 <= 0 -> (forall p q, 0 <= p -> 0 <= q -> w (p + q) <= w p + w q) -> (forall l, T <= l -> B <= w l) ->
  Forall (fun v => 0 <= v) vs -> Attainable k vs s -> Forall (fun a => T <= a) s ->
  Z.of_nat k * B <= zsum (map w vs).
Proof.
  intros H0 Hsub Htop Hpos Hs HT.
  destruct (weights_along (fun l wl => 0 <= l /\ w l <= wl) w k vs s) as (t & Ht & Hlen & Hsum).
  - lia.
  - eapply Forall_impl; [|exact Hpos]. intros a Ha l wl [Hl Hw]. cbv beta in Ha.
    pose proof (Hsub l a Hl Ha). lia.
  - exact Hs.
  - rewrite <- Hsum, <- Hlen. apply zsum_ge_bound.
    apply (Forall2_transfer (fun l wl => 0 <= l /\ w l <= wl) (fun a => T <= a) (fun b => B <= b)) with (s := s);
      [|exact Ht|exact HT].
    intros a b [_ Hw] Ha. pose proof (Htop a Ha). lia.
Qed.

(** the value of an item, counted at most [C] *)
Definition cap (C a : Z) : Z := Z.min a C.

Lemma cap_total T k vs s : 0 <= T -> Forall (fun v => 0 <= v) vs -> Attainable k vs s ->
  Forall (fun a => T <= a) s -> Z.of_nat k * T <= zsum (map (cap T) vs).
Proof. intros HT. apply subadditive_total; unfold cap; lia. Qed.

(** ---- a relation between load and weight along a run ---- *)

(** one step of the loop on loads paired with weights: the touched bin is the smallest one *)
Lemma step_F2 (P Q : Z -> Z -> Prop) g t a w : (1 <= length g)%nat -> Forall2 P g t ->
  (forall l wl, P l wl -> Q l wl) ->
  (forall wl, P (zmin g) wl -> Q (zmin g + a) (wl + w)) ->
  Forall2 Q (vstep g a) (update (argmin g) (fun b => b + w) t) /\
  zsum (update (argmin g) (fun b => b + w) t) = zsum t + w.
Proof.
  intros Hlen H Hw Ht. pose proof (argmin_lt g Hlen) as Hi. split.
  - unfold vstep. apply (Forall2_update_at _ _ _ 0 0).
    + eapply Forall2_impl; [|exact H]. exact Hw.
    + exact Hi.
    + pose proof (Forall2_nth _ 0 0 g t H (argmin g) Hi) as Hb.
      rewrite argmin_is_zmin in * by exact Hlen. apply Ht. exact Hb.
  - rewrite zsum_update; [lia|]. rewrite <- (Forall2_length_eq _ _ _ H). exact Hi.
Qed.

Lemma sorted_desc_app_inv l1 a l2 : StronglySorted (fun a b : Z => b <= a) (l1 ++ a :: l2) ->
  StronglySorted (fun a b : Z => b <= a) l1 /\ Forall (fun b => a <= b) l1 /\
  StronglySorted (fun a b : Z => b <= a) l2 /\ Forall (fun b => b <= a) l2.
Proof.
  intros H. apply StronglySorted_app_inv in H. destruct H as (H1 & H2 & H3).
  inversion H2 as [|a' l' Hs2 Ha]; subst. repeat split; try assumption.
  eapply Forall_impl; [|exact H3]. intros b Hb. exact (Forall_inv Hb).
Qed.

(** no step of the run of l from g satisfies R / every step satisfies S *)
Fixpoint nstep (R : list Z -> Z -> Prop) (l : list Z) (g : list Z) : Prop :=
  match l with [] => True | a :: l' => ~ R g a /\ nstep R l' (vstep g a) end.

Fixpoint allstep (S : list Z -> Z -> Prop) (l : list Z) (g : list Z) : Prop :=
  match l with [] => True | a :: l' => S g a /\ allstep S l' (vstep g a) end.

Lemma last_step (R : list Z -> Z -> Prop) : (forall g a, R g a \/ ~ R g a) -> forall l g,
  nstep R l g \/
  exists l1 a l2, l = l1 ++ a :: l2 /\ R (vgreedy l1 g) a /\ nstep R l2 (vstep (vgreedy l1 g) a).
Proof.
  intros dec l. induction l as [|a l IH]; intros g; [left; exact I|].
  destruct (IH (vstep g a)) as [Hn|(l1 & b & l2 & El & Ho & Hn)].
  - destruct (dec g a) as [Ho|Ho].
    + right. exists [], a, l. split; [reflexivity|]. split; [exact Ho|exact Hn].
    + left. split; assumption.
  - right. exists (a :: l1), b, l2. subst l. split; [reflexivity|]. split; assumption.
Qed.

(** the empty kind of step *)
Definition RF (g : list Z) (c : Z) : Prop := False.

Lemma nstep_RF l : forall g, nstep RF l g.
Proof. induction l as [|a l IH]; intros g; cbn; [exact I|]. split; [intros H; exact H|apply IH]. Qed.

Lemma allstep_app S l1 : forall l2 g, allstep S l1 g -> allstep S l2 (vgreedy l1 g) -> allstep S (l1 ++ l2) g.
Proof.
  induction l1 as [|a l1 IH]; intros l2 g H1 H2; [exact H2|].
  destruct H1 as [Ha H1]. cbn [app allstep]. split; [exact Ha|]. apply IH; assumption.
Qed.

Lemma allstep_impl (S S' : list Z -> Z -> Prop) : (forall g c, S g c -> S' g c) ->
  forall l g, allstep S l g -> allstep S' l g.
Proof.
  intros H l. induction l as [|a l IH]; intros g Hl; [exact I|].
  destruct Hl as [Ha Hl]. split; [apply H; exact Ha|apply IH; exact Hl].
Qed.

(** the usual shape of a side condition: bounds on the smallest load, a property of the item,
    and the step is not of kind R *)
Definition side (lo m : Z) (E : Z -> Prop) (R : list Z -> Z -> Prop) (g : list Z) (c : Z) : Prop :=
  lo <= zmin g <= m /\ E c /\ ~ R g c.

Lemma allstep_intro lo m (E : Z -> Prop) R : forall l g, (1 <= length g)%nat ->
  Forall (fun c => 0 <= c /\ E c) l -> nstep R l g -> zmin (vgreedy l g) <= m -> lo <= zmin g ->
  allstep (side lo m E R) l g.
Proof.
  induction l as [|a l IH]; intros g Hg Hl Hn Hm Hlo; [exact I|].
  pose proof (Forall_inv Hl) as [Ha HE]. pose proof (Forall_inv_tail Hl) as Hl'.
  destruct Hn as [Hna Hn]. rewrite vgreedy_cons in Hm.
  assert (Hg' : (1 <= length (vstep g a))%nat) by (rewrite vstep_length; exact Hg).
  pose proof (vstep_zmin_ge g a Hg Ha) as Hm1.
  assert (Hpos : Forall (fun v => 0 <= v) l).
  { eapply Forall_impl; [|exact Hl']. intros b Hb. cbv beta in Hb. tauto. }
  pose proof (vgreedy_zmin_ge l (vstep g a) Hg' Hpos) as Hm2.
  split.
  - unfold side. repeat split; try assumption; lia.
  - apply IH; try assumption. lia.
Qed.

(** a per-bin invariant [Inv y] (y bounds the later items from above) along a run *)
Lemma run_inv (Inv : Z -> Z -> Z -> Prop) (w : Z -> Z) (S : list Z -> Z -> Prop) :
  (forall y c l wl, c <= y -> Inv y l wl -> Inv c l wl) ->
  (forall g c y wl, S g c -> c <= y -> Inv y (zmin g) wl -> Inv c (zmin g + c) (wl + w c)) ->
  forall l g t y, (1 <= length g)%nat -> StronglySorted (fun a b : Z => b <= a) l ->
  Forall (fun c => c <= y) l -> allstep S l g -> Forall2 (Inv y) g t ->
  exists t' y', Forall2 (Inv y') (vgreedy l g) t' /\ zsum t' = zsum t + zsum (map w l) /\
                Forall (fun c => y' <= c) l /\ y' <= y.
Proof.
  intros Hweak Hstep l. induction l as [|a l IH]; intros g t y Hg Hsort Hy Hall Ht.
  - exists t, y. split; [exact Ht|]. split; [cbn; lia|]. split; [constructor|lia].
  - apply StronglySorted_inv in Hsort. destruct Hsort as [Hsl Hal].
    pose proof (Forall_inv Hy) as Hay. cbv beta in Hay. destruct Hall as [HS Hall].
    assert (Hg' : (1 <= length (vstep g a))%nat) by (rewrite vstep_length; exact Hg).
    destruct (step_F2 (Inv y) (Inv a) g t a (w a) Hg Ht) as [HF Hs].
    + intros l0 wl Hq. apply (Hweak y); assumption.
    + intros wl Hq. apply (Hstep g a y); assumption.
    + destruct (IH _ _ a Hg' Hsl Hal Hall HF) as (t' & y' & Ht' & Hsum & Hy' & Hle).
      exists t', y'. rewrite vgreedy_cons. split; [exact Ht'|]. split; [|split].
      * rewrite Hsum, Hs. cbn [map]. change (zsum (?b :: ?r)) with (b + zsum r). lia.
      * constructor; [lia|exact Hy'].
      * lia.
Qed.

Lemma run_inv0 (Inv : Z -> Z -> Z -> Prop) (w : Z -> Z) (S : list Z -> Z -> Prop) k l :
  (forall y, Inv y 0 0) ->
  (forall y c l wl, c <= y -> Inv y l wl -> Inv c l wl) ->
  (forall g c y wl, S g c -> c <= y -> Inv y (zmin g) wl -> Inv c (zmin g + c) (wl + w c)) ->
  (1 <= k)%nat -> StronglySorted (fun a b : Z => b <= a) l -> allstep S l (repeat 0 k) ->
  exists t y, Forall2 (Inv y) (vgreedy l (repeat 0 k)) t /\ zsum t = zsum (map w l).
Proof.
  intros H0 Hweak Hstep Hk Hsort Hall.
  destruct (run_inv Inv w S Hweak Hstep l (repeat 0 k) (repeat 0 k) (zmax l)) as (t & y & Ht & Hsum & _ & _).
  - rewrite repeat_length. exact Hk.
  - exact Hsort.
  - apply zmax_ge.
  - exact Hall.
  - apply Forall2_repeat. apply H0.
  - exists t, y. rewrite zsum_repeat0 in Hsum. split; [exact Ht|lia].
Qed.

(** ---- the last overfull step ---- *)

(** a step is overfull when the item lands on a bin at least as large as itself and lifts it above T *)
Definition over (T : Z) (g : list Z) (a : Z) : Prop := a <= zmin g /\ T < zmin g + a.

Lemma over_dec T g a : over T g a \/ ~ over T g a.
Proof. unfold over. lia. Qed.

(** a step is open when the item lands on a bin at least as large as itself and the bin can still
    receive items afterwards (load at most L) *)
Definition opn (L : Z) (g : list Z) (c : Z) : Prop := c <= zmin g /\ zmin g + c <= L.

Lemma opn_dec L g c : opn L g c \/ ~ opn L g c.
Proof. unfold opn. lia. Qed.

Lemma cut_sides (R1 R2 : list Z -> Z -> Prop) lo e g l1 c l2 :
  (1 <= length g)%nat -> lo <= zmin g -> 0 <= e ->
  StronglySorted (fun a b : Z => b <= a) (l1 ++ c :: l2) -> Forall (fun v => e <= v) (l1 ++ c :: l2) ->
  let g1 := vgreedy l1 g in let m1 := zmin g1 in let m2 := zmin (vgreedy l2 (vstep g1 c)) in
  nstep R1 l1 g -> nstep R2 l2 (vstep g1 c) ->
  (lo <= m1 <= m2 /\ e <= c) /\
  allstep (side lo m1 (fun d => c <= d) R1) l1 g /\
  allstep (side m1 m2 (fun d => e <= d <= c) R2) l2 (vstep g1 c).
Proof.
  intros Hg Hlo He Hsort Hpos g1 m1 m2 Hn1 Hn2.
  destruct (sorted_desc_app_inv l1 c l2 Hsort) as (_ & Hge1 & _ & Hle2).
  apply Forall_app in Hpos. destruct Hpos as [Hpos1 Hpos2].
  pose proof (Forall_inv Hpos2) as Hc0. pose proof (Forall_inv_tail Hpos2) as Hpos2'. cbv beta in Hc0.
  assert (Hg1 : (1 <= length g1)%nat) by (unfold g1; rewrite vgreedy_length; exact Hg).
  assert (Hg2 : (1 <= length (vstep g1 c))%nat) by (rewrite vstep_length; exact Hg1).
  assert (Hnn1 : Forall (fun v => 0 <= v) l1) by (eapply Forall_impl; [|exact Hpos1]; cbv beta; lia).
  assert (Hnn2 : Forall (fun v => 0 <= v) l2) by (eapply Forall_impl; [|exact Hpos2']; cbv beta; lia).
  pose proof (vgreedy_zmin_ge l1 g Hg Hnn1) as Hm0. fold g1 in Hm0. fold m1 in Hm0.
  pose proof (vstep_zmin_ge g1 c Hg1 ltac:(lia)) as Hm1. fold m1 in Hm1.
  pose proof (vgreedy_zmin_ge l2 (vstep g1 c) Hg2 Hnn2) as Hm2. fold m2 in Hm2.
  split; [lia|]. split.
  - apply allstep_intro; try assumption.
    + eapply Forall_impl; [|exact (Forall_and Hpos1 Hge1)]. cbv beta. lia.
    + fold g1. fold m1. lia.
  - apply allstep_intro; try assumption.
    + eapply Forall_impl; [|exact (Forall_and Hpos2' Hle2)]. cbv beta. lia.
    + fold m2. lia.
Qed.

Lemma open_over_sides (R : list Z -> Z -> Prop) T k lA b lB a lC : (1 <= k)%nat ->
  StronglySorted (fun a b : Z => b <= a) ((lA ++ b :: lB) ++ a :: lC) ->
  Forall (fun v => 0 <= v) ((lA ++ b :: lB) ++ a :: lC) ->
  let gA := vgreedy lA (repeat 0 k) in let p := zmin gA in
  let gB := vgreedy lB (vstep gA b) in let x := zmin gB in
  let L := zmin (vgreedy lC (vstep gB a)) in
  nstep R lA (repeat 0 k) ->
  opn L gA b -> nstep (opn L) lB (vstep gA b) -> over T gB a -> nstep (over T) lC (vstep gB a) ->
  (0 <= p <= x /\ x <= L /\ 0 <= a <= b /\ b <= p /\ p + b <= L /\ a <= x /\ T < x + a) /\
  allstep (side 0 p (fun c => b <= c) R) lA (repeat 0 k) /\
  allstep (side p x (fun c => a <= c <= b) (opn L)) lB (vstep gA b) /\
  allstep (side x L (fun c => 0 <= c <= a) (over T)) lC (vstep gB a).
Proof.
  intros Hk Hsort Hpos gA p gB x L HnA [Hbp Hpb] HnB [Hax Hxa] HnC.
  assert (Hk0 : (1 <= length (repeat 0%Z k))%nat) by (rewrite repeat_length; exact Hk).
  assert (H00 : 0 <= zmin (repeat 0 k)) by (rewrite zmin_repeat0; lia).
  destruct (sorted_desc_app_inv (lA ++ b :: lB) a lC Hsort) as (Hs1 & Hge1 & _ & _).
  assert (EB : vgreedy (lA ++ b :: lB) (repeat 0 k) = gB) by (rewrite vgreedy_app, vgreedy_cons; reflexivity).
  destruct (cut_sides RF (over T) 0 0 (repeat 0 k) (lA ++ b :: lB) a lC Hk0 H00 (Z.le_refl 0) Hsort Hpos)
    as (H1 & _ & HallC); [apply nstep_RF|rewrite EB; exact HnC|].
  rewrite EB in H1, HallC.
  destruct (cut_sides R (opn L) 0 a (repeat 0 k) lA b lB Hk0 H00 ltac:(lia) Hs1 Hge1 HnA HnB)
    as (H2 & HallA & HallB).
  fold gA in H2, HallA, HallB. fold p in H2, HallA, HallB. fold gB in H2, HallB. fold x in H1, H2, HallB, HallC.
  fold L in H1, HallC. fold p in Hbp, Hpb. fold x in Hax, Hxa.
  split; [lia|]. split; [exact HallA|]. split; [exact HallB|exact HallC].
Qed.

(** ---- staircase weights ---- *)

(** Weights are counted in doubled units.  Level j of the staircase with step height h and shift dd is the
    plateau j h followed by a ramp of slope 2 that starts j dd below twice the value. *)
Definition level (h dd : Z) (j : nat) (v : Z) : Z := Z.max (Z.of_nat j * h) (2 * v - Z.of_nat j * dd).

(** the smallest of the levels j, ..., j + n - 1 and the top plateau (j + n) h; the staircase with n levels
    is [stair h dd n 0] *)
Fixpoint stair (h dd : Z) (n j : nat) (v : Z) : Z :=
  match n with O => Z.of_nat j * h | S m => Z.min (level h dd j v) (stair h dd m (S j) v) end.

Lemma stair_lub h dd v n : forall j, stair h dd n j v <= Z.of_nat (j + n) * h /\
  forall i, (j <= i < j + n)%nat -> stair h dd n j v <= level h dd i v.
Proof.
  induction n as [|n IH]; intros j; cbn [stair].
  - rewrite Nat.add_0_r. split; lia.
  - destruct (IH (S j)) as [Ht Hl]. rewrite <- Nat.add_succ_comm. split; [lia|].
    intros i Hi. destruct (Nat.eq_dec i j) as [->|Hne]; [lia|]. specialize (Hl i ltac:(lia)). lia.
Qed.

Lemma stair_glb h dd v B n : forall j, B <= Z.of_nat (j + n) * h ->
  (forall i, (j <= i < j + n)%nat -> B <= level h dd i v) -> B <= stair h dd n j v.
Proof.
  induction n as [|n IH]; intros j Ht Hl; cbn [stair].
  - rewrite Nat.add_0_r in Ht. exact Ht.
  - apply Z.min_glb; [apply Hl; lia|]. apply IH; [rewrite Nat.add_succ_comm; exact Ht|].
    intros i Hi. apply Hl. lia.
Qed.

Lemma level_ge h dd j v : 0 <= h -> 0 <= Z.of_nat j * h <= level h dd j v.
Proof. intros Hh. assert (0 <= Z.of_nat j * h) by (apply Z.mul_nonneg_nonneg; lia). unfold level. lia. Qed.

Lemma stair_bounds h dd n v : 0 <= h ->
  0 <= stair h dd n 0 v <= Z.of_nat n * h /\ forall i, (i < n)%nat -> stair h dd n 0 v <= level h dd i v.
Proof.
  intros Hh. destruct (stair_lub h dd v n 0) as [Ht Hl]. split; [split; [|exact Ht]|intros i Hi; apply Hl; lia].
  apply stair_glb; [apply Z.mul_nonneg_nonneg; lia|]. intros i _. pose proof (level_ge h dd i v Hh). lia.
Qed.

(** The staircase is subadditive: with p on level i and q on level j, p + q is bounded by level i + j, or by
    the top when there is no such level. *)
Lemma stair_sub h dd n p q : 0 <= h -> stair h dd n 0 (p + q) <= stair h dd n 0 p + stair h dd n 0 q.
Proof.
  intros Hh. destruct (stair_bounds h dd n (p + q) Hh) as ([_ Htop] & Hcap).
  assert (Hlev : forall i j, stair h dd n 0 (p + q) <= level h dd i p + level h dd j q).
  { intros i j. destruct (Nat.lt_ge_cases (i + j) n) as [Hlt|Hge].
    - specialize (Hcap (i + j)%nat Hlt). unfold level in *. lia.
    - assert (Z.of_nat n * h <= Z.of_nat (i + j) * h) by (apply Z.mul_le_mono_nonneg_r; lia).
      pose proof (level_ge h dd i p Hh). pose proof (level_ge h dd j q Hh). lia. }
  destruct (stair_bounds h dd n q Hh) as ([Hq _] & _).
  remember (stair h dd n 0 (p + q)) as z eqn:Ez. clear Ez Hcap.
  apply Z.le_sub_le_add_r. apply stair_glb; [lia|].
  intros i _. apply Z.le_sub_le_add_l, Z.le_sub_le_add_r. apply stair_glb.
  - pose proof (level_ge h dd i p Hh). lia.
  - intros j _. specialize (Hlev i j). lia.
Qed.

(** a value that reaches the end of the last ramp counts all n = m + 1 levels *)
Lemma stair_total h dd m T B k vs s : 0 <= h -> 0 <= dd -> Z.of_nat (S m) * h + Z.of_nat m * dd <= 2 * T ->
  B <= Z.of_nat (S m) * h ->
  Forall (fun v => 0 <= v) vs -> Attainable k vs s -> Forall (fun a => T <= a) s ->
  Z.of_nat k * B <= zsum (map (stair h dd (S m) 0) vs).
Proof.
  intros Hh Hd HT HB. apply subadditive_total.
  - destruct (stair_bounds h dd (S m) 0 Hh) as (_ & Hcap). specialize (Hcap 0%nat ltac:(lia)). unfold level in Hcap. lia.
  - intros p q _ _. apply stair_sub. exact Hh.
  - intros l Hl. apply stair_glb; [lia|]. intros i Hi.
    assert (Z.of_nat i * dd <= Z.of_nat m * dd) by (apply Z.mul_le_mono_nonneg_r; lia). unfold level. lia.
Qed.

(** ---- from values to items ---- *)

Section Items.
  Context {A : Type} (valueof : A -> Z) (keep : bool).

  Lemma greedy_min_attainable (P : Z -> Z -> Prop) k items s :
    (forall l s, StronglySorted (fun a b : Z => b <= a) l -> Forall (fun v => 0 <= v) l -> Attainable k l s ->
       P (zmin s) (zmin (vgreedy l (repeat 0 k)))) ->
    Forall (fun x => 0 <= valueof x) items -> Attainable k (map valueof items) s ->
    P (zmin s) (zmin (sums (greedy valueof keep k items))).
  Proof.
    intros H Hpos Hs. rewrite greedy_sums_vgreedy.
    apply H; [apply sorted_values_sorted|apply sorted_values_nonneg; exact Hpos|].
    apply (Attainable_perm_local k (map valueof items)); [|exact Hs].
    symmetry. apply sorted_values_perm.
  Qed.
End Items.

Lemma opt_min_attained k vs v : Opt MaxSmallest k vs v -> exists s, Attainable k vs s /\ - v = zmin s.
Proof.
  intros [(s & Hs & Ev) _]. rewrite value_MaxSmallest in Ev. exists s. split; [exact Hs|lia].
Qed.
