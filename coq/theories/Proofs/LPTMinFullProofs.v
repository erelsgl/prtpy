(** C08, max-min side: the classical guarantee for the smallest sum produced by greedy (LPT),
        3 * OPTmin <= 4 * LPTmin     for every number of bins
    (Deuermeyer, Friesen, Langston 1982).

    Method: weighting arguments whose weights depend on the run ([Proofs/LPTMinCore.v] has the loop).
    Let T be the value of the assignment greedy is compared with and L < T the smallest load of greedy.
    A step is "overfull" when an item lands on a bin at least as large as itself and lifts it above T.
    - No overfull step: values capped at T ([no_over_refuted]); every bin weighs at most T, the smallest at most L.
    - Otherwise let the last overfull step put a on a bin of load x.  The weights are staircases ([stair] in
      [Proofs/LPTMinCore.v]); what a bin can weigh before and after that step is the same for any number of
      levels ([QG], [RG], [ramp_refuted]).  If every earlier step onto a non-empty bin closes that bin (load
      above L), the two-level staircase [W2] with parameter x is used ([no_open_refuted]): all bins weigh at
      most 2 (T - x) (in doubled units 4 (T - x)), the smallest one less.
    So there is a last open step before the last overfull one ([open_step_exists]); let it put b on the load p.
    - If 4 L < 3 T, the three-level staircase [W3] with u = max (x/2) p is used ([three_level_refuted]): all bins
      weigh at most 3 (T - 2u) (in doubled units 6 (T - u2)), the smallest one less.  The same lemma covers a
      second regime, which [Proofs/LPTMinExactValues.v] needs.
    On the other side every set of values reaching T weighs at least the same bound (the staircases are
    subadditive). *)
From Prtpy Require Import Base.Prelude Model.Binner Model.Greedy Model.Objectives Spec.Partition
  Oracle.Reach Proofs.BaseLemmas Proofs.BinnerLemmas Proofs.GreedyProofs Proofs.RatioProofs Proofs.OracleSpec
  Proofs.LPTMinCore.
From Coq Require Import Sorting.Sorted Arith ZifyBool.

(** ---- no overfull step ---- *)

(** values capped at T: a bin weighs at most T and at most its load *)
Definition P0 (T y l wl : Z) : Prop := 0 <= wl /\ wl <= T /\ wl <= l /\ (l = 0 \/ y <= l).

Lemma no_over_refuted T k l s : (1 <= k)%nat ->
  StronglySorted (fun a b : Z => b <= a) l -> Forall (fun v => 0 <= v) l ->
  Attainable k l s -> Forall (fun v => T <= v) s ->
  nstep (over T) l (repeat 0 k) -> zmin (vgreedy l (repeat 0 k)) < T -> False.
Proof.
  intros Hk Hsort Hpos Hs HsT Hn HLT.
  pose proof (init_zmin_nonneg k l Hk Hpos) as HL0.
  set (g := vgreedy l (repeat 0 k)) in *.
  assert (Hall : allstep (side 0 (zmin g) (fun c => 0 <= c) (over T)) l (repeat 0 k)).
  { apply allstep_intro; try assumption.
    - rewrite repeat_length. exact Hk.
    - eapply Forall_impl; [|exact Hpos]. cbv beta. lia.
    - fold g. lia.
    - rewrite zmin_repeat0. lia. }
  destruct (run_inv0 (P0 T) (cap T) (side 0 (zmin g) (fun c => 0 <= c) (over T)) k l)
    as (t & y & Ht & Hsum); try assumption.
  - intros y. unfold P0. lia.
  - intros y c l0 wl Hc Hq. unfold P0 in *. lia.
  - intros g0 c y wl (H1 & H2 & H3) Hcy Hq. unfold over in H3. unfold P0, cap in *. lia.
  - fold g in Ht.
    apply (light_bin_refutes (P0 T y) (cap T) T k g t l Hk (vgreedy0_length k l) Ht Hsum).
    + unfold P0. lia.
    + unfold P0. lia.
    + apply (cap_total T k l s); try assumption. lia.
Qed.

(** ---- bins around the last overfull step ---- *)

(** Common to the staircases.  From the last overfull step (onto the load x) on, a bin weighs at most B, and
    it is closed (load above L), or its weight is at most twice its load minus D (it started from one large
    item), or it weighed at most P at load be >= x and has since received l - be in items, each at least y
    if any. *)
Definition RG (B D P L x y l wl : Z) : Prop :=
  wl <= B /\
  (L < l \/ wl <= 2 * l - D \/
   exists be, x <= be <= l /\ wl <= P + 2 * (l - be) /\ (l = be \/ y <= l - be)).

Lemma RG_weak B D P L x y c l wl : c <= y -> RG B D P L x y l wl -> RG B D P L x c l wl.
Proof.
  intros Hc (H1 & [H2|[H2|(be & H2 & H3 & H4)]]); split; try assumption; [left|right;left|right;right]; try assumption.
  exists be. lia.
Qed.

Lemma RG_step B D P L x T y mu c wl wc : 0 <= wc <= 2 * c -> wc <= B - P -> 2 * T - D <= B ->
  4 * (L - x) <= B - P -> mu <= L -> 0 <= c <= y -> mu + c <= T ->
  RG B D P L x y mu wl -> RG B D P L x c (mu + c) (wl + wc).
Proof.
  intros Hw1 Hw2 HD HP Hmu Hc Hle (H1 & H2).
  destruct H2 as [H2|[H2|(be & H2 & H3 & H4)]]; [lia| |].
  - split; [lia|]. right; left. lia.
  - split; [lia|]. right; right. exists be. lia.
Qed.

Lemma RG_step_over B D P L x y a wl wa : wa <= B - P -> 2 * x - D + wa <= B -> x <= L -> L < x + a ->
  RG B D P L x y x wl -> RG B D P L x a (x + a) (wl + wa).
Proof.
  intros Hw HD Hx Hxa (H1 & H2). split; [|left; lia].
  destruct H2 as [H2|[H2|(be & H2 & H3 & H4)]]; lia.
Qed.

Lemma RG_final B D P L x y wl : 2 * L - D < B -> P + 2 * (L - x) < B -> RG B D P L x y L wl -> wl < B.
Proof. intros HD HP (H1 & H2). destruct H2 as [H2|[H2|(be & H2 & H3 & H4)]]; lia. Qed.

(** Before the last overfull step a bin is empty, closed, holds one item (weight w of its load), or is in a
    state C with weight at most P. *)
Definition QG (w : Z -> Z) (C : Z -> Z -> Prop) (B P L y l wl : Z) : Prop :=
  0 <= wl <= B /\ (l = 0 \/ y <= l) /\ ((l = 0 /\ wl = 0) \/ L < l \/ wl <= w l \/ (C y l /\ wl <= P)).

Lemma QG_weak w (C : Z -> Z -> Prop) B P L y c l wl : (forall y c l, c <= y -> C y l -> C c l) -> c <= y ->
  QG w C B P L y l wl -> QG w C B P L c l wl.
Proof.
  intros HC Hc (H1 & H2 & H3). split; [exact H1|]. split; [lia|].
  destruct H3 as [H3|[H3|[H3|[H3 H4]]]]; auto. right; right; right. split; [exact (HC y c l Hc H3)|exact H4].
Qed.

Lemma QG_RG w C B D P L x y y' l wl : 0 < x -> (forall l, x <= l <= L -> w l <= 2 * l - D \/ w l <= P) ->
  x <= l -> QG w C B P L y l wl -> RG B D P L x y' l wl.
Proof.
  intros Hx Hramp Hl (H1 & H2 & H3). split; [lia|].
  destruct (Z.le_gt_cases l L) as [HlL|HlL]; [|left; exact HlL].
  destruct H3 as [H3|[H3|[H3|H3]]]; try lia.
  - destruct (Hramp l ltac:(lia)); [right; left; lia|]. right; right. exists l. lia.
  - right; right. exists l. lia.
Qed.

(** what the argument needs of a weight w with top B, ramp 2 l - D and plateau P when the last overfull step puts
    a on the load x *)
Definition ramp_weight (w : Z -> Z) (B D P T L x a : Z) : Prop :=
  (0 < x <= L /\ 0 <= a <= x /\ L < T < x + a /\ 0 <= B /\ 2 * T - D <= B /\ 2 * x - D + w a <= B /\
   4 * (L - x) <= B - P /\ P + 2 * (L - x) < B) /\
  (forall c, 0 <= c <= a -> 0 <= w c <= 2 * c /\ w c <= B - P) /\
  (forall l, x <= l <= L -> w l <= 2 * l - D \/ w l <= P).

(** A run l1, a, lC whose step a is the last overfull one, with a weight w under which the values weigh at
    least k B: [QG] is carried along l1, [RG] from a on, and in the end every bin weighs at most B and the
    smallest one less. *)
Lemma ramp_refuted (w : Z -> Z) (C : Z -> Z -> Prop) (S : list Z -> Z -> Prop) B D P T k l1 a lC g1 :
  (1 <= k)%nat -> StronglySorted (fun a b : Z => b <= a) (l1 ++ a :: lC) -> g1 = vgreedy l1 (repeat 0 k) ->
  let x := zmin g1 in let L := zmin (vgreedy lC (vstep g1 a)) in
  ramp_weight w B D P T L x a ->
  (forall y c l, c <= y -> C y l -> C c l) ->
  (forall g c y wl, S g c -> c <= y -> QG w C B P L y (zmin g) wl -> QG w C B P L c (zmin g + c) (wl + w c)) ->
  allstep S l1 (repeat 0 k) -> allstep (side x L (fun c => 0 <= c <= a) (over T)) lC (vstep g1 a) ->
  Z.of_nat k * B <= zsum (map w (l1 ++ a :: lC)) -> False.
Proof.
  intros Hk Hsort Eg x L (Hp & Hw & Hramp) HC Hstep Hall1 HallC Htot.
  destruct (sorted_desc_app_inv l1 a lC Hsort) as (Hs1 & _ & HsC & HleC).
  assert (Hg1 : (1 <= length g1)%nat) by (rewrite Eg, vgreedy0_length; exact Hk).
  destruct (Hw a ltac:(lia)) as [_ Hwa].
  destruct (run_inv0 (QG w C B P L) w S k l1) as (t1 & y1 & Ht1 & Hsum1); try assumption.
  { intros y. unfold QG. lia. }
  { intros y c l wl. apply QG_weak. exact HC. }
  rewrite <- Eg in Ht1.
  (* when a arrives every load is at least x; the step a closes its bin *)
  assert (Ht1' : Forall2 (RG B D P L x a) g1 t1).
  { apply (Forall2_impl_l (fun c => x <= c) (QG w C B P L y1)); [|apply zmin_le|exact Ht1].
    intros c d. apply QG_RG; [lia|exact Hramp]. }
  destruct (step_F2 (RG B D P L x a) (RG B D P L x a) g1 t1 a (w a) Hg1 Ht1') as [HF Hs]; [auto| |].
  { intros wl. apply RG_step_over; lia. }
  destruct (run_inv (RG B D P L x) w (side x L (fun c => 0 <= c <= a) (over T)) (RG_weak B D P L x)) with (l := lC)
    (g := vstep g1 a) (t := update (argmin g1) (fun b0 => b0 + w a) t1) (y := a) as (t & y & Ht & Hsum & _ & _);
    try assumption.
  { intros g c y wl (H1 & H2 & H3) Hcy. cbv beta in H2. unfold over in H3. destruct (Hw c ltac:(lia)).
    apply (RG_step _ _ _ _ _ T y); lia. }
  { rewrite vstep_length. exact Hg1. }
  apply (light_bin_refutes (RG B D P L x y) w B k _ t (l1 ++ a :: lC) Hk) with (2 := Ht).
  - rewrite vgreedy_length, vstep_length, Eg. apply vgreedy0_length.
  - rewrite Hsum, Hs, Hsum1, (map_app w l1), zsum_app. cbn [map]. change (zsum (w a :: ?r)) with (w a + zsum r). lia.
  - unfold RG. lia.
  - fold L. intros wl. apply RG_final; lia.
  - exact Htot.
Qed.

(** ---- every pairing before the last overfull step closes its bin ---- *)

(** Two levels of height h = T - x (doubled), T/2 <= x <= T: a value up to x counts one level, T two. *)
Definition W2 (T x v : Z) : Z := stair (2 * (T - x)) (4 * x - 2 * T) 2 0 v.

Lemma W2_bounds T x v : T <= 2 * x -> x <= T -> 0 <= v ->
  0 <= W2 T x v <= 2 * v /\ W2 T x v <= 4 * (T - x) /\
  (v <= x -> W2 T x v <= 2 * (T - x)) /\ (x <= v -> W2 T x v <= 2 * v - (4 * x - 2 * T)).
Proof.
  intros H1 H2 Hv. destruct (stair_bounds (2 * (T - x)) (4 * x - 2 * T) 2 v ltac:(lia)) as (Ht & Hl).
  pose proof (Hl 0%nat ltac:(lia)) as L0. pose proof (Hl 1%nat ltac:(lia)) as L1.
  unfold level in *. unfold W2. lia.
Qed.

(** x is the load hit by the last overfull step, L the final smallest load *)
Definition par2 (T x L : Z) : Prop := x <= L /\ T < 2 * x /\ L < T /\ 0 <= L.

(** before the last overfull step no step is open, so a bin is empty, holds one item, or is closed; there is
    no state below the top, and P only has to be small *)
Definition Q2 (T x L : Z) : Z -> Z -> Z -> Prop :=
  QG (W2 T x) (fun _ _ => False) (4 * (T - x)) (4 * (T - x) - 4 * L) L.

Lemma Q2_step T x L y mu c wl : par2 T x L -> 0 <= mu <= x -> 0 <= c <= y -> ~ (c <= mu /\ mu + c <= L) ->
  Q2 T x L y mu wl -> Q2 T x L c (mu + c) (wl + W2 T x c).
Proof.
  intros Hp Hmu Hc Hno (H1 & H2 & H3). unfold par2 in Hp.
  pose proof (W2_bounds T x c ltac:(lia) ltac:(lia) ltac:(lia)) as (Hc1 & Hc2 & Hc3 & _).
  pose proof (W2_bounds T x mu ltac:(lia) ltac:(lia) ltac:(lia)) as (Hm1 & _ & Hm3 & _).
  destruct (Z.eq_dec mu 0) as [E0|E0].
  - subst mu. replace (0 + c) with c by lia. assert (wl = 0) by lia. subst wl. unfold Q2, QG. lia.
  - remember (W2 T x c) as wc eqn:Ewc. remember (W2 T x mu) as wm eqn:Ewm. clear Ewc Ewm.
    unfold Q2, QG. lia.
Qed.

Lemma W2_ramp T x L a : par2 T x L -> 0 <= a <= x -> T < x + a ->
  ramp_weight (W2 T x) (4 * (T - x)) (4 * x - 2 * T) (4 * (T - x) - 4 * L) T L x a.
Proof.
  intros Hp Ha Hov. unfold par2 in Hp. split; [|split].
  - pose proof (W2_bounds T x a ltac:(lia) ltac:(lia) ltac:(lia)). lia.
  - intros c Hc. pose proof (W2_bounds T x c ltac:(lia) ltac:(lia) ltac:(lia)). lia.
  - intros l Hl. pose proof (W2_bounds T x l ltac:(lia) ltac:(lia) ltac:(lia)). left. lia.
Qed.

(** the whole run: l1 without open step, the last overfull step a, lC *)
Lemma no_open_refuted T k l1 a lC s : (1 <= k)%nat ->
  StronglySorted (fun a b : Z => b <= a) (l1 ++ a :: lC) -> Forall (fun v => 0 <= v) (l1 ++ a :: lC) ->
  Attainable k (l1 ++ a :: lC) s -> Forall (fun v => T <= v) s ->
  let g1 := vgreedy l1 (repeat 0 k) in let L := zmin (vgreedy lC (vstep g1 a)) in
  nstep (opn L) l1 (repeat 0 k) -> over T g1 a -> nstep (over T) lC (vstep g1 a) -> L < T -> False.
Proof.
  intros Hk Hsort Hpos Hs HsT g1 L Hn1 [Hax Hxa] HnC HLT.
  assert (Hk0 : (1 <= length (repeat 0%Z k))%nat) by (rewrite repeat_length; exact Hk).
  assert (H00 : 0 <= zmin (repeat 0 k)) by (rewrite zmin_repeat0; lia).
  destruct (cut_sides (opn L) (over T) 0 0 (repeat 0 k) l1 a lC Hk0 H00 (Z.le_refl 0) Hsort Hpos Hn1 HnC)
    as (Hb & Hall1 & HallC).
  fold g1 in Hb, Hall1, HallC. fold L in Hb, HallC. set (x := zmin g1) in *.
  assert (Hp : par2 T x L) by (unfold par2; lia).
  apply (ramp_refuted _ (fun _ _ => False) (side 0 x (fun c => a <= c) (opn L)) _ _ _ T k l1 a lC g1 Hk Hsort eq_refl
           (W2_ramp T x L a Hp ltac:(lia) Hxa)); try assumption.
  - intros y c l _ H. exact H.
  - intros g c y wl (H1 & H2 & H3) Hcy Hq. unfold opn in H3. fold L.
    apply (Q2_step T x L y); try assumption; lia.
  - unfold par2 in Hp. apply (stair_total _ _ 1 T _ k _ s); try assumption; lia.
Qed.

Lemma open_step_exists T k l s : (1 <= k)%nat ->
  StronglySorted (fun a b : Z => b <= a) l -> Forall (fun v => 0 <= v) l ->
  Attainable k l s -> Forall (fun v => T <= v) s -> zmin (vgreedy l (repeat 0 k)) < T ->
  exists lA b lB a lC, l = (lA ++ b :: lB) ++ a :: lC /\
    let gA := vgreedy lA (repeat 0 k) in let gB := vgreedy lB (vstep gA b) in
    let L := zmin (vgreedy lC (vstep gB a)) in
    opn L gA b /\ nstep (opn L) lB (vstep gA b) /\ over T gB a /\ nstep (over T) lC (vstep gB a).
Proof.
  intros Hk Hsort Hpos Hs HsT HLT.
  destruct (last_step (over T) (over_dec T) l (repeat 0 k)) as [Hn|(l1 & a & lC & El & Hov & HnC)].
  { exfalso. exact (no_over_refuted T k l s Hk Hsort Hpos Hs HsT Hn HLT). }
  subst l. rewrite vgreedy_app, vgreedy_cons in HLT.
  set (L := zmin (vgreedy lC (vstep (vgreedy l1 (repeat 0 k)) a))) in *.
  destruct (last_step (opn L) (opn_dec L) l1 (repeat 0 k)) as [Hn1|(lA & b & lB & El1 & Hopn & HnB)].
  { exfalso. exact (no_open_refuted T k l1 a lC s Hk Hsort Hpos Hs HsT Hn1 Hov HnC HLT). }
  exists lA, b, lB, a, lC. subst l1. split; [reflexivity|].
  unfold L in *. rewrite vgreedy_app, vgreedy_cons in *. tauto.
Qed.

(** ---- the three-level staircase ---- *)

(** three levels of height h = T - u2 (doubled), each ramp twice 3 u2 / 2 - T later than a plain one: a value up
    to u2 / 2 counts one level, up to u2 two, and T three *)
Definition W3 (T u2 v : Z) : Z := stair (2 * (T - u2)) (3 * u2 - 2 * T) 3 0 v.

Lemma W3_bounds T u2 v : 2 * T <= 3 * u2 -> u2 <= T -> 0 <= v ->
  0 <= W3 T u2 v <= 2 * v /\ W3 T u2 v <= 6 * (T - u2) /\
  (2 * v <= u2 -> W3 T u2 v <= 2 * (T - u2)) /\
  (v <= u2 -> W3 T u2 v <= 4 * (T - u2)) /\
  (u2 <= v -> W3 T u2 v <= 2 * v - 2 * (3 * u2 - 2 * T)).
Proof.
  intros H1 H2 Hv. destruct (stair_bounds (2 * (T - u2)) (3 * u2 - 2 * T) 3 v ltac:(lia)) as (Ht & Hl).
  pose proof (Hl 0%nat ltac:(lia)) as L0. pose proof (Hl 1%nat ltac:(lia)) as L1.
  pose proof (Hl 2%nat ltac:(lia)) as L2. unfold level in *. unfold W3. lia.
Qed.

(** x: load hit by the last overfull step (item a); p: load hit by the last open step before it (item b);
    u2 = max x (2 p) is twice the parameter u of the staircase.  The items up to b exceed L/3. *)
Definition par3 (T L x p a b u2 : Z) : Prop :=
  0 < p <= x /\ x <= L /\ L < T /\ 0 <= a <= b /\ b <= p /\ L < 3 * b /\
  x <= u2 /\ 2 * p <= u2 /\ 2 * T <= 3 * u2 /\ u2 < T /\ 2 * (L - x) <= T - u2.

(** before the last overfull step: a bin is empty, closed, holds one item or two items not above p (weight
    4 h, h = T - u2); from the last overfull step on the ramp starts from one item >= u2 (4 delta below twice
    the load) and the plateau is 4 h *)
Definition Q3 (T L u2 : Z) : Z -> Z -> Z -> Prop :=
  QG (W3 T u2) (fun y l => 2 * y <= l) (6 * (T - u2)) (4 * (T - u2)) L.

(** up to the last open step the item is at least b and lands on a load of at most p (a third item would
    close the bin); after it the item is at most p and the step is not open *)
Lemma Q3_step T L x p a b u2 y mu c wl : par3 T L x p a b u2 ->
  ((mu <= p /\ b <= c) \/ (c <= p /\ ~ (c <= mu /\ mu + c <= L))) -> 0 <= mu <= x -> 0 <= c <= y ->
  Q3 T L u2 y mu wl -> Q3 T L u2 c (mu + c) (wl + W3 T u2 c).
Proof.
  intros Hp Hmode Hmu Hc (H1 & H2 & H3). unfold par3 in Hp.
  pose proof (W3_bounds T u2 c ltac:(lia) ltac:(lia) ltac:(lia)) as (Hc1 & Hc2 & Hc3 & Hc4 & _).
  pose proof (W3_bounds T u2 mu ltac:(lia) ltac:(lia) ltac:(lia)) as (Hm1 & Hm2 & Hm3 & Hm4 & _).
  destruct (Z.eq_dec mu 0) as [E0|E0].
  - subst mu. replace (0 + c) with c by lia. unfold Q3, QG.
    assert (wl = 0) by lia. subst wl. lia.
  - assert (Hcm : c <= mu) by lia.
    assert (Hwc : W3 T u2 c <= 2 * (T - u2)) by (apply Hc3; lia).
    assert (Hwm : W3 T u2 mu <= 4 * (T - u2)) by (apply Hm4; lia).
    assert (Hwm' : mu <= p -> W3 T u2 mu <= 2 * (T - u2)) by (intros Hle; apply Hm3; lia).
    clear Hc3 Hc4 Hm3 Hm4.
    (* the weights are opaque from here on *)
    remember (W3 T u2 c) as wc eqn:Ewc. remember (W3 T u2 mu) as wm eqn:Ewm. clear Ewc Ewm.
    unfold Q3, QG. destruct H3 as [H3|[H3|[H3|H3]]]; destruct Hmode as [M|M]; lia.
Qed.

Lemma W3_ramp T L x p a b u2 : par3 T L x p a b u2 -> a <= x -> T < x + a ->
  ramp_weight (W3 T u2) (6 * (T - u2)) (2 * (3 * u2 - 2 * T)) (4 * (T - u2)) T L x a.
Proof.
  intros Hp Ha Hov. unfold par3 in Hp. split; [|split].
  - pose proof (W3_bounds T u2 a ltac:(lia) ltac:(lia) ltac:(lia)). lia.
  - intros c Hc. pose proof (W3_bounds T u2 c ltac:(lia) ltac:(lia) ltac:(lia)). lia.
  - intros l Hl. pose proof (W3_bounds T u2 l ltac:(lia) ltac:(lia) ltac:(lia)).
    destruct (Z.le_gt_cases u2 l); [left|right]; lia.
Qed.

(** side condition before the last overfull step: up to the last open step the smallest load is at most p
    and the items are at least b; after it the items are at most p and no step is open *)
Definition SAB (L x p b : Z) (g : list Z) (c : Z) : Prop :=
  0 <= zmin g <= x /\ 0 <= c /\ ((zmin g <= p /\ b <= c) \/ (c <= p /\ ~ opn L g c)).

(** The staircase works when
    4 L < 3 T, and also for larger L while the last overfull step leaves a large excess. *)
Lemma three_level_refuted T k lA b lB a lC s : (1 <= k)%nat ->
  let l := (lA ++ b :: lB) ++ a :: lC in
  StronglySorted (fun a b : Z => b <= a) l -> Forall (fun v => 0 <= v) l ->
  Attainable k l s -> Forall (fun v => T <= v) s ->
  let gA := vgreedy lA (repeat 0 k) in let gB := vgreedy lB (vstep gA b) in
  let x := zmin gB in let L := zmin (vgreedy lC (vstep gB a)) in
  opn L gA b -> nstep (opn L) lB (vstep gA b) -> over T gB a -> nstep (over T) lC (vstep gB a) ->
  4 * L < 3 * T \/ (5 * L < 4 * T /\ 4 * L - T < 2 * x + 2 * b) -> False.
Proof.
  intros Hk l Hsort Hpos Hs HsT gA gB x L Hopn HnB Hov HnC Hreg.
  destruct (open_over_sides RF T k lA b lB a lC Hk Hsort Hpos (nstep_RF lA _) Hopn HnB Hov HnC)
    as (Hb & HallA & HallB & HallC).
  fold gA in Hb, HallA, HallB, HallC. fold gB in Hb, HallB, HallC. fold x in Hb, HallB, HallC.
  fold L in Hb, HallB, HallC. set (p := zmin gA) in *. set (u2 := Z.max x (2 * p)).
  assert (Hp : par3 T L x p a b u2) by (unfold par3, u2; lia). pose proof Hp as Hp'. unfold par3 in Hp'.
  assert (EB : gB = vgreedy (lA ++ b :: lB) (repeat 0 k)) by (rewrite vgreedy_app, vgreedy_cons; reflexivity).
  apply (ramp_refuted _ (fun y l => 2 * y <= l) (SAB L x p b) _ _ _ T k (lA ++ b :: lB) a lC gB Hk Hsort EB
           (W3_ramp T L x p a b u2 Hp ltac:(lia) ltac:(lia))); try assumption.
  - intros y c l0 Hc H. lia.
  - intros g c y wl (H1 & H2 & H3) Hcy Hq. unfold opn in H3. fold L.
    apply (Q3_step T L x p a b u2 y); try assumption; lia.
  - apply allstep_app.
    + eapply allstep_impl; [|exact HallA]. intros g c (H1 & H2 & H3). cbv beta in H2. unfold SAB. lia.
    + fold gA. split.
      * unfold SAB. fold p. lia.
      * eapply allstep_impl; [|exact HallB]. intros g c (H1 & H2 & H3). cbv beta in H2. unfold SAB.
        split; [lia|]. split; [lia|]. right. split; [lia|exact H3].
  - apply (stair_total _ _ 2 T _ k _ s); try assumption; lia.
Qed.

(** ---- 3 * OPTmin <= 4 * LPTmin ---- *)

Theorem lpt_min_34_values k : (1 <= k)%nat -> forall l s,
  StronglySorted (fun a b : Z => b <= a) l -> Forall (fun v => 0 <= v) l -> Attainable k l s ->
  3 * zmin s <= 4 * zmin (vgreedy l (repeat 0 k)).
Proof.
  intros Hk l s Hsort Hpos Hs.
  destruct (Z.le_gt_cases (3 * zmin s) (4 * zmin (vgreedy l (repeat 0 k)))) as [Hle|Hgt]; [exact Hle|exfalso].
  pose proof (init_zmin_nonneg k l Hk Hpos) as HL0.
  destruct (open_step_exists (zmin s) k l s Hk Hsort Hpos Hs (zmin_le s) ltac:(lia))
    as (lA & b & lB & a & lC & El & Hopn & HnB & Hov & HnC).
  subst l. rewrite vgreedy_app, vgreedy_cons, vgreedy_app, vgreedy_cons in Hgt.
  apply (three_level_refuted (zmin s) k lA b lB a lC s Hk Hsort Hpos Hs (zmin_le s) Hopn HnB Hov HnC).
  left. exact Hgt.
Qed.

(** the weaker constant 2/3 *)
Corollary lpt_min_23_values k : (1 <= k)%nat -> forall l s,
  StronglySorted (fun a b : Z => b <= a) l -> Forall (fun v => 0 <= v) l -> Attainable k l s ->
  2 * zmin s <= 3 * zmin (vgreedy l (repeat 0 k)).
Proof.
  intros Hk l s Hsort Hpos Hs. pose proof (lpt_min_34_values k Hk l s Hsort Hpos Hs) as H.
  pose proof (init_zmin_nonneg k l Hk Hpos) as H0. lia.
Qed.

(** ---- item level ---- *)

Section MinThreeQuarters.
  Context {A : Type} (valueof : A -> Z) (keep : bool).

  (** Deuermeyer, Friesen, Langston 1982: LPTmin >= 3/4 * OPTmin for every number of bins *)
  Theorem lpt_min_ratio_34 k items v : (1 <= k)%nat ->
    Forall (fun x => 0 <= valueof x) items -> Opt MaxSmallest k (map valueof items) v ->
    3 * (- v) <= 4 * zmin (sums (greedy valueof keep k items)).
  Proof.
    intros Hk Hpos Hopt. destruct (opt_min_attained _ _ _ Hopt) as (s & Hs & ->).
    apply (greedy_min_attainable valueof keep (fun t l => 3 * t <= 4 * l) k items s); [|exact Hpos|exact Hs].
    apply lpt_min_34_values. exact Hk.
  Qed.

  Corollary lpt_min_ratio_23 k items v : (1 <= k)%nat ->
    Forall (fun x => 0 <= valueof x) items -> Opt MaxSmallest k (map valueof items) v ->
    2 * (- v) <= 3 * zmin (sums (greedy valueof keep k items)).
  Proof.
    intros Hk Hpos Hopt. pose proof (lpt_min_ratio_34 k items v Hk Hpos Hopt) as H.
    pose proof (init_zmin_nonneg k (sorted_values valueof items) Hk (sorted_values_nonneg valueof items Hpos)) as H0.
    rewrite <- (greedy_sums_vgreedy valueof keep) in H0. lia.
  Qed.
End MinThreeQuarters.

Print Assumptions lpt_min_34_values.
Print Assumptions lpt_min_ratio_34.
Print Assumptions lpt_min_ratio_23.
