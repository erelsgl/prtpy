(** Rung 3 (10 m <= 17 n + 3; the ladder is described in FF17SharpProofs.v) towards FF, BF <=
    floor(17/10 OPT) of Dosa and Sgall, unconditionally.  b = bins returned, m = length b, n = any number of bins of capacity C into which the values
    can be packed (in particular the optimum), beta = number of values above C/2.

    Arithmetic, exhibited and not used below ([additive_floor_table]): 10 m <= 17 n + c gives 10 m <= 17 n for n = r mod 10 iff
    c <= slack17 r, slack17 = 9 2 5 8 1 4 7 0 3 6 for r = 0 .. 9.  So the additive constant
    6 settles r = 9 (and 0, 3, 6), 5 settles r = 2, 4 settles r = 5, 3 settles r = 8,
    2 would settle r = 1, 1 would settle r = 4, 0 would settle r = 7.
    [disj374_table]: what the disjunction 10 m <= 17 n + 3 \/ 4 m <= 7 n of FF17SharpProofs.v gives.

    PROVED, for first_fit and best_fit alike (items <> [], values >= 0), all unconditional:
      *_ratio_17_3_uncond_partial 10 m <= 17 n + 3
      *_ratio_17_4_partial, *_ratio_17_6_partial   the same with 4 and 6 (corollaries)
      *_ratio_17_floor_rung3_partial   10 m <= 17 n  for every n that is not 1, 4, 7 mod 10
                                       (and for n = 1)
      *_ratio_17_floor_rung4_partial   its instance for the residues 0, 2, 3, 5, 6, 9
    PROVED for first_fit only:
      ff_half_full_bigextra_sharp_partial  10 m <= 17 n  if every bin is more than half full and
                                some bin holds a value g > C/2 and is filled above g
    FF17PureProofs.v goes on to rung 2 and n = 1 mod 10; what is OPEN is said at its end.
    A [_partial] in a name marks a bound weaker than the published one, not an incomplete proof.

    The case that FF17SharpProofs.v excludes from rung 3 is a bin {a} with C/3 < a <= C/2
    ([medium_core3]):
    - [medium_remove]: without {a} the bins b' keep wf/anyfit/bf2/[after_ok] and are filled above
      th = C - a >= C/2, so the amortised analysis applies to b' with the optimum for all items.
    - [heavy_choice]: the amortised analysis [heavyRX] of FF17SharpProofs.v (with the EXCESS
      12 s - 6 C of every bin of sum s holding a value above C/2), the whole deficit
      10 C - 12 s(c) being carried by one common bin c (the last one, or any one that is at most
      2/3 full).
    - [medium_opt_cases]: at most n - 2 values exceed C/2 (the optimum loses 4 C), or some value g
      has C/2 < g <= th ([nonhuge_big_exists]: so it is when every optimal bin holds a value above
      C/2), or the optimal bin of a holds no value above C/2 and weighs at most
      15 C - min(C, 6 a - 2 C) ([wsum2_nobig_23], via [gpack_head]).
    - [big_partner]: the bin Bg of g in b' is filled above th >= g.  If Bg is before c, the first
      two items of c do not fit Bg ([before_common]); if Bg is after c, [after_ok]: first-fit:
      the other items of Bg do not fit c ([after_common_ff]); best-fit: the invariant [bf3]
      ([bf_inv3], [bf3_after_ok]).  In both cases the excess of Bg pays for the free space of c.
    The invariant of best-fit ([bf3], with [bf_scan_opt]: the scan returns the FIRST FULLEST
    bin that fits): for bins c before d = y1 :: z :: _ with y1 > C/2: z did not fit c, or c held
    a prefix p with |p| < y1 < C - |p| ... and the next item of c did not fit d. *)
From Prtpy Require Import Base.Prelude Model.Binner Model.Packing Spec.Partition
  Proofs.BaseLemmas Proofs.BinnerLemmas Proofs.PackingProofs Proofs.FFDRatioProofs
  Proofs.BFDRatioProofs Proofs.BCOptimalProofs Proofs.FF17Proofs Proofs.BF17Proofs
  Proofs.FF17SharpProofs.
From Coq Require Import ZifyBool.

(** ---- 0. the arithmetic of the additive constants ---- *)
Definition slack17 (r : nat) : nat := nth r [9; 2; 5; 8; 1; 4; 7; 0; 3; 6]%nat 0%nat.

Lemma additive_floor_table (m n k r c : nat) :
  (n = 10 * k + r)%nat -> (r < 10)%nat -> (c <= slack17 r)%nat ->
  (10 * m <= 17 * n + c)%nat -> (10 * m <= 17 * n)%nat.
Proof.
  intros E Hr Hc H. unfold slack17 in Hc.
  do 10 (destruct r as [|r]; [cbn [nth] in Hc; lia|]). lia.
Qed.

(** the table is exact: with c = slack17 r + 1 the conclusion fails for m = (17 n + c) / 10 *)
Example additive_floor_table_exact :
  forallb (fun r => (10 * ((17 * (10 + r) + slack17 r + 1) / 10) <=? 17 * (10 + r) + slack17 r + 1)%nat
                    && negb (10 * ((17 * (10 + r) + slack17 r + 1) / 10) <=? 17 * (10 + r))%nat)
          (seq 0 10) = true.
Proof. vm_compute. reflexivity. Qed.

(** what [ff_ratio_17_3_or_74_partial] (10 m <= 17 n + 3 \/ 4 m <= 7 n) and m <= 2 n - 1 give:
    the sharp bound exactly for n = 1, 2, 3, 5, 6, 9, 10, 13 *)
Definition disj374 (m n : nat) : bool :=
  ((10 * m <=? 17 * n + 3) || (4 * m <=? 7 * n))%nat && (m <=? 2 * n - 1)%nat.

Lemma disj374_table (m n : nat) :
  (10 * m <= 17 * n + 3)%nat \/ (4 * m <= 7 * n)%nat -> (m <= 2 * n - 1)%nat ->
  In n [1; 2; 3; 5; 6; 9; 10; 13]%nat -> (10 * m <= 17 * n)%nat.
Proof. intros H H2 Hin. cbn [In] in Hin. lia. Qed.

(** from n = 14 on, m = 17 n / 10 + 1 satisfies the disjunction and exceeds 17 n / 10 *)
Lemma disj374_late n : (14 <= n)%nat ->
  forallb (fun m => negb (disj374 m n) || (10 * m <=? 17 * n)%nat) (seq 0 (2 * n + 1)) = false.
Proof.
  intros Hn. apply Bool.not_true_is_false. intros E. rewrite forallb_forall in E.
  specialize (E (17 * n / 10 + 1)%nat). rewrite in_seq in E. unfold disj374 in E.
  pose proof (Nat.div_mod (17 * n) 10 ltac:(lia)) as Hd.
  pose proof (Nat.mod_upper_bound (17 * n) 10 ltac:(lia)) as Hr. lia.
Qed.

Example disj374_table_exact :
  filter (fun n => forallb (fun m => negb (disj374 m n) || (10 * m <=? 17 * n)%nat) (seq 0 (2 * n + 1)))
         (seq 1 200) = [1; 2; 3; 5; 6; 9; 10; 13]%nat.
Proof.
  change 200%nat with (13 + 187)%nat. rewrite seq_app, filter_app.
  match goal with |- _ ++ filter ?f _ = _ =>
    assert (Hlate : forall len s, (14 <= s)%nat -> filter f (seq s len) = []) end.
  { induction len as [|len IH]; intros s Hs; [reflexivity|].
    cbn [seq filter]. rewrite (disj374_late s Hs). apply IH. lia. }
  (* only n = 1 .. 13 are left to evaluation *)
  rewrite (Hlate 187 (1 + 13))%nat by lia. vm_compute. reflexivity.
Qed.

(** ---- 1. removing a bin keeps the order invariants, and [after_ok] ---- *)
Section Remove.
  Context {A : Type} (valueof : A -> Z).

  Lemma anyfit_remove C (l1 : bins A) E l2 :
    anyfit valueof C (l1 ++ E :: l2) -> anyfit valueof C (l1 ++ l2).
  Proof.
    induction l1 as [|c l1 IH]; cbn [app].
    - intros H. apply anyfit_cons in H. destruct H as [_ H]. exact H.
    - intros H. apply anyfit_cons in H. destruct H as [H1 H2]. apply anyfit_cons.
      split; [|apply IH; exact H2].
      apply Forall_app in H1. destruct H1 as [Ha Hb]. apply Forall_cons_iff in Hb.
      destruct Hb as [_ Hb]. apply Forall_app. split; assumption.
  Qed.

  Lemma bf2_remove C (l1 : bins A) E l2 :
    bf2 valueof C (l1 ++ E :: l2) -> bf2 valueof C (l1 ++ l2).
  Proof.
    induction l1 as [|c l1 IH]; cbn [app bf2].
    - intros [_ H]. exact H.
    - intros [H1 H2]. split; [|apply IH; exact H2].
      apply Forall_app in H1. destruct H1 as [Ha Hb]. apply Forall_cons_iff in Hb.
      destruct Hb as [_ Hb]. apply Forall_app. split; assumption.
  Qed.

  Lemma contents_Forall (P : A -> Prop) (b : bins A) :
    Forall P (contents b) <-> Forall (fun c : bin A => Forall P (snd c)) b.
  Proof.
    induction b as [|c t IH].
    - split; intros _; constructor.
    - rewrite contents_cons, Forall_app, Forall_cons_iff, IH. reflexivity.
  Qed.

  (** what is needed of a bin Bg that comes after a bin c without a value above C/2 and holds a
      value g with C/2 < g < (sum of c) and something else: the rest of Bg does not fit c
      (first-fit), or the weaker alternative that best-fit guarantees ([bf3_after_ok]) *)
  Definition after_ok (C : Z) (b' : bins A) : Prop :=
    forall t1 c t2 Bg g, b' = t1 ++ c :: t2 -> nobig valueof C c -> g < fst c -> In Bg t2 ->
      In g (map valueof (snd Bg)) -> C < 2 * g -> g < fst Bg ->
      g + (C - fst c + 1) <= fst Bg \/ 2 * C - g < fst c + fst Bg.

  Lemma after_ok_remove C (l1 : bins A) E l2 :
    after_ok C (l1 ++ E :: l2) -> after_ok C (l1 ++ l2).
  Proof.
    intros H t1 c t2 Bg g Eb Hnb Hth HB2.
    assert (Hs : exists u1 u2, l1 ++ E :: l2 = u1 ++ c :: u2 /\ In Bg u2).
    { apply app_eq_app in Eb. destruct Eb as (l & [[E1 E2]|[E1 E2]]).
      - destruct l as [|d l]; cbn [app] in E2.
        + exists (l1 ++ [E]), t2. subst l2. rewrite <- app_assoc. split; [reflexivity|exact HB2].
        + injection E2 as Ed E2. subst d t2 l1. exists t1, (l ++ E :: l2).
          rewrite <- app_assoc. split; [reflexivity|].
          apply in_app_or in HB2. apply in_or_app. destruct HB2; [left|right; right]; assumption.
      - exists (l1 ++ E :: l), t2. subst t1 l2. rewrite <- app_assoc. split; [reflexivity|exact HB2]. }
    destruct Hs as (u1 & u2 & Eu & Hu). exact (H u1 c u2 Bg g Eu Hnb Hth Hu).
  Qed.
End Remove.

(** ---- 2. a bin {a} with C/3 < a <= C/2: removing it leaves bins filled above C - a ---- *)
Section MediumRemove.
  Context {A : Type} (valueof : A -> Z).

  Lemma medium_remove C (b : bins A) (vs : list Z) (E : bin A) xa :
    wf valueof b -> feasible C b -> all_nonempty b -> anyfit valueof C b -> bf2 valueof C b ->
    Forall (fun y => 0 <= valueof y) (contents b) -> after_ok valueof C b ->
    Permutation (map valueof (contents b)) vs ->
    In E b -> snd E = [xa] -> 2 * valueof xa <= C ->
    exists b' : bins A,
      length b = S (length b') /\ wf valueof b' /\ feasible C b' /\ all_nonempty b' /\
      anyfit valueof C b' /\ bf2 valueof C b' /\ Forall (fun y => 0 <= valueof y) (contents b') /\
      after_ok valueof C b' /\
      Forall (fun c : bin A => C - valueof xa + 1 <= fst c) b' /\ half_full C b' /\
      Permutation (valueof xa :: map valueof (contents b')) vs /\ Forall (fun v => 0 <= v) vs.
  Proof.
    intros Hw Hfe Hnem Ha Hb2 Hnnb Hafter Hpv HinE EsE Ha2.
    assert (Hvs : Forall (fun v => 0 <= v) vs).
    { eapply Permutation_Forall; [exact Hpv|]. rewrite Forall_map. exact Hnnb. }
    destruct (bin_view valueof C b E HinE Hw Hnem Hnnb Ha)
      as (l1 & l2 & Eb & (Hw1 & Hne1 & Hnn1 & Hpre) & (HwE & _ & _) & (Hw2 & Hne2 & Hnn2 & Hsuf)).
    subst b. exists (l1 ++ l2).
    assert (EsumE : fst E = valueof xa).
    { unfold wf_bin in HwE. rewrite EsE in HwE. cbn [map] in HwE.
      rewrite zsum_cons, zsum_nil in HwE. lia. }
    assert (Hlv : Forall (fun c : bin A => C - valueof xa + 1 <= fst c) (l1 ++ l2)).
    { apply Forall_app. split.
      - eapply Forall_impl; [|exact Hpre]. intros c Hc. unfold later_ok in Hc.
        rewrite EsE in Hc. lia.
      - apply (contents_Forall (fun y => 0 <= valueof y)) in Hnn2. unfold wf in Hw2.
        rewrite Forall_forall in *. intros c Hc.
        specialize (Hsuf c Hc). specialize (Hnn2 c Hc). specialize (Hw2 c Hc).
        unfold later_ok in Hsuf. destruct (snd c) as [|x r] eqn:Es; [contradiction|].
        pose proof (first_le_sum valueof c x r Hw2 Es) as Hx. rewrite Es in Hx.
        specialize (Hx Hnn2). lia. }
    split; [rewrite !app_length; cbn [length]; lia|].
    split; [apply Forall_app; split; assumption|].
    split.
    { unfold feasible in *. apply Forall_app in Hfe. destruct Hfe as [Hf1 Hf2].
      apply Forall_cons_iff in Hf2. destruct Hf2 as [_ Hf2]. apply Forall_app. split; assumption. }
    split; [apply Forall_app; split; assumption|].
    split; [apply (anyfit_remove valueof C l1 E l2); exact Ha|].
    split; [apply (bf2_remove valueof C l1 E l2); exact Hb2|].
    split; [rewrite contents_app; apply Forall_app; split; assumption|].
    split; [apply (after_ok_remove valueof C l1 E l2); exact Hafter|].
    split; [exact Hlv|].
    split; [eapply Forall_impl; [|exact Hlv]; intros c Hc; cbv beta in Hc; lia|].
    split; [|exact Hvs].
    etransitivity; [|exact Hpv].
    rewrite !contents_app, contents_cons, !map_app, EsE. cbn [map app]. apply Permutation_middle.
  Qed.
End MediumRemove.

(** ---- 3. the last bin without a value above C/2 ("last common bin") and its neighbours ---- *)
Section LastCommon.
  Context {A : Type} (valueof : A -> Z).

  Lemma in_contents (b : bins A) y : In y (contents b) -> exists c, In c b /\ In y (snd c).
  Proof.
    induction b as [|c t IH]; [intros []|]. rewrite contents_cons. intros H.
    apply in_app_or in H. destruct H as [H|H].
    - exists c. split; [left; reflexivity|exact H].
    - destruct (IH H) as (c0 & Hc0 & Hy). exists c0. split; [right; exact Hc0|exact Hy].
  Qed.

  (** bins holding a value above C/2 are at most as many as these values *)
  Lemma hasbig_count C (t : bins A) : Forall (hasbig valueof C) t ->
    Z.of_nat (length t) <= fsum (bigw C) (map valueof (contents t)).
  Proof.
    intros H. induction H as [|c t Hc Ht IH].
    - cbn [length Z.of_nat]. unfold contents, lists. cbn [map concat]. rewrite fsum_nil. lia.
    - rewrite contents_cons, map_app, fsum_app. cbn [length]. rewrite Nat2Z.inj_succ.
      pose proof (fsum_bigw_pos C _ Hc). lia.
  Qed.

  (** a bin before a bin c without a value above C/2 that is more than half full: the first two
      items of c do not fit it *)
  Lemma before_common C (t1 : bins A) c t2 Bg : 0 <= C ->
    wf valueof (t1 ++ c :: t2) -> anyfit valueof C (t1 ++ c :: t2) -> bf2 valueof C (t1 ++ c :: t2) ->
    Forall (fun y => 0 <= valueof y) (snd c) ->
    nobig valueof C c -> C < 2 * fst c -> In Bg t1 ->
    2 * (C - fst Bg + 1) <= fst c.
  Proof.
    intros HC Hw Ha Hb2 Hnn Hnb Hhf Hin.
    pose proof (anyfit_at valueof C t1 c t2 Ha) as H1.
    pose proof (bf2_at valueof C t1 c t2 Hb2) as H2.
    rewrite Forall_forall in H1, H2. specialize (H1 Bg Hin). specialize (H2 Bg Hin).
    unfold wf in Hw. apply Forall_app in Hw. destruct Hw as [_ Hw].
    apply Forall_cons_iff in Hw. destruct Hw as [Hwc _]. unfold wf_bin in Hwc.
    unfold later_ok in H1. unfold later2_ok in H2. unfold nobig in Hnb.
    destruct (snd c) as [|x1 [|x2 r]]; [contradiction| |].
    - cbn [map] in Hwc, Hnb. rewrite zsum_cons, zsum_nil in Hwc.
      apply Forall_cons_iff in Hnb. destruct Hnb as [Hx1 _]. lia.
    - cbn [map] in Hwc, Hnb. rewrite !zsum_cons in Hwc.
      apply Forall_cons_iff in Hnb. destruct Hnb as [Hx1 _].
      apply Forall_cons_iff in Hnn. destruct Hnn as [_ Hnn].
      apply Forall_cons_iff in Hnn. destruct Hnn as [_ Hnn].
      assert (0 <= zsum (map valueof r)) by (apply zsum_nonneg; rewrite Forall_map; exact Hnn).
      lia.
  Qed.

  Lemma zsum_ge_one (l : list Z) K : 0 <= K -> Forall (fun v => K <= v) l -> l <> [] -> K <= zsum l.
  Proof.
    intros HK H Hne. destruct H as [|v l Hv Hl]; [congruence|].
    rewrite zsum_cons.
    assert (0 <= zsum l).
    { apply zsum_nonneg. eapply Forall_impl; [|exact Hl]. intros w Hw. cbv beta in Hw. lia. }
    lia.
  Qed.

  Lemma zsum_in_extra (l : list Z) g K : 0 <= K -> Forall (fun v => K <= v) l -> In g l ->
    g < zsum l -> g + K <= zsum l.
  Proof.
    intros HK H Hin Hlt. apply in_split in Hin. destruct Hin as (p1 & p2 & E). subst l.
    rewrite zsum_app, zsum_cons in *.
    apply Forall_app in H. destruct H as [H1 H2]. apply Forall_cons_iff in H2. destruct H2 as [_ H2].
    assert (H12 : Forall (fun v => K <= v) (p1 ++ p2)) by (apply Forall_app; split; assumption).
    assert (Hne : p1 ++ p2 <> []).
    { intros E. apply app_eq_nil in E. destruct E as [E1 E2]. subst p1 p2.
      rewrite zsum_nil in Hlt. lia. }
    pose proof (zsum_ge_one _ K HK H12 Hne) as Hge. rewrite zsum_app in Hge. lia.
  Qed.

  (** first-fit: a bin after c that holds g and something else *)
  Lemma after_common_ff C (t1 : bins A) c t2 Bg g : 0 <= C -> fst c <= C ->
    wf valueof (t1 ++ c :: t2) -> sfit valueof C (t1 ++ c :: t2) ->
    In Bg t2 -> In g (map valueof (snd Bg)) -> g < fst Bg ->
    g + (C - fst c + 1) <= fst Bg.
  Proof.
    intros HC Hfc Hw Hsf Hin Hg Hlt.
    apply sfit_app in Hsf. destruct Hsf as (_ & Hsf & _). cbn [sfit] in Hsf. destruct Hsf as [Hs _].
    apply (contents_Forall (fun y => C < fst c + valueof y)) in Hs.
    rewrite Forall_forall in Hs. specialize (Hs Bg Hin).
    unfold wf in Hw. apply Forall_app in Hw. destruct Hw as [_ Hw].
    apply Forall_cons_iff in Hw. destruct Hw as [_ Hw2].
    rewrite Forall_forall in Hw2. specialize (Hw2 Bg Hin). unfold wf_bin in Hw2.
    rewrite Hw2 in *. apply zsum_in_extra; auto; [lia|].
    rewrite Forall_map. eapply Forall_impl; [|exact Hs]. intros y Hy. cbv beta in Hy. lia.
  Qed.
  (** first-fit: no item of a later bin fits c *)
  Lemma sfit_after_ok C (b' : bins A) : 0 <= C -> wf valueof b' -> feasible C b' ->
    sfit valueof C b' -> after_ok valueof C b'.
  Proof.
    intros HC Hw Hfe Hsf t1 c t2 Bg g Eb' Hnb Hgc HB2 HgB Hg2 Hlt. left.
    rewrite Eb' in Hw, Hsf.
    assert (Hfc : fst c <= C).
    { unfold feasible in Hfe. rewrite Forall_forall in Hfe. apply Hfe. rewrite Eb'.
      apply in_or_app; right; left; reflexivity. }
    apply (after_common_ff C t1 c t2 Bg g); auto.
  Qed.

  Lemma big_value_bin C (b : bins A) g : In g (map valueof (contents b)) -> C < 2 * g ->
    exists Bg, In Bg b /\ In g (map valueof (snd Bg)) /\ bigb valueof C Bg = true.
  Proof.
    intros Hg Hg2. apply in_map_iff in Hg. destruct Hg as (y & Ey & Hy).
    destruct (in_contents b y Hy) as (Bg & HBg & HyB). exists Bg.
    assert (HgB : In g (map valueof (snd Bg))) by (rewrite <- Ey; apply in_map; exact HyB).
    split; [exact HBg|]. split; [exact HgB|].
    apply bigb_true. unfold hasbig. apply Exists_exists. exists g. split; [exact HgB|lia].
  Qed.

  Lemma big_partner C (b : bins A) t1 c t2 Bg g : 0 <= C -> b = t1 ++ c :: t2 ->
    wf valueof b -> anyfit valueof C b -> bf2 valueof C b ->
    Forall (fun y => 0 <= valueof y) (contents b) -> after_ok valueof C b ->
    nobig valueof C c -> C < 2 * fst c -> g < fst c ->
    In Bg b -> In g (map valueof (snd Bg)) -> C < 2 * g -> g < fst Bg ->
    2 * (C - fst Bg + 1) <= fst c \/ g + (C - fst c + 1) <= fst Bg \/ 2 * C - g < fst c + fst Bg.
  Proof.
    intros HC Eb Hw Ha Hb2 Hnn Hafter Hnb Hhc Hgc HBg HgB Hg2 Hlt.
    rewrite Eb in HBg. apply in_app_or in HBg. destruct HBg as [HB1|[HB2|HB2]].
    - left. rewrite Eb in Hw, Ha, Hb2, Hnn. apply (before_common C t1 c t2 Bg); auto.
      apply (contents_Forall (fun y => 0 <= valueof y)) in Hnn. apply Forall_app in Hnn.
      destruct Hnn as [_ Hnn]. apply Forall_cons_iff in Hnn. destruct Hnn as [Hnn _]. exact Hnn.
    - exfalso. subst Bg. unfold nobig in Hnb. rewrite Forall_forall in Hnb.
      specialize (Hnb g HgB). lia.
    - right. apply (Hafter t1 c t2 Bg g); auto.
  Qed.
  Lemma carrier_choice C K (b : bins A) c : In c b -> nobig valueof C c ->
    (exists c', In c' b /\ nobig valueof C c' /\ 3 * fst c' <= K /\ fst c' <= fst c) \/
    (forall d, In d b -> nobig valueof C d -> K < 3 * fst d).
  Proof.
    intros Hin Hnb.
    destruct (existsb (fun c0 : bin A => negb (bigb valueof C c0) && (3 * fst c0 <=? K)) b) eqn:Eex.
    - left. apply existsb_exists in Eex. destruct Eex as (c0 & Hin0 & Hc0).
      assert (Hnb0 : nobig valueof C c0).
      { apply bigb_false. destruct (bigb valueof C c0); [discriminate Hc0|reflexivity]. }
      destruct (Z_le_dec (fst c0) (fst c)); [exists c0|exists c]; repeat split; auto; lia.
    - right. intros d Hd Hnd. destruct (Z_lt_dec K (3 * fst d)) as [Hok|Hbad]; [exact Hok|]. exfalso.
      assert (Hex : existsb (fun c0 : bin A => negb (bigb valueof C c0) && (3 * fst c0 <=? K)) b = true).
      { apply existsb_exists. exists d. split; [exact Hd|].
        apply bigb_false in Hnd. rewrite Hnd. cbn [negb andb]. lia. }
      congruence.
  Qed.
End LastCommon.

(** ---- 4. counting conflicts: if every optimal bin holds a value above C/2 and a value a with
    C/3 < a <= C/2 is present, some value g has C/2 < g <= C - a ---- *)
Lemma fE_bigw_all C a l : Forall (fun y => C < 2 * y -> C - a < y) l ->
  2 * fsum (bigw C) l <= fsum (fE C a) l.
Proof.
  intros H. induction H as [|y l Hy Hl IH]; [rewrite !fsum_nil; lia|].
  rewrite !fsum_cons. pose proof (fE_spec C a y) as HfE.
  assert (Eb : (bigw C y = 1 /\ C < 2 * y) \/ (bigw C y = 0 /\ 2 * y <= C))
    by (unfold bigw; destruct (C <? 2 * y) eqn:E; lia).
  lia.
Qed.

Lemma fE_bigw_in C a l : 0 <= a -> 2 * a <= C ->
  Forall (fun y => C < 2 * y -> C - a < y) l -> In a l ->
  2 * fsum (bigw C) l + 1 <= fsum (fE C a) l.
Proof.
  intros Ha0 Ha2 H Hin. apply in_split in Hin. destruct Hin as (l1 & l2 & E). subst l.
  apply Forall_app in H. destruct H as [H1 H2]. apply Forall_cons_iff in H2. destruct H2 as [_ H2].
  rewrite !fsum_app, !fsum_cons.
  pose proof (fE_bigw_all C a l1 H1). pose proof (fE_bigw_all C a l2 H2).
  pose proof (fE_spec C a a) as HfE.
  assert (Eb : bigw C a = 0) by (unfold bigw; destruct (C <? 2 * a) eqn:E; lia).
  lia.
Qed.

Lemma nonhuge_big_exists C a vs n : 0 <= C -> C < 3 * a -> 2 * a <= C ->
  Forall (fun v => 0 <= v) vs -> Packable C vs n -> In a vs ->
  Z.of_nat n <= fsum (bigw C) vs ->
  exists g, In g vs /\ C < 2 * g /\ g <= C - a.
Proof.
  intros HC Ha3 Ha2 Hvs Hpack Hin Hbeta.
  destruct (Forall_Exists_dec (fun y => C < 2 * y -> C - a < y)
              (fun y => match Z_lt_dec C (2 * y) with
                        | left Hl => match Z_lt_dec (C - a) y with
                                     | left Hr => left (fun _ => Hr)
                                     | right Hr => right (fun Hf => Hr (Hf Hl))
                                     end
                        | right Hl => left (fun Hf => False_ind _ (Hl Hf))
                        end) vs) as [Hall|Hex].
  - exfalso. pose proof (fE_bigw_in C a vs ltac:(lia) Ha2 Hall Hin) as H1.
    assert (H2 : fsum (fE C a) vs <= 2 * Z.of_nat n).
    { apply (packable_fsum (fE C a) C); auto. intros g Hg Hs. apply light_fE_bin; auto. }
    lia.
  - apply Exists_exists in Hex. destruct Hex as (g & Hg & Hn). exists g.
    split; [exact Hg|]. lia.
Qed.

Lemma medium_opt_cases C a R vs n : 0 <= C -> C < 3 * a -> 2 * a <= C ->
  Forall (fun v => 0 <= v) R -> Permutation (a :: R) vs -> Packable C vs n ->
  fsum (bigw C) vs = fsum (bigw C) R /\ fsum (bigw C) R <= Z.of_nat n /\
  (fsum (bigw C) R <= Z.of_nat n - 2 \/
   (Z.of_nat n - 1 <= fsum (bigw C) R /\ exists g, In g R /\ C < 2 * g /\ g <= C - a) \/
   (fsum (bigw C) R = Z.of_nat n - 1 /\
    exists B R' m0, n = S m0 /\ Permutation R (B ++ R') /\ a + zsum B <= C /\
      Forall (fun v => 0 <= v) B /\ Forall (fun v => 2 * v <= C) B /\
      Forall (fun v => 0 <= v) R' /\ Packable C R' m0)).
Proof.
  intros HC Ha3 Ha2 HR Hpa Hpack.
  assert (Hvs : Forall (fun v => 0 <= v) vs).
  { eapply Permutation_Forall; [exact Hpa|]. constructor; [lia|exact HR]. }
  pose proof (packable_big C vs n HC Hvs Hpack) as Hbig.
  change (zsum (map (bigw C) vs)) with (fsum (bigw C) vs) in Hbig.
  assert (Ebeta : fsum (bigw C) vs = fsum (bigw C) R).
  { rewrite <- (fsum_perm (bigw C) _ _ Hpa), fsum_cons.
    unfold bigw at 1. destruct (C <? 2 * a) eqn:E0; lia. }
  rewrite Ebeta in Hbig. split; [exact Ebeta|]. split; [exact Hbig|].
  destruct (Z_le_dec (fsum (bigw C) R) (Z.of_nat n - 2)) as [Hle|Hgt]; [left; exact Hle|right].
  destruct (existsb (fun g => (C <? 2 * g) && (g <=? C - a)) R) eqn:Eg.
  { left. split; [lia|]. apply existsb_exists in Eg. destruct Eg as (g & Hg & Hgc). exists g.
    split; [exact Hg|lia]. }
  right.
  assert (Hnog : forall g, In g R -> C < 2 * g -> C - a < g).
  { intros g Hg Hg2. destruct (Z_lt_dec (C - a) g) as [Hok|Hbad]; [exact Hok|]. exfalso.
    assert (Hex : existsb (fun g0 => (C <? 2 * g0) && (g0 <=? C - a)) R = true).
    { apply existsb_exists. exists g. split; [exact Hg|lia]. }
    congruence. }
  destruct (Z.eq_dec (fsum (bigw C) R) (Z.of_nat n)) as [Eb1|Eb1].
  { (* n values above C/2, all above C - a: impossible next to a *)
    exfalso. assert (Hina : In a vs) by (eapply Permutation_in; [exact Hpa|left; reflexivity]).
    destruct (nonhuge_big_exists C a vs n HC Ha3 Ha2 Hvs Hpack Hina ltac:(lia))
      as (g & Hg & Hg2 & Hgth).
    apply (Permutation_in _ (Permutation_sym Hpa)) in Hg. destruct Hg as [Hg|Hg]; [lia|].
    pose proof (Hnog g Hg Hg2). lia. }
  split; [lia|].
  pose proof (packable_gpack C vs n Hpack) as HG.
  apply (gpack_perm C vs (a :: R) n (Permutation_sym Hpa)) in HG.
  destruct (gpack_head C a R n HG) as (B & R' & m0 & En & HPR & HaB & HG').
  assert (HBR : Forall (fun v => 0 <= v) (B ++ R'))
    by (eapply Permutation_Forall; [exact HPR|exact HR]).
  apply Forall_app in HBR. destruct HBR as [HB0 HR'0].
  exists B, R', m0. split; [exact En|]. split; [exact HPR|]. split; [exact HaB|].
  split; [exact HB0|]. split; [|split; [exact HR'0|apply gpack_packable; exact HG']].
  rewrite Forall_forall. intros v Hv.
  destruct (Z_le_dec (2 * v) C) as [Hok|Hbad]; [exact Hok|]. exfalso.
  assert (HvR : In v R).
  { eapply Permutation_in; [apply Permutation_sym; exact HPR|]. apply in_or_app. left. exact Hv. }
  pose proof (Hnog v HvR ltac:(lia)). pose proof (in_le_zsum v B Hv HB0). lia.
Qed.

(** ---- 5. a third order invariant of best-fit ---- *)
Section BF3.
  Context {A : Type} (valueof : A -> Z).
  Notation add := (add_to_bin valueof true).

  (** d = y1 :: z :: _ with y1 above C/2, c an earlier bin: when z was placed, it did not fit c,
      or c (then holding the prefix p) was less full than y1; y1 did not fit p when d was opened;
      the next item w of c did not fit d *)
  Definition later3_ok (C : Z) (c d : bin A) : Prop :=
    match snd d with
    | y1 :: z :: _ =>
        2 * valueof y1 <= C \/ C < fst c + valueof z \/
        exists p q, snd c = p ++ q /\ zsum (map valueof p) < valueof y1 /\
                    C < zsum (map valueof p) + valueof y1 /\
                    match q with [] => True | w :: _ => C < fst d + valueof w end
    | _ => True
    end.

  Fixpoint bf3 (C : Z) (b : bins A) : Prop :=
    match b with
    | [] => True
    | c :: t => Forall (later3_ok C c) t /\ bf3 C t
    end.

  Lemma bf3_app C (l1 l2 : bins A) :
    bf3 C (l1 ++ l2) <-> bf3 C l1 /\ bf3 C l2 /\ Forall (fun c => Forall (later3_ok C c) l2) l1.
  Proof.
    induction l1 as [|c l1 IH]; cbn [app bf3].
    - split; [intros H; repeat split; auto|intros (_ & H & _); exact H].
    - rewrite Forall_app, IH, Forall_cons_iff. tauto.
  Qed.

  (** the bin bn receives x *)
  Lemma later3_grow_c C x bn d : 0 <= valueof x -> wf_bin valueof bn -> wf_bin valueof d ->
    Forall (fun y => 0 <= valueof y) (snd d) ->
    (fst d + valueof x <= C -> fst d <= fst bn) ->
    later3_ok C bn d -> later3_ok C (add x bn) d.
  Proof.
    intros Hx Hwb Hwd Hnnd Hbest. unfold later3_ok.
    destruct (snd d) as [|y1 [|z r]] eqn:Ed; [auto|auto|].
    intros [H|[H|(p & q & E & Hp1 & Hp2 & Hq)]]; [left; exact H| |].
    - right. left. unfold add_to_bin. cbn [fst]. lia.
    - right. right. exists p, (q ++ [x]). unfold add_to_bin. cbn [fst snd].
      split; [rewrite E, app_assoc; reflexivity|]. split; [exact Hp1|]. split; [exact Hp2|].
      destruct q as [|w q']; cbn [app]; [|exact Hq].
      rewrite app_nil_r in E. unfold wf_bin in Hwb. rewrite E in Hwb.
      pose proof (first_le_sum valueof d y1 (z :: r) Hwd Ed) as Hy. rewrite Ed in Hy. specialize (Hy Hnnd).
      destruct (Z_lt_le_dec C (fst d + valueof x)) as [Hlt|Hle]; [exact Hlt|].
      specialize (Hbest Hle). lia.
  Qed.

  (** the bin bn, after c, receives x *)
  Lemma later3_grow_d C x c bn : 0 <= valueof x -> wf_bin valueof bn -> wf_bin valueof c ->
    later_ok valueof C (fst c) bn ->
    (fst c + valueof x <= C -> fst c < fst bn) ->
    later3_ok C c bn -> later3_ok C c (add x bn).
  Proof.
    intros Hx Hwb Hwc Hany Hbest. unfold later3_ok, later_ok in *. unfold add_to_bin. cbn [fst snd].
    destruct (snd bn) as [|y1 [|z r]] eqn:Eb; cbn [app].
    - auto.
    - intros _. unfold wf_bin in Hwb. rewrite Eb in Hwb. cbn [map] in Hwb.
      rewrite zsum_cons, zsum_nil in Hwb.
      destruct (Z_le_dec (2 * valueof y1) C) as [H1|H1]; [left; exact H1|].
      destruct (Z_lt_le_dec C (fst c + valueof x)) as [Hlt|Hle]; [right; left; exact Hlt|].
      right. right. specialize (Hbest Hle). exists (snd c), [].
      unfold wf_bin in Hwc. rewrite <- Hwc.
      split; [rewrite app_nil_r; reflexivity|]. split; [lia|]. split; [lia|exact I].
    - intros [H|[H|(p & q & E & Hp1 & Hp2 & Hq)]]; [left; exact H|right; left; exact H|].
      right. right. exists p, q. repeat split; auto. destruct q as [|w q']; [exact I|lia].
  Qed.

  Lemma bf3_into C x bn (l1 l2 : bins A) : 0 <= valueof x ->
    wf valueof (l1 ++ bn :: l2) -> Forall (fun y => 0 <= valueof y) (contents (l1 ++ bn :: l2)) ->
    anyfit valueof C (l1 ++ bn :: l2) ->
    Forall (fun c => fst c + valueof x <= C -> fst c < fst bn) l1 ->
    Forall (fun c => fst c + valueof x <= C -> fst c <= fst bn) l2 ->
    bf3 C (l1 ++ bn :: l2) -> bf3 C (l1 ++ add x bn :: l2).
  Proof.
    intros Hx Hw Hnn Ha Hb1 Hb2. rewrite !bf3_app. cbn [bf3].
    intros (H1 & (Hbn2 & H2) & H12).
    pose proof (anyfit_at valueof C l1 bn l2 Ha) as Hany.
    unfold wf in Hw. apply Forall_app in Hw. destruct Hw as [Hw1 Hw].
    apply Forall_cons_iff in Hw. destruct Hw as [Hwb Hw2].
    apply (contents_Forall (fun y => 0 <= valueof y)) in Hnn.
    apply Forall_app in Hnn. destruct Hnn as [_ Hnn]. apply Forall_cons_iff in Hnn.
    destruct Hnn as [_ Hnn2].
    split; [exact H1|]. split; [split; [|exact H2]|].
    - rewrite Forall_forall in *. intros d Hd.
      apply later3_grow_c; auto.
    - rewrite Forall_forall in *. intros c Hc. specialize (H12 c Hc).
      apply Forall_cons_iff in H12. destruct H12 as [Hcb Hc2].
      constructor; [|exact Hc2]. apply later3_grow_d; auto.
  Qed.

  Lemma bf3_new C x : forall b : bins A, bf3 C b -> bf3 C (b ++ [add x empty_bin]).
  Proof.
    intros b H. rewrite bf3_app. cbn [bf3]. split; [exact H|]. split; [split; [constructor|exact I]|].
    rewrite Forall_forall. intros c _. constructor; [|constructor].
    unfold later3_ok, add_to_bin, empty_bin. cbn. exact I.
  Qed.

  Lemma bf_place_bf3 C x b : 0 <= valueof x -> wf valueof b -> nonneg_sums b ->
    Forall (fun y => 0 <= valueof y) (contents b) -> anyfit valueof C b ->
    bf3 C b -> bf3 C (bf_place valueof true C x b).
  Proof.
    intros Hx Hw Hns Hnn Ha H3.
    destruct (bf_place_cases valueof C x b (nonneg_sums_pos b (valueof x) Hx Hns))
      as [(l1 & bn & l2 & E1 & E2 & E3 & E4 & E5)|[E1 E2]]; rewrite E2.
    - subst b. apply bf3_into; auto.
    - apply bf3_new. exact H3.
  Qed.

  (** best-fit keeps Inv, bf2 and bf3 *)
  Lemma bf_inv3 C (items : list A) (b : bins A) :
    items <> [] -> Forall (fun x => 0 <= valueof x) items ->
    best_fit valueof true C items = Ok b ->
    Inv valueof C b items /\ bf2 valueof C b /\ bf3 C b.
  Proof.
    intros Hne Hnn H. unfold best_fit in H. rewrite bf_loop_gloop in H.
    apply (gloop_af_first valueof (bf_place valueof true) C (bf_is_step valueof C)
             (fun b0 => bf2 valueof C b0 /\ bf3 C b0)); try assumption.
    - intros x b0 acc Hx (Hw & _ & _ & _ & Hsn & Ha) Hnnb [H2 H3]. split.
      + apply bf_place_bf2; auto. lia.
      + apply bf_place_bf3; auto. lia.
    - intros x. split; [cbn [bf2]|cbn [bf3]]; split; constructor.
  Qed.
End BF3.

(** ---- 6. best-fit satisfies [after_ok] ---- *)
Section AfterBF.
  Context {A : Type} (valueof : A -> Z).

  Lemma bf3_after_ok C (b' : bins A) : 0 <= C -> wf valueof b' -> feasible C b' ->
    Forall (fun y => 0 <= valueof y) (contents b') -> anyfit valueof C b' -> bf3 valueof C b' ->
    after_ok valueof C b'.
  Proof.
    intros HC Hw Hfe Hnn Ha H3 t1 c t2 Bg g Eb' Hnb Hgc HB2 HgB Hg2 Hlt. subst b'.
    apply bf3_app in H3. destruct H3 as (_ & H3 & _). cbn [bf3] in H3. destruct H3 as [H3 _].
    rewrite Forall_forall in H3. specialize (H3 Bg HB2).
    pose proof (anyfit_app_r valueof C t1 (c :: t2) Ha) as Ha2. apply anyfit_cons in Ha2.
    destruct Ha2 as [Ha2 _]. rewrite Forall_forall in Ha2. specialize (Ha2 Bg HB2).
    assert (HinB : In Bg (t1 ++ c :: t2)) by (apply in_or_app; right; right; exact HB2).
    assert (Hinc : In c (t1 ++ c :: t2)) by (apply in_or_app; right; left; reflexivity).
    apply (contents_Forall (fun y => 0 <= valueof y)) in Hnn.
    unfold wf, feasible in *. rewrite Forall_forall in Hw, Hfe, Hnn.
    pose proof (Hw Bg HinB) as HwB. pose proof (Hw c Hinc) as Hwc.
    pose proof (Hfe Bg HinB) as HfB. pose proof (Hnn Bg HinB) as HnB. pose proof (Hnn c Hinc) as Hnc.
    unfold wf_bin in HwB, Hwc. unfold later_ok in Ha2. unfold later3_ok in H3.
    destruct (snd Bg) as [|y1 rest] eqn:EB; [contradiction|].
    cbn [map] in HwB, HgB. rewrite zsum_cons in HwB.
    apply Forall_cons_iff in HnB. destruct HnB as [Hy1 Hnrest].
    assert (Hnrest' : Forall (fun v => 0 <= v) (map valueof rest)) by (rewrite Forall_map; exact Hnrest).
    destruct HgB as [Eg|Hin].
    - destruct rest as [|z r].
      + cbn [map] in HwB. rewrite zsum_nil in HwB. lia.
      + cbn [map] in HwB, Hnrest'. rewrite zsum_cons in HwB.
        apply Forall_cons_iff in Hnrest'. destruct Hnrest' as [Hz Hr].
        pose proof (zsum_nonneg _ Hr) as Hr0.
        destruct H3 as [H|[H|(p & q & E & Hp1 & Hp2 & Hq)]]; [lia|left; lia|].
        rewrite E, map_app, zsum_app in Hwc. rewrite E in Hnc.
        apply Forall_app in Hnc. destruct Hnc as [_ Hnq].
        destruct q as [|w q'].
        * cbn [map] in Hwc. rewrite zsum_nil in Hwc. lia.
        * cbn [map] in Hwc. rewrite zsum_cons in Hwc.
          apply Forall_cons_iff in Hnq. destruct Hnq as [Hw0 Hnq'].
          assert (0 <= zsum (map valueof q')) by (apply zsum_nonneg; rewrite Forall_map; exact Hnq').
          right. lia.
    - pose proof (in_le_zsum g _ Hin Hnrest') as Hge. left. lia.
  Qed.

End AfterBF.

(** ---- 7. tools for rung 3 ---- *)
Section Tools3.
  Context {A : Type} (valueof : A -> Z).

  Notation cw2 C b := (wsum2 C (map valueof (contents b))).

  (** some common bin c carries the whole deficit: 10 C - 12 (sum of c) *)
  Lemma heavy_choice C (b' : bins A) : 0 < C ->
    wf valueof b' -> all_nonempty b' -> anyfit valueof C b' -> bf2 valueof C b' -> half_full C b' ->
    Forall (fun y => 0 <= valueof y) (contents b') ->
    Forall (hasbig valueof C) b' \/
    exists t1 c t2, b' = t1 ++ c :: t2 /\ nobig valueof C c /\
      10 * C * Z.of_nat (length b') + xs valueof C b' <= cw2 C b' + 10 * C - 12 * fst c.
  Proof.
    intros HC Hw Hnem Ha Hb2 Hhf Hnn. assert (HC0 : 0 <= C) by lia.
    destruct (last_common_split valueof C b') as [Hall|(t1 & c & t2 & Eb' & Hnb & Hall)];
      [left; exact Hall|right].
    assert (Hinc : In c b') by (rewrite Eb'; apply in_or_app; right; left; reflexivity).
    (* the carrier c': a common bin that is at most 2/3 full if there is one, else the last one *)
    assert (Hcarrier : exists c', In c' b' /\ nobig valueof C c' /\ fst c' <= fst c /\
                                 okX valueof C (fst c') b').
    { destruct (carrier_choice valueof C (2 * C + 2) b' c Hinc Hnb)
        as [(c' & Hin' & Hnb' & Hcap' & Hle)|H23].
      - exists c'. repeat split; auto. unfold okX. rewrite Forall_forall. intros d _ _. right. lia.
      - exists c. repeat split; auto; [lia|]. unfold okX. rewrite Forall_forall. intros d Hd Hnd. left.
        pose proof (H23 d Hd Hnd). lia. }
    destruct Hcarrier as (c' & Hin' & Hnb' & Hle & Hok).
    assert (Hhc' : C < 2 * fst c') by (unfold half_full in Hhf; rewrite Forall_forall in Hhf; auto).
    assert (Hreg : regular valueof C (fst c') b').
    { rewrite Eb'. apply regular_app. apply reg_last; auto. }
    pose proof (heavyRX valueof C (fst c') HC0 b' 0 Hw Hnem Ha Hb2 Hhf Hok Hreg Hnn
                  (head2_ge_all valueof C 0 b' Hnn)) as H.
    assert (HPhi : PhiS C (fst c') 0 = 10 * C - 12 * fst c').
    { unfold PhiS. pose proof (bonus_spec C 0). lia. }
    apply in_split in Hin'. destruct Hin' as (u1 & u2 & Eu).
    exists u1, c', u2. split; [exact Eu|]. split; [exact Hnb'|]. lia.
  Qed.

  (** a feasible bin holds at most one value above C/2 *)
  Lemma bigw_le_one C l : 0 <= C -> Forall (fun v => 0 <= v) l -> zsum l <= C ->
    fsum (bigw C) l <= 1.
  Proof.
    intros HC Hnn Hs.
    assert (H : (C + 1) * fsum (bigw C) l <= 2 * zsum l).
    { clear Hs. induction Hnn as [|v l Hv Hl IH]; [rewrite fsum_nil, zsum_nil; lia|].
      rewrite fsum_cons, zsum_cons. pose proof (bigw_dom C v Hv). lia. }
    pose proof (fsum_bigw_nonneg C l) as H0.
    destruct (Z_le_dec (fsum (bigw C) l) 1) as [Hle|Hgt]; [exact Hle|]. exfalso.
    assert ((C + 1) * 2 <= (C + 1) * fsum (bigw C) l) by (apply Z.mul_le_mono_nonneg_l; lia). lia.
  Qed.

  (** every bin is filled to l at least: the excess of a bin with a value above C/2 is at least
      12 l - 6 C; one of them, Bg, is singled out *)
  Lemma xs_lower C l (b' : bins A) : 0 <= C -> 0 <= 12 * l - 6 * C -> wf valueof b' -> feasible C b' ->
    Forall (fun y => 0 <= valueof y) (contents b') -> Forall (fun c : bin A => l <= fst c) b' ->
    (12 * l - 6 * C) * fsum (bigw C) (map valueof (contents b')) <= xs valueof C b'.
  Proof.
    intros HC HE. set (E := 12 * l - 6 * C) in *. induction b' as [|c t IH]; intros Hw Hfe Hnn HEc.
    - cbn [xs]. unfold contents, lists. cbn [map concat]. rewrite fsum_nil. lia.
    - unfold wf in Hw. apply Forall_cons_iff in Hw. destruct Hw as [Hwc Hw].
      unfold feasible in Hfe. apply Forall_cons_iff in Hfe. destruct Hfe as [Hfc Hfe].
      rewrite contents_cons in Hnn. apply Forall_app in Hnn. destruct Hnn as [Hn1 Hn2].
      apply Forall_cons_iff in HEc. destruct HEc as [HE1 HE2].
      specialize (IH Hw Hfe Hn2 HE2).
      rewrite contents_cons, map_app, fsum_app. cbn [xs].
      assert (Hn1' : Forall (fun v => 0 <= v) (map valueof (snd c))) by (rewrite Forall_map; exact Hn1).
      unfold wf_bin in Hwc.
      pose proof (bigw_le_one C _ HC Hn1' ltac:(lia)) as H1.
      pose proof (fsum_bigw_nonneg C (map valueof (snd c))) as H0.
      destruct (bigb valueof C c) eqn:Eb.
      + assert (E * fsum (bigw C) (map valueof (snd c)) <= E * 1)
          by (apply Z.mul_le_mono_nonneg_l; lia). lia.
      + apply bigb_false in Eb. rewrite (bigc_nobig C _ Eb). lia.
  Qed.

  Lemma xs_lower_in C l (b' : bins A) Bg : 0 <= C -> 0 <= 12 * l - 6 * C -> wf valueof b' -> feasible C b' ->
    Forall (fun y => 0 <= valueof y) (contents b') -> Forall (fun c : bin A => l <= fst c) b' ->
    In Bg b' -> bigb valueof C Bg = true ->
    (12 * l - 6 * C) * fsum (bigw C) (map valueof (contents b')) + 12 * (fst Bg - l) <= xs valueof C b'.
  Proof.
    intros HC HE Hw Hfe Hnn HEc Hin Hb. apply in_split in Hin. destruct Hin as (l1 & l2 & Eb). subst b'.
    set (E := 12 * l - 6 * C) in *.
    unfold wf in Hw. apply Forall_app in Hw. destruct Hw as [Hw1 Hw].
    apply Forall_cons_iff in Hw. destruct Hw as [HwB Hw2].
    unfold feasible in Hfe. apply Forall_app in Hfe. destruct Hfe as [Hf1 Hfe].
    apply Forall_cons_iff in Hfe. destruct Hfe as [HfB Hf2].
    rewrite contents_app, contents_cons in Hnn. apply Forall_app in Hnn. destruct Hnn as [Hn1 Hnn].
    apply Forall_app in Hnn. destruct Hnn as [HnB Hn2].
    apply Forall_app in HEc. destruct HEc as [HE1 HEc].
    apply Forall_cons_iff in HEc. destruct HEc as [HEB HE2].
    pose proof (xs_lower C l l1 HC HE Hw1 Hf1 Hn1 HE1) as X1.
    pose proof (xs_lower C l l2 HC HE Hw2 Hf2 Hn2 HE2) as X2. fold E in X1, X2.
    rewrite contents_app, contents_cons, !map_app, !fsum_app, xs_app. cbn [xs]. rewrite Hb.
    assert (HnB' : Forall (fun v => 0 <= v) (map valueof (snd Bg))) by (rewrite Forall_map; exact HnB).
    unfold wf_bin in HwB.
    pose proof (bigw_le_one C _ HC HnB' ltac:(lia)) as H1.
    pose proof (fsum_bigw_nonneg C (map valueof (snd Bg))) as H0.
    assert (E * fsum (bigw C) (map valueof (snd Bg)) <= E * 1)
      by (apply Z.mul_le_mono_nonneg_l; lia).
    lia.
  Qed.
End Tools3.

(** values up to C/2 with sum below 2C/3: the bonus is at most max(C, 6 s - 2 C) (for s >= C/2) *)
Definition Fb (C s : Z) : Z := Z.max (Z.max 0 (Z.min (6 * s - C) C)) (6 * s - 2 * C).

Lemma wsum2_nobig_23 C l : Forall (fun a => 0 <= a) l -> Forall (fun a => 2 * a <= C) l ->
  3 * zsum l < 2 * C -> wsum2 C l <= 12 * zsum l + Fb C (zsum l).
Proof.
  intros Hnn. induction Hnn as [|a l Ha Hl IH]; intros Hnb HS.
  - rewrite fsum_nil, zsum_nil. unfold Fb. lia.
  - apply Forall_cons_iff in Hnb. destruct Hnb as [Ha2 Hnb].
    rewrite zsum_cons in HS. rewrite fsum_cons, zsum_cons.
    pose proof (zsum_nonneg l Hl) as H0. assert (HS' : 3 * zsum l < 2 * C) by lia.
    specialize (IH Hnb HS'). pose proof (W2_spec C a) as HWa. unfold Fb in *. lia.
Qed.

(** ---- 8. a bin {a}, C/3 < a <= C/2: the additive constant 3 (for n >= 2) ----
    Remove {a}: the other bins b' are filled above th = C - a >= C/2; [heavy_choice] bounds their
    number by the weight, the excess of the bins with a value above C/2, and the free space of
    the carrier c; [medium_opt_cases] says what the optimum loses. *)
Section Medium3.
  Context {A : Type} (valueof : A -> Z).

  Lemma medium_core3 C (b : bins A) (vs : list Z) (n : nat) E xa :
    0 < C -> (2 <= n)%nat -> wf valueof b -> feasible C b -> all_nonempty b -> anyfit valueof C b ->
    bf2 valueof C b -> Forall (fun y => 0 <= valueof y) (contents b) ->
    Permutation (map valueof (contents b)) vs -> Packable C vs n ->
    In E b -> snd E = [xa] -> C < 3 * valueof xa -> 2 * valueof xa <= C ->
    after_ok valueof C b ->
    (10 * length b <= 17 * n + 3)%nat.
  Proof.
    intros HC Hn Hw Hfe Hnem Ha Hb2 Hnnb Hpv Hpack HinE EsE Ha3 Ha2 Hafter.
    destruct (medium_remove valueof C b vs E xa Hw Hfe Hnem Ha Hb2 Hnnb Hafter Hpv HinE EsE Ha2)
      as (b' & Elen & Hw' & Hfe' & Hnem' & Ha' & Hb2' & Hnnb' & Hafter' & Hlv & Hhf & Hpa & Hvs).
    rewrite Elen. clear Hw Hfe Hnem Ha Hb2 Hnnb HinE Hafter Elen Hpv.
    assert (HC0 : 0 <= C) by lia.
    set (a := valueof xa) in *. set (th := C - a) in *.
    set (R := map valueof (contents b')) in *.
    assert (HR : Forall (fun v => 0 <= v) R) by (unfold R; rewrite Forall_map; exact Hnnb').
    pose proof (packable_wsum2b C _ n HC0 Hvs Hpack) as Hlight.
    rewrite <- (fsum_perm (W2 C) _ _ Hpa), fsum_cons in Hlight.
    destruct (medium_opt_cases C a R vs n HC0 Ha3 Ha2 HR Hpa Hpack) as (Ebeta & Hbig & Hcases).
    rewrite Ebeta in Hlight.
    assert (HWa : W2 C a = 12 * a + C) by (pose proof (W2_spec C a); lia).
    pose proof (xs_lower valueof C (th + 1) b' HC0 ltac:(unfold th; lia) Hw' Hfe' Hnnb' Hlv) as Hxs.
    fold R in Hxs. set (e0 := 12 * (th + 1) - 6 * C) in *.
    assert (He0 : 12 <= e0) by (unfold e0, th; lia).
    destruct (heavy_choice valueof C b' HC Hw' Hnem' Ha' Hb2' Hhf Hnnb')
      as [Hall|(t1 & c & t2 & Eb' & Hnb & Hheavy)].
    - pose proof (hasbig_count valueof C b' Hall) as Hcnt. fold R in Hcnt. lia.
    - assert (Hinc : In c b') by (rewrite Eb'; apply in_or_app; right; left; reflexivity).
      assert (Hlc : th + 1 <= fst c) by (rewrite Forall_forall in Hlv; apply Hlv; exact Hinc).
      fold R in Hheavy.
      set (m' := Z.of_nat (length b')) in *. set (nn := Z.of_nat n) in *.
      set (beta := fsum (bigw C) R) in *.
      assert (Hnn2 : 2 <= nn) by (unfold nn; lia).
      assert (Hb0 : 0 <= beta) by (apply fsum_bigw_nonneg).
      (* the term nn * (12 a - 6 C - 12), with n >= 2 *)
      assert (Hneg : nn * (12 * a - 6 * C - 12) <= 2 * (12 * a - 6 * C - 12))
        by (apply Z.mul_le_mono_nonpos_r; lia).
      assert (Hz : C * (10 * (m' + 1)) < C * (17 * nn + 4)).
      { destruct Hcases as [Hb2n|[(Hb2n & g & HgR & Hg2 & Hgth)|
                                  (Eb1 & B & R' & m0 & En & HPR & HaB & HB0 & HBnb & HR'0 & Hpack')]].
        - (* at most n - 2 values above C/2 *)
          assert (Hp : beta * (12 * a - 4 * C - 12) <= (nn - 2) * (2 * C)).
          { destruct (Z_le_dec (12 * a - 4 * C - 12) 0) as [Hs|Hs].
            - assert (beta * (12 * a - 4 * C - 12) <= 0) by (apply Z.mul_nonneg_nonpos; lia).
              assert (0 <= (nn - 2) * (2 * C)) by (apply Z.mul_nonneg_nonneg; lia). lia.
            - assert (beta * (12 * a - 4 * C - 12) <= (nn - 2) * (12 * a - 4 * C - 12))
                by (apply Z.mul_le_mono_nonneg_r; lia).
              assert ((nn - 2) * (12 * a - 4 * C - 12) <= (nn - 2) * (2 * C))
                by (apply Z.mul_le_mono_nonneg_l; lia).
              lia. }
          unfold e0, th in Hxs. lia.
        - (* some value g with C/2 < g <= th: its bin Bg *)
          destruct (big_value_bin valueof C b' g HgR Hg2) as (Bg & HBg & HgB & Hbb).
          assert (HlB : th + 1 <= fst Bg) by (rewrite Forall_forall in Hlv; apply Hlv; exact HBg).
          pose proof (xs_lower_in valueof C (th + 1) b' Bg HC0 ltac:(lia) Hw' Hfe' Hnnb' Hlv HBg Hbb) as Hxs'.
          fold R in Hxs'. fold beta in Hxs'.
          pose proof (big_partner valueof C b' t1 c t2 Bg g HC0 Eb' Hw' Ha' Hb2' Hnnb' Hafter' Hnb
                        ltac:(unfold th in *; lia) ltac:(lia) HBg HgB Hg2 ltac:(lia)) as Hkey.
          assert (Hbcase : beta = nn - 1 \/ beta = nn) by lia.
          unfold e0, th in *. destruct Hbcase as [Eb1|Eb1]; rewrite Eb1 in *; lia.
        - (* n - 1 values above C/2; the optimal bin of a holds none of them *)
          pose proof (zsum_nonneg B HB0) as HzB.
          pose proof (wsum2_nobig_23 C B HB0 HBnb ltac:(unfold th in *; lia)) as HWB.
          pose proof (packable_wsum2b C R' m0 HC0 HR'0 Hpack') as HWR'.
          pose proof (fsum_bigw_nonneg C B) as HbB.
          rewrite (fsum_perm (W2 C) _ _ HPR), fsum_app in Hlight, Hheavy.
          assert (EbR : beta = fsum (bigw C) B + fsum (bigw C) R').
          { unfold beta. rewrite (fsum_perm (bigw C) _ _ HPR), fsum_app. reflexivity. }
          assert (Em0 : Z.of_nat m0 = nn - 1) by (unfold nn; lia).
          rewrite Em0 in HWR'.
          assert (HFb : 12 * zsum B + Fb C (zsum B) <= 12 * th + Z.max C (6 * th - 2 * C))
            by (unfold Fb, th in *; lia).
          unfold e0, th in Hxs. unfold th in HFb.
          assert (Hbr : 2 * C * fsum (bigw C) R' <= 2 * C * beta)
            by (apply Z.mul_le_mono_nonneg_l; lia).
          rewrite Eb1 in *. lia. }
      apply Z.mul_lt_mono_pos_l in Hz; [|lia]. unfold m', nn in Hz. lia.
  Qed.
End Medium3.

(** ---- 9. rung 3: 10 m <= 17 n + 3 unconditionally, and what follows from it ---- *)
Section Rung3u.
  Context {A : Type} (valueof : A -> Z).

  Lemma ratio_17_3_uncond_core C (items : list A) (b : bins A) (n : nat) :
    items <> [] -> Forall (fun x : A => 0 <= valueof x) items ->
    Inv valueof C b items -> bf2 valueof C b -> 0 <= C -> (1 <= n)%nat ->
    Forall (fun y => 0 <= valueof y) (contents b) ->
    Packable C (map valueof items) n -> after_ok valueof C b ->
    (10 * length b <= 17 * n + 3)%nat.
  Proof.
    intros Hne Hnn HI Hb2 HC Hn Hnnb Hpack Hafter.
    pose proof (Inv_lt_2n valueof C b items n HI Hne Hnn Hpack) as H2n.
    destruct (medium_single_dec valueof C b) as [(E & xa & HinE & EsE & Ha3 & Ha2)|Hno1].
    - destruct (cap_pos_or_single valueof C items b n HI HC Hnnb Hpack) as [HCpos|H1]; [|lia].
      destruct (le_lt_dec 2 n) as [Hn2|Hn1]; [|lia].
      destruct HI as (Hw & Hf & Hp & Hnem & Hns & Ha).
      apply (medium_core3 valueof C b (map valueof items) n E xa); auto.
      apply Permutation_map. exact Hp.
    - apply (ratio_17_3_core valueof C items b n HI Hb2 HC Hn Hnnb Hpack Hno1).
  Qed.

  Lemma ff_after_ok C (items : list A) (b : bins A) (n : nat) :
    items <> [] -> Forall (fun x : A => 0 <= valueof x) items ->
    first_fit valueof true C items = Ok b -> Packable C (map valueof items) n ->
    after_ok valueof C b.
  Proof.
    intros Hne Hnn Hff Hpack.
    destruct (ff_facts valueof C items b n Hne Hnn Hff Hpack) as ((Hw & Hf & _) & _ & HC & _).
    apply sfit_after_ok; auto. apply (ff_sfit valueof C items b Hnn Hff).
  Qed.

  Lemma bf_after_ok C (items : list A) (b : bins A) (n : nat) :
    items <> [] -> Forall (fun x : A => 0 <= valueof x) items ->
    best_fit valueof true C items = Ok b -> Packable C (map valueof items) n ->
    after_ok valueof C b.
  Proof.
    intros Hne Hnn Hbf Hpack.
    destruct (bf_facts valueof C items b n Hne Hnn Hbf Hpack) as (_ & _ & HC & _ & Hnnb).
    destruct (bf_inv3 valueof C items b Hne Hnn Hbf) as ((Hw & Hf & _ & _ & _ & Ha) & _ & Hb3).
    apply bf3_after_ok; auto.
  Qed.

  Theorem ff_ratio_17_3_uncond_partial C (items : list A) (b : bins A) (n : nat) :
    items <> [] -> Forall (fun x : A => 0 <= valueof x) items ->
    first_fit valueof true C items = Ok b -> Packable C (map valueof items) n ->
    (10 * length b <= 17 * n + 3)%nat.
  Proof.
    intros Hne Hnn Hff Hpack.
    destruct (ff_facts valueof C items b n Hne Hnn Hff Hpack) as (HI & Hb2 & HC & Hn & Hnnb).
    apply (ratio_17_3_uncond_core C items b n); auto. apply (ff_after_ok C items b n); assumption.
  Qed.

  Theorem bf_ratio_17_3_uncond_partial C (items : list A) (b : bins A) (n : nat) :
    items <> [] -> Forall (fun x : A => 0 <= valueof x) items ->
    best_fit valueof true C items = Ok b -> Packable C (map valueof items) n ->
    (10 * length b <= 17 * n + 3)%nat.
  Proof.
    intros Hne Hnn Hbf Hpack.
    destruct (bf_facts valueof C items b n Hne Hnn Hbf Hpack) as (HI & Hb2 & HC & Hn & Hnnb).
    apply (ratio_17_3_uncond_core C items b n); auto. apply (bf_after_ok C items b n); assumption.
  Qed.

  Theorem ff_ratio_17_4_partial C (items : list A) (b : bins A) (n : nat) :
    items <> [] -> Forall (fun x : A => 0 <= valueof x) items ->
    first_fit valueof true C items = Ok b -> Packable C (map valueof items) n ->
    (10 * length b <= 17 * n + 4)%nat.
  Proof.
    intros Hne Hnn Hff Hpack.
    pose proof (ff_ratio_17_3_uncond_partial C items b n Hne Hnn Hff Hpack). lia.
  Qed.

  Theorem bf_ratio_17_4_partial C (items : list A) (b : bins A) (n : nat) :
    items <> [] -> Forall (fun x : A => 0 <= valueof x) items ->
    best_fit valueof true C items = Ok b -> Packable C (map valueof items) n ->
    (10 * length b <= 17 * n + 4)%nat.
  Proof.
    intros Hne Hnn Hbf Hpack.
    pose proof (bf_ratio_17_3_uncond_partial C items b n Hne Hnn Hbf Hpack). lia.
  Qed.

  Theorem ff_ratio_17_6_partial C (items : list A) (b : bins A) (n : nat) :
    items <> [] -> Forall (fun x : A => 0 <= valueof x) items ->
    first_fit valueof true C items = Ok b -> Packable C (map valueof items) n ->
    (10 * length b <= 17 * n + 6)%nat.
  Proof.
    intros Hne Hnn Hff Hpack.
    pose proof (ff_ratio_17_3_uncond_partial C items b n Hne Hnn Hff Hpack). lia.
  Qed.

  Theorem bf_ratio_17_6_partial C (items : list A) (b : bins A) (n : nat) :
    items <> [] -> Forall (fun x : A => 0 <= valueof x) items ->
    best_fit valueof true C items = Ok b -> Packable C (map valueof items) n ->
    (10 * length b <= 17 * n + 6)%nat.
  Proof.
    intros Hne Hnn Hbf Hpack.
    pose proof (bf_ratio_17_3_uncond_partial C items b n Hne Hnn Hbf Hpack). lia.
  Qed.

  Theorem ff_ratio_17_floor_rung3_partial C (items : list A) (b : bins A) (n : nat) :
    items <> [] -> Forall (fun x : A => 0 <= valueof x) items ->
    first_fit valueof true C items = Ok b -> MinBins C (map valueof items) n ->
    (n = 1)%nat \/ (exists k r, n = 10 * k + r /\ r < 10 /\ r <> 1 /\ r <> 4 /\ r <> 7)%nat ->
    (10 * length b <= 17 * n)%nat.
  Proof.
    intros Hne Hnn Hff [Hpack _] Hcase.
    pose proof (ff_ratio_17_3_uncond_partial C items b n Hne Hnn Hff Hpack) as H3.
    destruct (ff_facts valueof C items b n Hne Hnn Hff Hpack) as (HI & _ & _ & Hn & _).
    pose proof (Inv_lt_2n valueof C b items n HI Hne Hnn Hpack) as H2.
    destruct Hcase as [Hs|(k & r & E & Hr & H1 & H4 & H7)]; lia.
  Qed.

  Theorem bf_ratio_17_floor_rung3_partial C (items : list A) (b : bins A) (n : nat) :
    items <> [] -> Forall (fun x : A => 0 <= valueof x) items ->
    best_fit valueof true C items = Ok b -> MinBins C (map valueof items) n ->
    (n = 1)%nat \/ (exists k r, n = 10 * k + r /\ r < 10 /\ r <> 1 /\ r <> 4 /\ r <> 7)%nat ->
    (10 * length b <= 17 * n)%nat.
  Proof.
    intros Hne Hnn Hbf [Hpack _] Hcase.
    pose proof (bf_ratio_17_3_uncond_partial C items b n Hne Hnn Hbf Hpack) as H3.
    destruct (bf_facts valueof C items b n Hne Hnn Hbf Hpack) as (HI & _ & _ & Hn & _).
    pose proof (Inv_lt_2n valueof C b items n HI Hne Hnn Hpack) as H2.
    destruct Hcase as [Hs|(k & r & E & Hr & H1 & H4 & H7)]; lia.
  Qed.

  Theorem ff_ratio_17_floor_rung4_partial C (items : list A) (b : bins A) (n : nat) :
    items <> [] -> Forall (fun x : A => 0 <= valueof x) items ->
    first_fit valueof true C items = Ok b -> MinBins C (map valueof items) n ->
    (exists k r, n = 10 * k + r /\ In r [0; 2; 3; 5; 6; 9])%nat ->
    (10 * length b <= 17 * n)%nat.
  Proof.
    intros Hne Hnn Hff Hmin (k & r & E & Hr).
    apply (ff_ratio_17_floor_rung3_partial C items b n Hne Hnn Hff Hmin).
    right. exists k, r. cbn [In] in Hr. lia.
  Qed.

  Theorem bf_ratio_17_floor_rung4_partial C (items : list A) (b : bins A) (n : nat) :
    items <> [] -> Forall (fun x : A => 0 <= valueof x) items ->
    best_fit valueof true C items = Ok b -> MinBins C (map valueof items) n ->
    (exists k r, n = 10 * k + r /\ In r [0; 2; 3; 5; 6; 9])%nat ->
    (10 * length b <= 17 * n)%nat.
  Proof.
    intros Hne Hnn Hbf Hmin (k & r & E & Hr).
    apply (bf_ratio_17_floor_rung3_partial C items b n Hne Hnn Hbf Hmin).
    right. exists k, r. cbn [In] in Hr. lia.
  Qed.
End Rung3u.

(** ---- 10. every bin more than half full: the sharp bound unless every bin with a value above
    C/2 is (essentially) that value alone and comes after the chosen common bin ---- *)
Section HalfFullSharp.
  Context {A : Type} (valueof : A -> Z).

  Lemma half_full_excess_core C (b : bins A) (vs : list Z) (n : nat) Bg g :
    0 < C -> wf valueof b -> feasible C b -> all_nonempty b -> anyfit valueof C b -> bf2 valueof C b ->
    half_full C b -> Forall (fun y => 0 <= valueof y) (contents b) ->
    Permutation (map valueof (contents b)) vs -> Packable C vs n ->
    In Bg b -> In g (map valueof (snd Bg)) -> C < 2 * g ->
    (forall t1 c t2, b = t1 ++ c :: t2 -> nobig valueof C c -> In Bg t2 ->
       g + (C - fst c + 1) <= fst Bg) ->
    (10 * length b <= 17 * n)%nat.
  Proof.
    intros HC Hw Hfe Hnem Ha Hb2 Hhf Hnnb Hpv Hpack HBg HgB Hg2 Hafter.
    assert (HC0 : 0 <= C) by lia.
    assert (Hvs : Forall (fun v => 0 <= v) vs).
    { eapply Permutation_Forall; [exact Hpv|]. rewrite Forall_map. exact Hnnb. }
    pose proof (packable_wsum2 C _ n Hvs Hpack) as Hlight.
    rewrite <- (fsum_perm (W2 C) _ _ Hpv) in Hlight.
    pose proof (packable_big C vs n HC0 Hvs Hpack) as Hbig.
    change (zsum (map (bigw C) vs)) with (fsum (bigw C) vs) in Hbig.
    rewrite <- (fsum_perm (bigw C) _ _ Hpv) in Hbig.
    assert (Hbb : bigb valueof C Bg = true).
    { apply bigb_true. unfold hasbig. apply Exists_exists. exists g. split; [exact HgB|lia]. }
    destruct (heavy_choice valueof C b HC Hw Hnem Ha Hb2 Hhf Hnnb)
      as [Hall|(t1 & c & t2 & Eb & Hnb & Hheavy)].
    - pose proof (hasbig_count valueof C b Hall) as Hcnt. lia.
    - pose proof (xs_ge_in valueof C b Bg Hhf HBg Hbb) as Hxs.
      assert (Hinc : In c b) by (rewrite Eb; apply in_or_app; right; left; reflexivity).
      assert (Hhc : C < 2 * fst c) by (unfold half_full in Hhf; rewrite Forall_forall in Hhf; auto).
      assert (Hfc : fst c <= C) by (unfold feasible in Hfe; rewrite Forall_forall in Hfe; auto).
      assert (Hnnc : Forall (fun y => 0 <= valueof y) (snd c)).
      { apply (contents_Forall (fun y => 0 <= valueof y)) in Hnnb.
        rewrite Forall_forall in Hnnb. apply Hnnb. exact Hinc. }
      assert (Hkey : 18 * C + 12 <= 12 * fst Bg + 6 * fst c + 6 * C).
      { pose proof HBg as HBg'. rewrite Eb in HBg'. apply in_app_or in HBg'.
        destruct HBg' as [HB1|[HB2|HB2]].
        - rewrite Eb in Hw, Ha, Hb2.
          pose proof (before_common valueof C t1 c t2 Bg HC0 Hw Ha Hb2 Hnnc Hnb Hhc HB1). lia.
        - exfalso. subst Bg. apply bigb_false in Hnb. congruence.
        - pose proof (Hafter t1 c t2 Eb Hnb HB2). lia. }
      assert (Hz : C * (10 * Z.of_nat (length b)) < C * (17 * Z.of_nat n + 1)) by nia.
      apply Z.mul_lt_mono_pos_l in Hz; lia.
  Qed.

  (** first-fit: some bin holds a value above C/2 and something else of positive total size *)
  Theorem ff_half_full_bigextra_sharp_partial C (items : list A) (b : bins A) (n : nat) :
    items <> [] -> Forall (fun x : A => 0 <= valueof x) items ->
    first_fit valueof true C items = Ok b -> Packable C (map valueof items) n ->
    half_full C b ->
    (exists Bg g, In Bg b /\ In g (map valueof (snd Bg)) /\ C < 2 * g /\ g < fst Bg) ->
    (10 * length b <= 17 * n)%nat.
  Proof.
    intros Hne Hnn Hff Hpack Hhf (Bg & g & HBg & HgB & Hg2 & Hlt).
    pose proof (ff_sfit valueof C items b Hnn Hff) as Hsf.
    destruct (ff_facts valueof C items b n Hne Hnn Hff Hpack) as (HI & Hb2 & HC & Hn & Hnnb).
    destruct (cap_pos_or_single valueof C items b n HI HC Hnnb Hpack) as [Hpos|H1]; [|lia].
    destruct HI as (Hw & Hf & Hp & Hnem & Hns & Ha).
    apply (half_full_excess_core C b (map valueof items) n Bg g); auto;
      [apply Permutation_map; exact Hp|].
    intros t1 c t2 Eb Hnb HB2. rewrite Eb in Hw, Hsf.
    assert (Hfc : fst c <= C).
    { unfold feasible in Hf. rewrite Forall_forall in Hf. apply Hf. rewrite Eb.
      apply in_or_app; right; left; reflexivity. }
    apply (after_common_ff valueof C t1 c t2 Bg g); auto.
  Qed.

End HalfFullSharp.

(** ---- 11. a run of best-fit where only the third alternative of [later3_ok] holds: the item 5
    of the second bin fits the first bin at its final sum (so [sfit] fails), but the item 45 that
    the first bin received later did not fit the second bin ---- *)
Example bf3_run_example :
  best_fit (fun v : Z => v) true 100 [48; 53; 5; 45] = Ok [(93, [48; 45]); (58, [53; 5])] /\
  later3_ok (fun v : Z => v) 100 (93, [48; 45]) (58, [53; 5]) /\
  ~ sfit (fun v : Z => v) 100 [(93, [48; 45]); (58, [53; 5])].
Proof.
  split; [vm_compute; reflexivity|]. split.
  - unfold later3_ok. cbn [snd fst]. right. right. exists [48], [45].
    cbn [map app]. rewrite zsum_cons, zsum_nil. repeat split; lia.
  - cbn [sfit]. intros [H _]. unfold contents, lists in H. cbn [map concat app snd fst] in H.
    apply Forall_cons_iff in H. destruct H as [_ H]. apply Forall_cons_iff in H. destruct H as [H _]. lia.
Qed.

Print Assumptions ff_ratio_17_6_partial.
Print Assumptions bf_ratio_17_6_partial.
Print Assumptions ff_ratio_17_4_partial.
Print Assumptions bf_ratio_17_4_partial.
Print Assumptions ff_ratio_17_floor_rung4_partial.
Print Assumptions bf_ratio_17_floor_rung4_partial.
Print Assumptions ff_ratio_17_3_uncond_partial.
Print Assumptions bf_ratio_17_3_uncond_partial.
Print Assumptions ff_half_full_bigextra_sharp_partial.
Print Assumptions ff_ratio_17_floor_rung3_partial.
Print Assumptions bf_ratio_17_floor_rung3_partial.
