(** Worst-case ratio of MultiFit (Model/Multifit.v, prtpy/partitioning/multifit.py) below 2:
    the rungs 3/2, 4/3 and 5/4 (the rung 11/9 is in MultifitCapacityProofs.v).

    Published claim (Coffman, Garey, Johnson 1978): largest sum <= (1.22 + 2^-iterations) OPT.
    PROVED here, for the float model of the binary search (capacities are IEEE doubles, [rnd53]):

      multifit_ratio_54 :  4 * 2^it * L <= (5 * 2^it + 4) * OPT + 19 * 2^it
                           i.e.  L <= (5/4 + 2^-it) OPT + 19/4          (total <= 2^53)
      multifit_ratio_54_small : ... + 7/4                               (total <= 2^51)
      multifit_ratio_54_exact :  L <= (5 OPT + 3)/4 + OPT/2^it + OPT/2^51   (multiplied out)
      multifit_ratio_43, _43_small, _43_exact, multifit_ratio_32 : the lower rungs 4/3 and 3/2
      multifit_ratio_gen : the same bound for ANY ratio rn/rd >= 1 for which the capacity lemma
                           (L_r) below is supplied as a hypothesis.

    Where the slack comes from (it is forced by the proof, not observed in tests):
      +1 (precisely (rd - 1)/rd): first-fit is run with the INTEGER capacity floor(upper); a
         failed probe at a double c only says  floor(c) < ceil(rn * OPT / rd);
      OPT / 2^51: the accumulated rounding of the midpoints, see [MultifitProofs.multifit_threshold],
         of which [multifit_ratio_gen] is the case c0 = ceil(rn * OPT / rd) with the denominator
         cleared.  With OPT <= total <= 2^53 it is at most 4.

    Capacity lemmas (T = largest sum of ANY partition into k bins, c an integer capacity,
    values >= 0, k >= 1):
      ffd_capacity_54 : 5 T <= 4 c -> first-fit-decreasing with capacity c does not fail and
                        uses at most k bins;     ffd_capacity_43, ffd_capacity_32 likewise.
    All three are instances of [MultifitCapacityProofs.ffd_capacity_119] (11 T <= 9 c).

    Hypotheses: those of [multifit_ratio_2] (items <> [], values >= 0, k >= 1, total <= 2^53). *)
From Prtpy Require Import Base.Prelude Model.Binner Model.Packing Model.Multifit Spec.Partition
  Model.Objectives Proofs.BaseLemmas Proofs.BinnerLemmas Proofs.PackingProofs Proofs.RatioProofs
  Proofs.MultifitProofs Proofs.MultifitCapacityProofs.
Open Scope Z_scope.

Local Notation idZ := (fun v : Z => v).

Section Overflow.
  Context {A : Type}.

  Lemma nonempty_count (b : bins A) : all_nonempty b -> (length b <= length (contents b))%nat.
  Proof. apply contents_length_ge. Qed.
End Overflow.

(** ---- the capacity lemmas (L_5/4), (L_4/3), (L_3/2): a larger ratio asks less ---- *)
Theorem ffd_capacity_54 k T c vs : (1 <= k)%nat -> Forall (fun v => 0 <= v) vs -> Packable T vs k ->
  5 * T <= 4 * c ->
  exists b, first_fit idZ false c (sort_desc idZ vs) = Ok b /\ (length b <= k)%nat.
Proof.
  intros Hk Hnn Hpack HC. destruct (packable_bounds T vs k Hk Hnn Hpack) as [HT0 _].
  apply (ffd_capacity_119 k T c vs Hk Hnn Hpack). lia.
Qed.

Theorem ffd_capacity_43 k T c vs : (1 <= k)%nat -> Forall (fun v => 0 <= v) vs -> Packable T vs k ->
  4 * T <= 3 * c ->
  exists b, first_fit idZ false c (sort_desc idZ vs) = Ok b /\ (length b <= k)%nat.
Proof.
  intros Hk Hnn Hpack HC. destruct (packable_bounds T vs k Hk Hnn Hpack) as [HT0 _].
  apply (ffd_capacity_54 k T c vs Hk Hnn Hpack). lia.
Qed.

Corollary ffd_capacity_32 k T c vs : (1 <= k)%nat -> Forall (fun v => 0 <= v) vs -> Packable T vs k ->
  3 * T <= 2 * c ->
  exists b, first_fit idZ false c (sort_desc idZ vs) = Ok b /\ (length b <= k)%nat.
Proof.
  intros Hk Hnn Hpack HC. destruct (packable_bounds T vs k Hk Hnn Hpack) as [HT0 _].
  apply (ffd_capacity_43 k T c vs Hk Hnn Hpack). lia.
Qed.

(** ---- from a capacity lemma for r = rn / rd to the ratio of MultiFit ---- *)
Section MultifitRatio.
  Context {A : Type} (valueof : A -> Z).

  Theorem multifit_ratio_gen (rn rd : Z) it k items b opt :
    0 < rd <= rn ->
    (forall c, rn * opt <= rd * c ->
       exists b0, first_fit idZ false c (sort_desc idZ (map valueof items)) = Ok b0 /\ (length b0 <= k)%nat) ->
    items <> [] -> Forall (fun x => 0 <= valueof x) items -> (1 <= k)%nat ->
    zsum (map valueof items) <= 2 ^ 53 ->
    multifit valueof true it k items = Ok b ->
    Opt MinLargest k (map valueof items) opt ->
    2 ^ 51 * 2 ^ Z.of_nat it * (rd * zmax (sums b))
    <= 2 ^ 51 * 2 ^ Z.of_nat it * (rn * opt + rd - 1) + rd * (2 ^ 51 + 2 ^ Z.of_nat it) * opt.
  Proof.
    intros Hr Hcap Hne Hnn Hk HS H Hopt.
    apply ceil_ratio_arith; [pose proof (pow2_pos (Z.of_nat it) ltac:(lia)); lia|lia|].
    apply (multifit_ratio_ceil valueof rn rd it k items b opt); assumption.
  Qed.
End MultifitRatio.

Section Rungs.
  Context {A : Type} (valueof : A -> Z).

  Variables (it k : nat) (items : list A) (b : bins A) (opt : Z).
  Hypothesis Hne : items <> [].
  Hypothesis Hnn : Forall (fun x => 0 <= valueof x) items.
  Hypothesis Hk : (1 <= k)%nat.
  Hypothesis Hrun : multifit valueof true it k items = Ok b.
  Hypothesis Hopt : Opt MinLargest k (map valueof items) opt.

  (** r = 4/3, exact form: largest <= (4 opt + 2)/3 + opt / 2^it + opt / 2^51
      (opt / 2^51 bounds the accumulated rounding of the midpoints) *)
  Theorem multifit_ratio_43_exact : zsum (map valueof items) <= 2 ^ 53 ->
    2 ^ 51 * 2 ^ Z.of_nat it * (3 * zmax (sums b))
    <= 2 ^ 51 * 2 ^ Z.of_nat it * (4 * opt + 2) + 3 * (2 ^ 51 + 2 ^ Z.of_nat it) * opt.
  Proof.
    intros HS.
    pose proof (multifit_ratio_gen valueof 4 3 it k items b opt ltac:(lia)) as G.
    replace (4 * opt + 3 - 1) with (4 * opt + 2) in G by lia. apply G; auto.
    intros c Hc. apply (ffd_capacity_43 k opt c); auto.
    - apply vs_nonneg; exact Hnn.
    - apply opt_packable; exact Hopt.
  Qed.

  (** r = 4/3: largest <= (4/3 + 2^-it) opt + 14/3 *)
  Theorem multifit_ratio_43 : zsum (map valueof items) <= 2 ^ 53 ->
    3 * 2 ^ Z.of_nat it * zmax (sums b) <= (4 * 2 ^ Z.of_nat it + 3) * opt + 14 * 2 ^ Z.of_nat it.
  Proof.
    intros HS. pose proof (multifit_ratio_43_exact HS) as H.
    pose proof (multifit_slack valueof 4 3 _ it k items b opt Hnn Hk Hopt ltac:(lia) ltac:(lia) H).
    lia.
  Qed.

  (** with a total of at most 2^51 the rounding costs at most 1: largest <= (4/3 + 2^-it) opt + 5/3 *)
  Theorem multifit_ratio_43_small : zsum (map valueof items) <= 2 ^ 51 ->
    3 * 2 ^ Z.of_nat it * zmax (sums b) <= (4 * 2 ^ Z.of_nat it + 3) * opt + 5 * 2 ^ Z.of_nat it.
  Proof.
    intros HS. pose proof (multifit_ratio_43_exact ltac:(lia)) as H.
    pose proof (multifit_slack valueof 1 3 _ it k items b opt Hnn Hk Hopt ltac:(lia) ltac:(lia) H).
    lia.
  Qed.

  (** r = 3/2: largest <= (3/2 + 2^-it) opt + 9/2 *)
  Theorem multifit_ratio_32 : zsum (map valueof items) <= 2 ^ 53 ->
    2 * 2 ^ Z.of_nat it * zmax (sums b) <= (3 * 2 ^ Z.of_nat it + 2) * opt + 9 * 2 ^ Z.of_nat it.
  Proof.
    intros HS.
    pose proof (multifit_ratio_gen valueof 3 2 it k items b opt ltac:(lia)) as G.
    replace (3 * opt + 2 - 1) with (3 * opt + 1) in G by lia.
    assert (H : 2 ^ 51 * 2 ^ Z.of_nat it * (2 * zmax (sums b))
                <= 2 ^ 51 * 2 ^ Z.of_nat it * (3 * opt + 1) + 2 * (2 ^ 51 + 2 ^ Z.of_nat it) * opt).
    { apply G; auto. intros c Hc. apply (ffd_capacity_32 k opt c); auto.
      - apply vs_nonneg; exact Hnn.
      - apply opt_packable; exact Hopt. }
    pose proof (multifit_slack valueof 4 2 _ it k items b opt Hnn Hk Hopt ltac:(lia) ltac:(lia) H).
    lia.
  Qed.

  Theorem multifit_ratio_54_exact : zsum (map valueof items) <= 2 ^ 53 ->
    2 ^ 51 * 2 ^ Z.of_nat it * (4 * zmax (sums b))
    <= 2 ^ 51 * 2 ^ Z.of_nat it * (5 * opt + 3) + 4 * (2 ^ 51 + 2 ^ Z.of_nat it) * opt.
  Proof.
    intros HS.
    pose proof (multifit_ratio_gen valueof 5 4 it k items b opt ltac:(lia)) as G.
    replace (5 * opt + 4 - 1) with (5 * opt + 3) in G by lia. apply G; auto.
    intros c Hc. apply (ffd_capacity_54 k opt c); auto.
    - apply vs_nonneg; exact Hnn.
    - apply opt_packable; exact Hopt.
  Qed.

  Theorem multifit_ratio_54 : zsum (map valueof items) <= 2 ^ 53 ->
    4 * 2 ^ Z.of_nat it * zmax (sums b) <= (5 * 2 ^ Z.of_nat it + 4) * opt + 19 * 2 ^ Z.of_nat it.
  Proof.
    intros HS. pose proof (multifit_ratio_54_exact HS) as H.
    pose proof (multifit_slack valueof 4 4 _ it k items b opt Hnn Hk Hopt ltac:(lia) ltac:(lia) H).
    lia.
  Qed.

  (** with a total of at most 2^51: largest <= (5/4 + 2^-it) opt + 7/4 *)
  Theorem multifit_ratio_54_small : zsum (map valueof items) <= 2 ^ 51 ->
    4 * 2 ^ Z.of_nat it * zmax (sums b) <= (5 * 2 ^ Z.of_nat it + 4) * opt + 7 * 2 ^ Z.of_nat it.
  Proof.
    intros HS. pose proof (multifit_ratio_54_exact ltac:(lia)) as H.
    pose proof (multifit_slack valueof 1 4 _ it k items b opt Hnn Hk Hopt ltac:(lia) ltac:(lia) H).
    lia.
  Qed.
End Rungs.

(** the docstring instance of multifit.py: k = 4, OPT = 17 (total 68), capacity 22 >= 5/4 * 17 *)
Example ffd_capacity_54_ex :
  rmap (@length (bin Z)) (first_fit idZ false 22 (sort_desc idZ example4)) = Ok 4%nat.
Proof. vm_compute. reflexivity. Qed.

(** a ratio above 1 is needed: k = 2, T = 28 = 12 + 8 + 8, and capacity 31 (ratio 1.107)
    makes first-fit-decreasing open a third bin ({12, 12}, {8, 8, 8}, {8}) *)
Example ffd_capacity_needs_ratio :
  loads 2 [12; 12; 8; 8; 8; 8] [0; 1; 0; 0; 1; 1]%nat = [28; 28] /\
  rmap (@length (bin Z)) (first_fit idZ false 31 (sort_desc idZ [12; 12; 8; 8; 8; 8])) = Ok 3%nat.
Proof. vm_compute. split; reflexivity. Qed.

Print Assumptions ffd_capacity_32.
Print Assumptions ffd_capacity_43.
Print Assumptions ffd_capacity_54.
Print Assumptions multifit_ratio_gen.
Print Assumptions multifit_ratio_32.
Print Assumptions multifit_ratio_43_exact.
Print Assumptions multifit_ratio_43.
Print Assumptions multifit_ratio_43_small.
Print Assumptions multifit_ratio_54_exact.
Print Assumptions multifit_ratio_54.
Print Assumptions multifit_ratio_54_small.
