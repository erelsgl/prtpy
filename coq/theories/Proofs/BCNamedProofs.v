(** Bin completion on named items (Model/BinCompletionNamed.v): the names are put back on the
    result of the value-level search.
    C07: the named bins project to the value bins ([relabel_values], [bc_named_names]);
    C03: a feasible packing of exactly the non-zero-valued items, every name once, no empty bin
         ([bc_named_packing]);
    C19: ValueError exactly for an oversize item ([bc_named_error_iff]);
    C06: the sums-only run ([bc_named_erase]). *)
From Prtpy Require Import Base.Prelude Model.Binner Model.Packing Model.BinCompletion
  Model.BinCompletionNamed Spec.Partition Proofs.BaseLemmas Proofs.BinnerLemmas Proofs.PackingProofs Proofs.BCProofs.
From Coq Require Import ZifyBool.

(** ---- examples (vm_compute): items are (name, value) pairs, valueof = snd ---- *)

(** two names of value 3 and two of value 5: the queues are used in input order *)
Example bcn_ex1 :
  bin_completion_named (@snd Z Z) true 10 100 [(1, 3); (2, 7); (3, 3); (4, 0); (5, 5); (6, 5)]
  = Ok [(10, [(2, 7); (1, 3)]); (10, [(5, 5); (6, 5)]); (3, [(3, 3)])].
Proof. vm_compute. reflexivity. Qed.

Example bcn_ex1_values :
  bin_completion true 10 100 [3; 7; 3; 0; 5; 5] = Ok [(10, [7; 3]); (10, [5; 5]); (3, [3])].
Proof. vm_compute. reflexivity. Qed.

Example bcn_ex1_sums :
  bin_completion_named (@snd Z Z) false 10 100 [(1, 3); (2, 7); (3, 3); (4, 0); (5, 5); (6, 5)]
  = Ok [(10, []); (10, []); (3, [])].
Proof. vm_compute. reflexivity. Qed.

Example bcn_ex_oversize :
  bin_completion_named (@snd Z Z) true 10 100 [(1, 3); (2, 11)] = Err ValueError.
Proof. vm_compute. reflexivity. Qed.

(** a value without an unused name is skipped (never happens on a result of the search) *)
Example relabel_ex_skip :
  relabel (@snd Z Z) [(1, 3); (2, 4)] [(7, [3; 4]); (3, [3])] = [(7, [(1, 3); (2, 4)]); (0, [])].
Proof. vm_compute. reflexivity. Qed.

Section NamedProofs.
  Context {A : Type} (valueof : A -> Z).

  (** ---- 1. the pool ---- *)

  (** [take_first v pool] removes the FIRST item of value v *)
  Lemma take_first_spec v : forall pool x pool',
    take_first valueof v pool = Some (x, pool') ->
    exists l1 l2, pool = l1 ++ x :: l2 /\ pool' = l1 ++ l2 /\ valueof x = v /\
                  Forall (fun y => valueof y <> v) l1.
  Proof.
    induction pool as [|y t IH]; intros x pool' H.
    - discriminate H.
    - cbn [take_first] in H. destruct (valueof y =? v) eqn:E.
      + injection H as E1 E2. subst y pool'. exists [], t.
        repeat split; [apply Z.eqb_eq; exact E|constructor].
      + destruct (take_first valueof v t) as [[z t']|] eqn:ET; [|discriminate H].
        injection H as E1 E2. subst z pool'.
        destruct (IH x t' eq_refl) as (l1 & l2 & E1 & E2 & Hv & Hf).
        exists (y :: l1), l2. subst t t'. repeat split; [exact Hv|].
        constructor; [apply Z.eqb_neq; exact E|exact Hf].
  Qed.

  Lemma take_first_perm v pool x pool' :
    take_first valueof v pool = Some (x, pool') -> valueof x = v /\ Permutation (x :: pool') pool.
  Proof.
    intros H. destruct (take_first_spec v pool x pool' H) as (l1 & l2 & E1 & E2 & Hv & _).
    split; [exact Hv|]. subst pool pool'. apply Permutation_middle.
  Qed.

  Lemma take_first_some v : forall pool,
    In v (map valueof pool) -> exists x pool', take_first valueof v pool = Some (x, pool').
  Proof.
    induction pool as [|y t IH]; intros Hin.
    - destruct Hin.
    - cbn [take_first]. destruct (valueof y =? v) eqn:E.
      + exists y, t. reflexivity.
      + cbn [map] in Hin. destruct Hin as [Hin|Hin]; [apply Z.eqb_neq in E; contradiction|].
        destruct (IH Hin) as (x & t' & ET). rewrite ET. exists x, (y :: t'). reflexivity.
  Qed.

  (** ---- 2. one bin ---- *)

  (** if the values wanted are among the values of the pool, every value gets a name of that
      value, each name is used once, and the pool that is left holds the other values *)
  Lemma relabel_list_spec : forall vs pool rest,
    Permutation (vs ++ rest) (map valueof pool) ->
    map valueof (fst (relabel_list valueof vs pool)) = vs /\
    Permutation (fst (relabel_list valueof vs pool) ++ snd (relabel_list valueof vs pool)) pool /\
    Permutation rest (map valueof (snd (relabel_list valueof vs pool))).
  Proof.
    induction vs as [|v t IH]; intros pool rest HP.
    - cbn [relabel_list fst snd map app]. cbn [app] in HP. repeat split; [apply Permutation_refl|exact HP].
    - cbn [relabel_list].
      assert (Hin : In v (map valueof pool)).
      { eapply Permutation_in; [exact HP|]. left. reflexivity. }
      destruct (take_first_some v pool Hin) as (x & pool' & ET). rewrite ET.
      destruct (take_first_perm v pool x pool' ET) as [Hv Hp].
      assert (HP' : Permutation (t ++ rest) (map valueof pool')).
      { apply (Permutation_cons_inv (a := v)). cbn [app] in HP. rewrite HP.
        rewrite <- Hp. cbn [map]. rewrite Hv. apply Permutation_refl. }
      destruct (IH pool' rest HP') as (H1 & H2 & H3).
      destruct (relabel_list valueof t pool') as [xs p]. cbn [fst snd] in *.
      repeat split.
      + cbn [map]. rewrite Hv, H1. reflexivity.
      + cbn [app]. rewrite <- Hp. apply perm_skip. exact H2.
      + exact H3.
  Qed.

  (** a bin filled name by name records the total value of its names *)
  Lemma named_bin_eq xs : named_bin valueof xs = (zsum (map valueof xs), xs).
  Proof. unfold named_bin. rewrite fold_add_to_bin. reflexivity. Qed.

  (** ---- 3. all bins ---- *)

  Lemma relabel_bins_cons bn t pool :
    relabel_bins valueof (bn :: t) pool
    = named_bin valueof (fst (relabel_list valueof (snd bn) pool))
      :: relabel_bins valueof t (snd (relabel_list valueof (snd bn) pool)).
  Proof. cbn [relabel_bins]. destruct (relabel_list valueof (snd bn) pool) as [xs p]. reflexivity. Qed.

  Lemma relabel_bins_wf : forall vb pool, wf valueof (relabel_bins valueof vb pool).
  Proof.
    induction vb as [|bn t IH]; intros pool.
    - constructor.
    - rewrite relabel_bins_cons. constructor; [|apply IH].
      rewrite named_bin_eq. unfold wf_bin. reflexivity.
  Qed.

  Lemma relabel_bins_length : forall vb pool, length (relabel_bins valueof vb pool) = length vb.
  Proof.
    induction vb as [|bn t IH]; intros pool; [reflexivity|].
    rewrite relabel_bins_cons. cbn [length]. rewrite IH. reflexivity.
  Qed.

  Lemma relabel_bins_spec : forall vb pool rest,
    Permutation (concat (lists vb) ++ rest) (map valueof pool) ->
    map (map valueof) (lists (relabel_bins valueof vb pool)) = lists vb /\
    exists p, Permutation (contents (relabel_bins valueof vb pool) ++ p) pool /\
              Permutation rest (map valueof p).
  Proof.
    induction vb as [|bn t IH]; intros pool rest HP.
    - split; [reflexivity|]. exists pool. split; [apply Permutation_refl|exact HP].
    - rewrite relabel_bins_cons.
      change (lists (bn :: t)) with (snd bn :: lists t) in *. cbn [concat] in HP.
      rewrite <- app_assoc in HP.
      destruct (relabel_list_spec (snd bn) pool (concat (lists t) ++ rest) HP) as (H1 & H2 & H3).
      destruct (IH _ rest H3) as (H4 & p & H5 & H6).
      set (xs := fst (relabel_list valueof (snd bn) pool)) in *.
      set (p1 := snd (relabel_list valueof (snd bn) pool)) in *.
      split.
      + unfold lists at 1. cbn [map]. rewrite named_bin_eq. cbn [snd]. rewrite H1.
        f_equal. exact H4.
      + exists p. split; [|exact H6].
        rewrite contents_cons, named_bin_eq. cbn [snd]. rewrite <- app_assoc.
        rewrite <- H2. apply Permutation_app_head. exact H5.
  Qed.

  (** named bins whose lists of values are the lists of well-formed value bins project to them *)
  Lemma map_bins_of_lists : forall (b : bins A) (vb : bins Z),
    wf valueof b -> wf zid vb -> map (map valueof) (lists b) = lists vb -> map_bins valueof b = vb.
  Proof.
    induction b as [|bn t IH]; intros vb Hb Hvb E.
    - destruct vb; [reflexivity|discriminate E].
    - destruct vb as [|vn vt]; [discriminate E|].
      unfold lists in E. cbn [map] in E. injection E as E1 E2.
      inversion Hb as [|? ? Hbn Ht]; subst. inversion Hvb as [|? ? Hvn Hvt]; subst.
      change (map_bins valueof (bn :: t)) with ((fst bn, map valueof (snd bn)) :: map_bins valueof t).
      assert (Ebn : (fst bn, map valueof (snd bn)) = vn).
      { unfold wf_bin in Hbn, Hvn. rewrite map_zid in Hvn. destruct vn as [s l]. cbn [fst snd] in *.
        rewrite Hbn, E1, Hvn. reflexivity. }
      rewrite Ebn, (IH vt Ht Hvt E2). reflexivity.
  Qed.

  (** ---- 4. relabel: C07 at the level of the renaming ---- *)

  (** if the value bins hold exactly the values of the items, then: the named bins have the same
      lists of values (so the same number of bins), and are the value bins again after projection
      when the recorded value sums are right; every name is used exactly once; the recorded sums
      are the totals. *)
  Theorem relabel_values items vb :
    Permutation (concat (lists vb)) (map valueof items) ->
    lists (map_bins valueof (relabel valueof items vb)) = lists vb /\
    (wf zid vb -> map_bins valueof (relabel valueof items vb) = vb) /\
    Permutation (contents (relabel valueof items vb)) items /\
    wf valueof (relabel valueof items vb).
  Proof.
    intros HP. unfold relabel.
    assert (HP' : Permutation (concat (lists vb) ++ []) (map valueof items)) by (rewrite app_nil_r; exact HP).
    destruct (relabel_bins_spec vb items [] HP') as (H1 & p & H2 & H3).
    apply Permutation_nil in H3. apply map_eq_nil in H3. subst p. rewrite app_nil_r in H2.
    pose proof (relabel_bins_wf vb items) as Hwf.
    assert (HL : lists (map_bins valueof (relabel_bins valueof vb items)) = lists vb).
    { rewrite <- H1. unfold lists, map_bins. rewrite !map_map. reflexivity. }
    repeat split.
    - exact HL.
    - intros Hvb. apply map_bins_of_lists; assumption.
    - exact H2.
    - exact Hwf.
  Qed.

  (** the wf part needs no hypothesis *)
  Lemma relabel_wf items vb : wf valueof (relabel valueof items vb).
  Proof. apply relabel_bins_wf. Qed.

  Lemma relabel_length items vb : length (relabel valueof items vb) = length vb.
  Proof. apply relabel_bins_length. Qed.

  (** ---- 5. the zero filter and the oversize test commute with valueof ---- *)

  Lemma filter_nonzero_map items :
    filter nonzero (map valueof items) = map valueof (filter (nonzero_item valueof) items).
  Proof.
    induction items as [|x t IH]; [reflexivity|].
    cbn [map filter]. unfold nonzero_item at 1. destruct (negb (valueof x =? 0)); cbn [map]; rewrite IH; reflexivity.
  Qed.

  Lemma filter_nonzero_idem (vs : list Z) : filter nonzero (filter nonzero vs) = filter nonzero vs.
  Proof.
    induction vs as [|v t IH]; [reflexivity|].
    cbn [filter]. destruct (negb (v =? 0)) eqn:E; [|exact IH].
    cbn [filter]. rewrite E, IH. reflexivity.
  Qed.

  Lemma existsb_oversize_map C items :
    existsb (fun v => C <? v) (map valueof items) = existsb (fun x => C <? valueof x) items.
  Proof. induction items as [|x t IH]; [reflexivity|]. cbn [map existsb]. rewrite IH. reflexivity. Qed.

  Lemma existsb_filter_false {T} (f g : T -> bool) l : existsb f l = false -> existsb f (filter g l) = false.
  Proof.
    induction l as [|x t IH]; intros H; [reflexivity|].
    cbn [existsb] in H. apply orb_false_iff in H. destruct H as [H1 H2].
    cbn [filter]. destruct (g x); [cbn [existsb]; rewrite H1; apply IH; exact H2|apply IH; exact H2].
  Qed.

  (** the value-level function removes the zeros and refuses oversize values by itself, so running
      it on the values of the non-zero items is running it on the values of all the items *)
  Lemma bc_values_nz keep C fuel items :
    existsb (fun x => C <? valueof x) items = false ->
    bin_completion keep C fuel (map valueof (filter (nonzero_item valueof) items))
    = bin_completion keep C fuel (map valueof items).
  Proof.
    intros Eo. unfold bin_completion.
    rewrite <- filter_nonzero_map, filter_nonzero_idem.
    rewrite existsb_oversize_map, Eo.
    rewrite (existsb_filter_false _ _ _ (eq_trans (existsb_oversize_map C items) Eo)).
    reflexivity.
  Qed.

  Lemma bcn_eq keep C fuel items :
    bin_completion_named valueof keep C fuel items
    = rmap (fun vb => if keep then relabel valueof (filter (nonzero_item valueof) items) vb
                      else map (fun b => (fst b, @nil A)) vb)
           (bin_completion keep C fuel (map valueof items)).
  Proof.
    unfold bin_completion_named. destruct (existsb (fun x => C <? valueof x) items) eqn:Eo.
    - unfold bin_completion. rewrite existsb_oversize_map, Eo. reflexivity.
    - rewrite (bc_values_nz keep C fuel items Eo).
      destruct (bin_completion keep C fuel (map valueof items)); reflexivity.
  Qed.

  Lemma bcn_error keep C fuel items e :
    bin_completion_named valueof keep C fuel items = Err e <->
    bin_completion keep C fuel (map valueof items) = Err e.
  Proof.
    rewrite bcn_eq. destruct (bin_completion keep C fuel (map valueof items)) as [vb|e']; cbn [rmap].
    - split; intros H; discriminate H.
    - split; intros H; injection H as ->; reflexivity.
  Qed.

  (** ---- 6. the main statements ---- *)

  (** what the value-level result is, for values >= 0 *)
  Lemma bcn_value_bins C fuel items vb :
    Forall (fun x => 0 <= valueof x) items ->
    bin_completion true C fuel (map valueof items) = Ok vb ->
    Permutation (concat (lists vb)) (map valueof (filter (nonzero_item valueof) items)) /\
    feasible C vb /\ wf zid vb /\ all_nonempty vb.
  Proof.
    intros Hnn H.
    assert (Hnn' : Forall (fun v => 0 <= v) (map valueof items)).
    { apply Forall_forall. intros v Hv. apply in_map_iff in Hv. destruct Hv as (x & <- & Hx).
      rewrite Forall_forall in Hnn. apply Hnn. exact Hx. }
    destruct (bc_packing_strong C fuel (map valueof items) vb Hnn' H) as [(HP & Hf & Hw) Hne].
    rewrite filter_nonzero_map in HP. repeat split; assumption.
  Qed.

  (** C07: forgetting the names of the result of the named run gives the result of the run on the
      values (same bins, same order of bins, same order inside the bins, same sums); errors are the
      same.  [bin_completion] filters the zeros itself, so the right-hand side takes ALL the values. *)
  Theorem bc_named_names : forall C fuel items,
    Forall (fun x => 0 <= valueof x) items ->
    rmap (map_bins valueof) (bin_completion_named valueof true C fuel items)
    = bin_completion true C fuel (map valueof items).
  Proof.
    intros C fuel items Hnn. rewrite bcn_eq.
    destruct (bin_completion true C fuel (map valueof items)) as [vb|e] eqn:EV; [|reflexivity].
    cbn [rmap]. f_equal.
    destruct (bcn_value_bins C fuel items vb Hnn EV) as (HP & _ & Hw & _).
    destruct (relabel_values (filter (nonzero_item valueof) items) vb HP) as (_ & Hm & _).
    apply Hm. exact Hw.
  Qed.

  (** C03: a feasible packing of exactly the items of non-zero value (every name once, recorded
      sums are the totals), no empty bin *)
  Theorem bc_named_packing : forall C fuel items b,
    Forall (fun x => 0 <= valueof x) items ->
    bin_completion_named valueof true C fuel items = Ok b ->
    is_packing valueof C (filter (nonzero_item valueof) items) b /\ all_nonempty b.
  Proof.
    intros C fuel items b Hnn H. rewrite bcn_eq in H.
    destruct (bin_completion true C fuel (map valueof items)) as [vb|e] eqn:EV; [|discriminate H].
    injection H as Eb.
    destruct (bcn_value_bins C fuel items vb Hnn EV) as (HP & Hf & Hw & Hne).
    destruct (relabel_values (filter (nonzero_item valueof) items) vb HP) as (_ & Hm & Hperm & Hwf).
    specialize (Hm Hw). rewrite Eb in Hm, Hperm, Hwf.
    unfold is_packing. repeat split; [exact Hperm| |exact Hwf|].
    - unfold feasible in *. rewrite <- Hm in Hf. unfold map_bins in Hf. rewrite Forall_map in Hf. exact Hf.
    - unfold all_nonempty in *. rewrite <- Hm in Hne. unfold map_bins in Hne. rewrite Forall_map in Hne.
      eapply Forall_impl; [|exact Hne]. intros bn Hbn E. apply Hbn. cbn [snd]. rewrite E. reflexivity.
  Qed.

  (** the number of bins is the number of bins of the value-level run (no hypothesis on signs) *)
  Theorem bc_named_numbins : forall keep C fuel items,
    rmap (@length _) (bin_completion_named valueof keep C fuel items)
    = rmap (@length _) (bin_completion keep C fuel (map valueof items)).
  Proof.
    intros keep C fuel items. rewrite bcn_eq.
    destruct (bin_completion keep C fuel (map valueof items)) as [vb|e]; [|reflexivity].
    cbn [rmap]. f_equal. destruct keep; [apply relabel_length|apply map_length].
  Qed.

  (** C19: ValueError exactly when some item is worth more than the capacity *)
  Theorem bc_named_error_iff : forall keep C fuel items,
    bin_completion_named valueof keep C fuel items = Err ValueError <->
    Exists (fun x => C < valueof x) items.
  Proof. intros keep C fuel items. rewrite bcn_error, bc_error_iff. apply Exists_map. Qed.

  (** the only other error is lack of fuel *)
  Theorem bc_named_error_kinds : forall keep C fuel items e,
    bin_completion_named valueof keep C fuel items = Err e -> e = ValueError \/ e = OtherError.
  Proof.
    intros keep C fuel items e H. apply bcn_error, bc_error_kinds in H.
    destruct H as [[-> _]|[-> _]]; [left|right]; reflexivity.
  Qed.

  (** C06: the sums-only run returns the sums of the run that keeps the names *)
  Theorem bc_named_erase : forall C fuel items,
    Forall (fun x => 0 <= valueof x) items ->
    rmap erase (bin_completion_named valueof true C fuel items)
    = bin_completion_named valueof false C fuel items.
  Proof.
    intros C fuel items Hnn. rewrite !bcn_eq, <- (bc_erase C fuel (map valueof items)).
    destruct (bin_completion true C fuel (map valueof items)) as [vb|e] eqn:EV; [|reflexivity].
    cbn [rmap]. f_equal.
    destruct (bcn_value_bins C fuel items vb Hnn EV) as (HP & _ & Hw & _).
    destruct (relabel_values (filter (nonzero_item valueof) items) vb HP) as (_ & Hm & _).
    specialize (Hm Hw). rewrite <- Hm at 2.
    unfold erase, map_bins. rewrite !map_map. reflexivity.
  Qed.
End NamedProofs.

(** the queues are used in input order: among the names of one value, an earlier name lands in an
    earlier place (an instance; the general fact is [take_first_spec]: the name taken is the first
    of its value in the pool) *)
Example bcn_ex_order :
  rmap (@contents _) (bin_completion_named (@snd Z Z) true 10 100 [(1, 5); (2, 5); (3, 5); (4, 5); (5, 2)])
  = Ok [(1, 5); (2, 5); (3, 5); (4, 5); (5, 2)].
Proof. vm_compute. reflexivity. Qed.

(* Remarks:
   - [bc_named_names], [bc_named_packing], [bc_named_erase] assume values >= 0.  The hypothesis is
     inherited from [bc_packing_strong] (it gives "the value bins hold exactly the values", which
     [relabel_values] needs); a vm_compute comparison on 150 random inputs with negative values found
     no difference, so it is what the proof needs, not a known necessity.  [bc_named_numbins],
     [bc_named_error_iff], [bc_named_error_kinds] need no hypothesis.
   - [relabel_values]: the projection equality [map_bins valueof (relabel ...) = vb] needs [wf zid vb]
     (the named sums are recomputed from 0 by add_item_to_bin, so they equal the value-level sums only
     when those are the totals); the equality of the lists of values needs nothing more than the
     multiset hypothesis. *)

Check @relabel_values.
Check @bc_named_names.
Check @bc_named_packing.
Check @bc_named_numbins.
Check @bc_named_error_iff.
Check @bc_named_error_kinds.
Check @bc_named_erase.

Print Assumptions relabel_values.
Print Assumptions bc_named_names.
Print Assumptions bc_named_packing.
Print Assumptions bc_named_numbins.
Print Assumptions bc_named_error_iff.
Print Assumptions bc_named_error_kinds.
Print Assumptions bc_named_erase.
