(** Properties of the models of greedy.py (LPT) and roundrobin.py (Model/Greedy.v):
    partition correctness, sums-only run (C06), names irrelevance (C07), gap bounds and
    round-robin shape (C08).  The first three are proved once, for the loop [deal] of which both
    algorithms (and Model/Balanced.v, see BalancedProofs) are instances. *)
From Prtpy Require Import Base.Prelude Model.Binner Model.Greedy Spec.Partition
  Proofs.BaseLemmas Proofs.BinnerLemmas Proofs.EraseLemmas.
From Coq Require Import Sorting.Sorted Arith ZifyBool.

(** the cursor of round-robin moves on within the round, or starts the next round *)
Lemma succ_mod_cases r k : (r < k)%nat ->
  (S r < k)%nat /\ Nat.modulo (S r) k = S r \/ S r = k /\ Nat.modulo (S r) k = O.
Proof.
  intros Hr. destruct (Nat.eq_dec (S r) k) as [E|E]; [right|left]; (split; [lia|]).
  - rewrite E. apply Nat.mod_same. lia.
  - apply Nat.mod_small. lia.
Qed.

(** ---- one loop for greedy, round-robin and the bidirectional order of Model/Balanced.v ----
    All three deal the sorted items out one by one; they differ only in the rule that names the next
    bin, which may consult the current sums and a cursor of its own. *)
Section Deal.
  Context {A S : Type} (valueof : A -> Z) (choose : S -> list Z -> nat * S).

  Fixpoint deal (keep : bool) (l : list A) (st : S) (b : bins A) : bins A :=
    match l with
    | [] => b
    | x :: t => deal keep t (snd (choose st (sums b)))
                     (add_item valueof keep b x (fst (choose st (sums b))))
    end.

  Definition dealt (keep : bool) (k : nat) (items : list A) (st : S) : bins A :=
    deal keep (sort_desc valueof items) st (new_bins k).

  (** [ok] describes the cursors from which the rule answers within range *)
  Context (k : nat) (ok : S -> Prop)
    (choose_ok : forall st s, ok st -> length s = k ->
                 (fst (choose st s) < k)%nat /\ ok (snd (choose st s))).

  Lemma deal_inv l : forall st b, ok st -> length b = k -> wf valueof b ->
    length (deal true l st b) = k /\ wf valueof (deal true l st b) /\
    Permutation (contents (deal true l st b)) (l ++ contents b).
  Proof.
    induction l as [|x t IH]; intros st b Hst Hlen Hwf; cbn [deal app]; [auto|].
    destruct (choose_ok st (sums b) Hst) as [Hi Hst']; [rewrite sums_length; exact Hlen|].
    destruct (IH _ (add_item valueof true b x (fst (choose st (sums b)))) Hst') as (H1 & H2 & H3).
    - rewrite add_item_length. exact Hlen.
    - apply add_item_wf. exact Hwf.
    - split; [exact H1|]. split; [exact H2|].
      rewrite H3, add_item_contents by lia. symmetry. apply Permutation_middle.
  Qed.

  Lemma dealt_partition items st : ok st -> is_partition valueof k items (dealt true k items st).
  Proof.
    intros Hst.
    destruct (deal_inv (sort_desc valueof items) st (new_bins k) Hst (new_bins_length k)
                (new_bins_wf valueof k)) as (H1 & H2 & H3).
    rewrite new_bins_contents, app_nil_r in H3.
    split; [rewrite H3; apply sort_desc_perm|]. split; assumption.
  Qed.
End Deal.

(** two runs correspond under a map [f] of the bins that commutes with adding an item and does not
    disturb the rule: [f] forgets the contents (C06), replaces items by their values (C07), or
    multiplies everything by a constant (C18) *)
Lemma deal_map {A B S} (vA : A -> Z) (vB : B -> Z) (choose : S -> list Z -> nat * S) kA kB
      (f : bins A -> bins B) (h : A -> B) :
  (forall b x i, f (add_item vA kA b x i) = add_item vB kB (f b) (h x) i) ->
  (forall st b, choose st (sums (f b)) = choose st (sums b)) ->
  forall l st b, f (deal vA choose kA l st b) = deal vB choose kB (map h l) st (f b).
Proof.
  intros Hadd Hch. induction l as [|x t IH]; intros st b; cbn [deal map]; [reflexivity|].
  rewrite IH, Hadd, Hch. reflexivity.
Qed.

(** the rules of greedy (first least-loaded bin, no cursor) and of round-robin (the cursor itself) *)
Definition by_least (_ : unit) (s : list Z) : nat * unit := (argmin s, tt).
Definition by_turns (k i : nat) (_ : list Z) : nat * nat := (i, Nat.modulo (S i) k).

Lemma greedy_dealt {A} (valueof : A -> Z) keep k items :
  greedy valueof keep k items = dealt valueof by_least keep k items tt.
Proof.
  unfold greedy, dealt. generalize (@new_bins A k) as b.
  induction (sort_desc valueof items) as [|x t IH]; intros b; [reflexivity|apply IH].
Qed.

Lemma roundrobin_dealt {A} (valueof : A -> Z) keep k items :
  roundrobin valueof keep k items = dealt valueof (by_turns k) keep k items O.
Proof.
  unfold roundrobin, dealt. generalize (@new_bins A k) as b, O as i.
  induction (sort_desc valueof items) as [|x t IH]; intros b i; [reflexivity|apply IH].
Qed.

Section GreedyProofs.
  Context {A : Type} (valueof : A -> Z).

  (** ---- the sums-only run makes the same decisions (C06) ---- *)

  Lemma dealt_erase {S} (choose : S -> list Z -> nat * S) k items st :
    erase (dealt valueof choose true k items st) = dealt valueof choose false k items st.
  Proof.
    unfold dealt.
    rewrite (deal_map _ valueof choose true false erase (fun x => x) (erase_add_item valueof true)
               (fun st' b => f_equal (choose st') (erase_sums b))), map_id, erase_new_bins.
    reflexivity.
  Qed.

  (** ---- names are irrelevant (C07) ---- *)

  Lemma dealt_names {S} (choose : S -> list Z -> nat * S) k items st :
    map_bins valueof (dealt valueof choose true k items st) =
    dealt (fun v : Z => v) choose true k (map valueof items) st.
  Proof.
    unfold dealt.
    rewrite (deal_map _ (fun v : Z => v) choose true true (map_bins valueof) valueof (map_bins_add_item valueof true)
               (fun st' b => f_equal (choose st') (map_bins_sums valueof b))), map_bins_new_bins.
    rewrite (sort_desc_map valueof valueof (fun v : Z => v)) by reflexivity. reflexivity.
  Qed.

  (** ---- greedy and roundrobin: partition, C06, C07 ---- *)

  Theorem greedy_partition : forall k items, (1 <= k)%nat ->
    is_partition valueof k items (greedy valueof true k items).
  Proof.
    intros k items Hk. rewrite greedy_dealt. apply (dealt_partition _ _ k (fun _ => True)); [|exact I].
    intros st s _ Hs. split; [|exact I]. cbn [by_least fst]. rewrite <- Hs. apply argmin_spec.
    intros ->. cbn [length] in Hs. lia.
  Qed.

  Theorem roundrobin_partition : forall k items, (1 <= k)%nat ->
    is_partition valueof k items (roundrobin valueof true k items).
  Proof.
    intros k items Hk. rewrite roundrobin_dealt. apply (dealt_partition _ _ k (fun i => (i < k)%nat)); [|lia].
    intros i s Hi _. split; [exact Hi|]. apply Nat.mod_upper_bound. lia.
  Qed.

  Theorem greedy_erase : forall k items,
    erase (greedy valueof true k items) = greedy valueof false k items.
  Proof. intros k items. rewrite !greedy_dealt. apply dealt_erase. Qed.

  Theorem roundrobin_erase : forall k items,
    erase (roundrobin valueof true k items) = roundrobin valueof false k items.
  Proof. intros k items. rewrite !roundrobin_dealt. apply dealt_erase. Qed.

  Theorem greedy_names : forall k items,
    map_bins valueof (greedy valueof true k items) =
    greedy (fun v : Z => v) true k (map valueof items).
  Proof. intros k items. rewrite !greedy_dealt. apply dealt_names. Qed.

  Theorem roundrobin_names : forall k items,
    map_bins valueof (roundrobin valueof true k items) =
    roundrobin (fun v : Z => v) true k (map valueof items).
  Proof. intros k items. rewrite !roundrobin_dealt. apply dealt_names. Qed.

  (** ---- gap bound for greedy (C08) ---- *)

  Lemma spread_le_repeat0 M n : 0 <= M -> spread_le M (repeat 0 n).
  Proof.
    intros HM a b Ha Hb. apply repeat_spec in Ha. apply repeat_spec in Hb. lia.
  Qed.

  Lemma spread_le_zmax_zmin M s : 0 <= M -> spread_le M s -> zmax s - zmin s <= M.
  Proof.
    intros HM H. destruct s as [|y t].
    - simpl. lia.
    - assert (Hne : y :: t <> []) by discriminate.
      specialize (H (zmax (y :: t)) (zmin (y :: t)) (zmax_in _ Hne) (zmin_in _ Hne)). lia.
  Qed.

  (** adding 0 <= x <= M to a least-loaded bin keeps all loads within M of each other;
      no assumption on the order in which items arrive *)
  Lemma spread_le_step M s x : 0 <= x <= M -> spread_le M s ->
    spread_le M (update (argmin s) (fun a => a + x) s).
  Proof.
    intros Hx H. destruct s as [|y t]; [exact H|].
    assert (Hne : y :: t <> []) by discriminate.
    destruct (argmin_spec (y :: t) Hne) as (Hlt & Hmin & _).
    set (s := y :: t) in *. set (m := nth (argmin s) s 0) in *.
    assert (Hm : In m s) by (apply nth_In; exact Hlt).
    rewrite Forall_forall in Hmin.
    intros a b Ha Hb.
    apply (In_update _ 0) in Ha. apply (In_update _ 0) in Hb. fold m in Ha, Hb.
    destruct Ha as [Ha|[_ Ha]]; destruct Hb as [Hb|[_ Hb]].
    - apply H; auto.
    - specialize (H a m Ha Hm). lia.
    - specialize (Hmin b Hb). lia.
    - lia.
  Qed.

  Lemma greedy_fold_gap M keep l : forall b : bins A,
    Forall (fun x => 0 <= valueof x <= M) l -> spread_le M (sums b) ->
    spread_le M (sums (fold_left (greedy_step valueof keep) l b)).
  Proof.
    induction l as [|x t IH]; intros b Hl Hb; cbn [fold_left]; [exact Hb|].
    inversion Hl as [|x' t' Hx Ht]; subst.
    apply IH; [exact Ht|].
    unfold greedy_step. rewrite add_item_sums. apply spread_le_step; auto.
  Qed.

  Lemma zmax_values_bound (items : list A) :
    Forall (fun x => 0 <= valueof x) items ->
    0 <= zmax (map valueof items) /\
    Forall (fun x => 0 <= valueof x <= zmax (map valueof items)) items.
  Proof.
    intros Hpos.
    pose proof (zmax_ge (map valueof items)) as Hge. rewrite Forall_map in Hge.
    assert (Hall : Forall (fun x => 0 <= valueof x <= zmax (map valueof items)) items).
    { rewrite Forall_forall in *. intros x Hx. split; [apply Hpos|apply Hge]; auto. }
    split; [|exact Hall].
    destruct items as [|x t]; [simpl; lia|].
    inversion Hall as [|x' t' Hx Ht]; subst. lia.
  Qed.

  (** general form: any keep flag, no hypothesis on k or on items being non-empty *)
  Lemma greedy_gap_gen keep k items : Forall (fun x => 0 <= valueof x) items ->
    zmax (sums (greedy valueof keep k items)) - zmin (sums (greedy valueof keep k items))
    <= zmax (map valueof items).
  Proof.
    intros Hpos. destruct (zmax_values_bound items Hpos) as [HM Hall].
    apply spread_le_zmax_zmin; [exact HM|].
    unfold greedy. apply greedy_fold_gap.
    - eapply Permutation_Forall; [symmetry; apply sort_desc_perm|exact Hall].
    - rewrite new_bins_sums. apply spread_le_repeat0; exact HM.
  Qed.

  Theorem greedy_gap : forall k items, (1 <= k)%nat -> items <> [] ->
    Forall (fun x => 0 <= valueof x) items ->
    zmax (sums (greedy valueof true k items)) - zmin (sums (greedy valueof true k items))
    <= zmax (map valueof items).
  Proof. intros k items _ _ Hpos. apply greedy_gap_gen; exact Hpos. Qed.

  (** ---- round-robin bin sizes (C08) ---- *)

  Definition cards (b : bins A) : list nat := map (fun bn => length (snd bn)) b.

  Lemma cards_length b : length (cards b) = length b.
  Proof. apply map_length. Qed.

  Lemma cards_add_item b x i : cards (add_item valueof true b x i) = update i S (cards b).
  Proof.
    unfold cards, add_item. apply map_update. intros y.
    unfold add_to_bin. cbn [snd]. rewrite app_length. simpl. lia.
  Qed.

  Lemma cards_new_bins k : cards (@new_bins A k) = repeat O k.
  Proof. unfold cards, new_bins. rewrite map_repeat_eq. reflexivity. Qed.

  (** bins before the cursor r hold q+1 items, bins from r on hold q items *)
  Definition card_inv (k r : nat) (c : list nat) : Prop :=
    length c = k /\ (r < k)%nat /\
    exists q, forall i, (i < k)%nat -> nth i c O = if (i <? r)%nat then S q else q.

  Lemma card_inv_step k r c : card_inv k r c -> card_inv k (Nat.modulo (S r) k) (update r S c).
  Proof.
    intros (Hlen & Hr & q & Hq).
    destruct (succ_mod_cases r k Hr) as [[Hk ->]|[Hk ->]];
      (split; [rewrite update_length; exact Hlen|]); (split; [lia|]).
    - exists q. intros i Hi. rewrite nth_update by lia. specialize (Hq i Hi).
      destruct (Nat.eqb r i) eqn:E; destruct (i <? r)%nat eqn:E1; destruct (i <? S r)%nat eqn:E2; lia.
    - exists (S q). intros i Hi. rewrite nth_update by lia. specialize (Hq i Hi).
      destruct (Nat.eqb r i) eqn:E; destruct (i <? r)%nat eqn:E1; destruct (i <? O)%nat eqn:E2; lia.
  Qed.

  Lemma rr_loop_card_inv k l : forall r b, card_inv k r (cards b) ->
    exists r', card_inv k r' (cards (rr_loop valueof true k l r b)).
  Proof.
    induction l as [|x t IH]; intros r b H; cbn [rr_loop].
    - exists r. exact H.
    - apply IH. rewrite cards_add_item. apply card_inv_step. exact H.
  Qed.

  Lemma card_inv_shape k r c : card_inv k r c -> forall i j, (i < j < k)%nat ->
    (nth j c O <= nth i c O <= nth j c O + 1)%nat.
  Proof.
    intros (Hlen & Hr & q & Hq) i j Hij.
    pose proof (Hq i ltac:(lia)) as Hi. pose proof (Hq j ltac:(lia)) as Hj.
    destruct (i <? r)%nat eqn:E1; destruct (j <? r)%nat eqn:E2; lia.
  Qed.

  Theorem rr_cardinality : forall k items, (1 <= k)%nat -> forall i j, (i < j < k)%nat ->
    let c := map (fun bn => length (snd bn)) (roundrobin valueof true k items) in
    (nth j c 0 <= nth i c 0 <= nth j c 0 + 1)%nat.
  Proof.
    intros k items Hk i j Hij c. subst c. unfold roundrobin.
    destruct (rr_loop_card_inv k (sort_desc valueof items) O (new_bins k)) as [r' H].
    - rewrite cards_new_bins. split; [apply repeat_length|]. split; [lia|].
      exists O. intros i' Hi'. rewrite nth_repeat. reflexivity.
    - exact (card_inv_shape _ _ _ H i j Hij).
  Qed.

  (** ---- round-robin: sums are non-increasing, gap bound (C08) ---- *)

  (** Invariant on the vector of sums s, with cursor r (next bin), w = the last value dealt
      (an upper bound on all future values; initially M) and M an upper bound on all values:
      - sums are non-increasing in the bin index;
      - the bin just before the cursor is ahead of the cursor bin by at least w;
      - first-minus-last is <= M, and even <= M - w when a round has just been completed. *)
  Definition rr_inv (M : Z) (k r : nat) (w : Z) (s : list Z) : Prop :=
    length s = k /\ (r < k)%nat /\ 0 <= w <= M /\
    (forall i, (S i < k)%nat -> nth (S i) s 0 <= nth i s 0) /\
    (forall p, r = S p -> nth (S p) s 0 + w <= nth p s 0) /\
    (r = O -> nth O s 0 - nth (k - 1) s 0 + w <= M) /\
    (r <> O -> nth O s 0 - nth (k - 1) s 0 <= M).

  Lemma rr_inv_init M k : (1 <= k)%nat -> 0 <= M -> rr_inv M k O M (repeat 0 k).
  Proof.
    intros Hk HM. unfold rr_inv. rewrite repeat_length.
    split; [reflexivity|]. split; [lia|]. split; [lia|].
    split; [|split; [|split]].
    - intros i Hi. rewrite !nth_repeat. lia.
    - intros p Hp. discriminate.
    - intros _. rewrite !nth_repeat. lia.
    - intros H. congruence.
  Qed.

  Lemma rr_inv_step M k r w s x : 0 <= x <= w -> rr_inv M k r w s ->
    rr_inv M k (Nat.modulo (S r) k) x (update r (fun a => a + x) s).
  Proof.
    intros Hx (Hlen & Hr & Hw & Hadj & Hprev & Hfull & Hpart).
    unfold rr_inv. rewrite update_length.
    assert (Hadj' : forall i, (S i < k)%nat ->
              nth (S i) (update r (fun a => a + x) s) 0 <= nth i (update r (fun a => a + x) s) 0).
    { intros i Hi. rewrite !nth_update by lia.
      pose proof (Hadj i Hi) as Hi1. pose proof (Hprev i) as Hi2.
      destruct (Nat.eqb r (S i)) eqn:E1; destruct (Nat.eqb r i) eqn:E2; lia. }
    destruct (succ_mod_cases r k Hr) as [[Hk ->]|[Hk ->]];
      (split; [exact Hlen|]); (split; [lia|]); (split; [lia|]); (split; [exact Hadj'|]);
      (split; [|split]).
    - intros p Hp. injection Hp as Hp. subst p. rewrite !nth_update by lia.
      pose proof (Hadj r Hk) as Hr1.
      destruct (Nat.eqb r (S r)) eqn:E1; destruct (Nat.eqb r r) eqn:E2; lia.
    - intros H. discriminate.
    - intros _. rewrite !nth_update by lia.
      destruct (Nat.eqb r O) eqn:E1; destruct (Nat.eqb r (k - 1)) eqn:E2; lia.
    - intros p Hp. discriminate.
    - intros _. rewrite !nth_update by lia.
      assert (Hk1 : (k - 1)%nat = r) by lia. rewrite Hk1 in *.
      destruct (Nat.eqb r O) eqn:E1; destruct (Nat.eqb r r) eqn:E2; lia.
    - intros H. congruence.
  Qed.

  Lemma rr_loop_sums_inv M k keep l : forall r w (b : bins A),
    StronglySorted (fun a c => valueof c <= valueof a) l ->
    Forall (fun x => 0 <= valueof x <= w) l ->
    rr_inv M k r w (sums b) ->
    exists r' w', rr_inv M k r' w' (sums (rr_loop valueof keep k l r b)).
  Proof.
    induction l as [|x t IH]; intros r w b Hs Hl H; cbn [rr_loop].
    - exists r, w. exact H.
    - inversion Hs as [|x' t' Hst Hxt]; subst. inversion Hl as [|x' t' Hx Ht]; subst.
      apply (IH (Nat.modulo (S r) k) (valueof x)).
      + exact Hst.
      + rewrite Forall_forall in *. intros y Hy. specialize (Hxt y Hy). specialize (Ht y Hy). lia.
      + rewrite add_item_sums. apply (rr_inv_step M k r w); [lia|exact H].
  Qed.

  Lemma adjacent_mono (f : nat -> Z) k : (forall i, (S i < k)%nat -> f (S i) <= f i) ->
    forall i j, (i <= j < k)%nat -> f j <= f i.
  Proof.
    intros H i j. induction j as [|j IH]; intros Hij.
    - assert (i = O) by lia. subst. lia.
    - destruct (Nat.eq_dec i (S j)) as [E|E]; [subst; lia|].
      specialize (H j ltac:(lia)). specialize (IH ltac:(lia)). lia.
  Qed.

  Lemma rr_inv_mono M k r w s : rr_inv M k r w s ->
    forall i j, (i < j < k)%nat -> nth j s 0 <= nth i s 0.
  Proof.
    intros (Hlen & Hr & Hw & Hadj & _) i j Hij.
    apply (adjacent_mono (fun n => nth n s 0) k Hadj). lia.
  Qed.

  Lemma rr_inv_gap M k r w s : rr_inv M k r w s -> spread_le M s.
  Proof.
    intros H. pose proof H as (Hlen & Hr & Hw & Hadj & Hprev & Hfull & Hpart).
    assert (Hmono : forall i j, (i <= j < k)%nat -> nth j s 0 <= nth i s 0)
      by (apply (adjacent_mono (fun n => nth n s 0) k Hadj)).
    intros a b Ha Hb.
    destruct (In_nth s a 0 Ha) as (ia & Hia & Ea). destruct (In_nth s b 0 Hb) as (ib & Hib & Eb).
    pose proof (Hmono O ia ltac:(lia)) as H1. pose proof (Hmono ib (k - 1)%nat ltac:(lia)) as H2.
    destruct (Nat.eq_dec r O) as [E|E]; [specialize (Hfull E)|specialize (Hpart E)]; lia.
  Qed.

  (** the sorted items satisfy the hypotheses of the loop invariant *)
  Lemma roundrobin_sums_inv keep k items : (1 <= k)%nat ->
    Forall (fun x => 0 <= valueof x) items ->
    exists r' w', rr_inv (zmax (map valueof items)) k r' w' (sums (roundrobin valueof keep k items)).
  Proof.
    intros Hk Hpos. destruct (zmax_values_bound items Hpos) as [HM Hall].
    unfold roundrobin. apply (rr_loop_sums_inv _ k keep _ O (zmax (map valueof items))).
    - apply sort_desc_sorted.
    - eapply Permutation_Forall; [symmetry; apply sort_desc_perm|exact Hall].
    - rewrite new_bins_sums. apply rr_inv_init; auto.
  Qed.

  Theorem rr_monotone : forall k items, (1 <= k)%nat ->
    Forall (fun x => 0 <= valueof x) items ->
    forall i j, (i < j < k)%nat ->
    nth j (sums (roundrobin valueof true k items)) 0 <= nth i (sums (roundrobin valueof true k items)) 0.
  Proof.
    intros k items Hk Hpos i j Hij.
    destruct (roundrobin_sums_inv true k items Hk Hpos) as (r' & w' & H).
    exact (rr_inv_mono _ _ _ _ _ H i j Hij).
  Qed.

  (** general form: any keep flag, items may be empty *)
  Lemma roundrobin_gap_gen keep k items : (1 <= k)%nat ->
    Forall (fun x => 0 <= valueof x) items ->
    zmax (sums (roundrobin valueof keep k items)) - zmin (sums (roundrobin valueof keep k items))
    <= zmax (map valueof items).
  Proof.
    intros Hk Hpos.
    destruct (roundrobin_sums_inv keep k items Hk Hpos) as (r' & w' & H).
    apply spread_le_zmax_zmin; [|exact (rr_inv_gap _ _ _ _ _ H)].
    apply (zmax_values_bound items Hpos).
  Qed.

  Theorem roundrobin_gap : forall k items, (1 <= k)%nat -> items <> [] ->
    Forall (fun x => 0 <= valueof x) items ->
    zmax (sums (roundrobin valueof true k items)) - zmin (sums (roundrobin valueof true k items))
    <= zmax (map valueof items).
  Proof. intros k items Hk _ Hpos. apply roundrobin_gap_gen; auto. Qed.

End GreedyProofs.

(** The hypothesis "all values >= 0" cannot be dropped from the gap bounds or from rr_monotone. *)
Example greedy_gap_needs_nonneg :
  let b := greedy (fun v : Z => v) true 2 [-5] in
  (zmax (sums b) - zmin (sums b) <=? zmax (map (fun v : Z => v) [-5])) = false.
Proof. vm_compute. reflexivity. Qed.

Example roundrobin_gap_needs_nonneg :
  let b := roundrobin (fun v : Z => v) true 2 [-5] in
  (zmax (sums b) - zmin (sums b) <=? zmax (map (fun v : Z => v) [-5])) = false.
Proof. vm_compute. reflexivity. Qed.

Example rr_monotone_needs_nonneg :
  sums (roundrobin (fun v : Z => v) true 3 [-1; -2; -3; -4]) = [-5; -2; -3].
Proof. vm_compute. reflexivity. Qed.

Print Assumptions greedy_partition.
Print Assumptions roundrobin_partition.
Print Assumptions greedy_erase.
Print Assumptions roundrobin_erase.
Print Assumptions greedy_names.
Print Assumptions roundrobin_names.
Print Assumptions greedy_gap.
Print Assumptions rr_cardinality.
Print Assumptions rr_monotone.
Print Assumptions roundrobin_gap.
