(** Bounds below 3/2 for best-fit-decreasing (Model/Packing.v): those of FFD119Proofs.v, for every
    any-fit-decreasing rule.

    Proved here (b = bins returned by best_fit_decreasing, n = any number of bins of capacity C
    into which the values can be packed; hypotheses: items <> [], values >= 0, nothing else):

      bfd_ratio_43_partial   :  3 * length b <= 4 * n + 2      (BFD <= 4/3 OPT + 2/3)
      bfd_ratio_54_partial   :  4 * length b <= 5 * n + 4      (BFD <= 5/4 OPT + 1)
      bfd_ratio_11_9_partial :  9 * length b <= 11 * n + 8     (BFD <= 11/9 OPT + 8/9)
                                provided no value lies in (2C/11, C/4]
      bfd_ratio_76_large     :  6 * length b <= 7 * n + 5      provided every value exceeds C/4
      bfd_119_ranges         :  the last two bounds in terms of x = first item of the last bin

    The same constants as for first-fit-decreasing.  In fact the proofs use nothing of best-fit
    but "any-fit on a descending list": [afd_ratio_43], [afd_ratio_54], [afd_119_ranges] are stated
    for [gloop valueof place] with any placement function whose steps are any-fit steps
    ([af_step] of PackingProofs.v), and first-fit-decreasing is a second instance.

    Which invariant replaces [sfit2] of FFD119Proofs.v (an item y of a later bin does not fit into
    an earlier bin when only the items >= y of that bin are counted)?  [sfit2] is false for
    best-fit-decreasing ([bfd_not_sfit2] below).  But the arguments [heavy43], [heavy54],
    [heavy76_chain] of FFD119Proofs.v use [sfit2] only through [nofollow]: after a deficient bin
    (types {M,S}; {L,m}, {L,t}, {m,t,t}; {L,s}) no value of a class P (M; L; ML; L) lies in a later
    bin.  In every deficient type all values are at most C/2 ([bin43_cases], [bin54_cases],
    [bin76_cases]), the classes P are upward closed below C/2, and the deficiency says that a value
    of P fits next to the values >= it of the bin.  So it is enough ([no_follow_af], [hfit_chain])
    to know the [sfit2] property for the FIRST item f of every later bin:

      [hfit]   C < (sum of the values >= f of the earlier bin) + f

    together with [hdesc] (FFDRatioProofs.v: the first item of a bin is at least every item of
    this bin and of all later bins): if y in P lies in a later bin with first item f, then
    y <= f <= first item of the deficient bin <= C/2, so f is in P and fits, contradicting [hfit].
    [hfit] is the any-fit property read at the time f opened its bin (all items placed before are
    >= f), and it is kept by every any-fit step on a descending list ([step_hfit]).
    "Every bin but the last is closed for x = first item of the last bin" is [hfit] for the last
    bin; the volume cases and the [light] lemmas do not depend on the algorithm.

    A [_partial] in a name marks a constant weaker than the published one, not an incomplete proof.

    For the first item of the last bin in (2C/11, C/4] the known proofs of 11/9 distinguish
    first-fit/best-fit from the other any-fit rules, for which only 5/4 holds: BFD119MidProofs.v
    proves 11/9 there for best-fit-decreasing except in (8C/41, C/5], which is OPEN. *)
From Prtpy Require Import Base.Prelude Model.Binner Model.Packing Spec.Partition
  Proofs.BaseLemmas Proofs.BinnerLemmas Proofs.PackingProofs Proofs.FFDRatioProofs
  Proofs.BFDRatioProofs Proofs.FFD119Proofs Proofs.BCOptimalProofs Oracle.Reach Proofs.OracleSpec.
From Coq Require Import ZifyBool Sorting.Sorted.

(** ---- 1. the invariant [hfit] of any-fit on a descending list ---- *)
Section HFit.
  Context {A : Type} (valueof : A -> Z).
  Notation add := (add_to_bin valueof true).
  Notation vals bn := (map valueof (snd bn)).

  (** the first item of [c] does not fit the values of [bn] that are at least as large *)
  Definition head_nofit (C : Z) (bn c : bin A) : Prop :=
    match snd c with
    | f :: _ => C < zsum (sel (valueof f) (vals bn)) + valueof f
    | [] => True
    end.

  Fixpoint hfit (C : Z) (b : bins A) : Prop :=
    match b with
    | [] => True
    | bn :: t => Forall (head_nofit C bn) t /\ hfit C t
    end.

  Lemma head_nofit_grow C x bn c : 0 <= valueof x -> head_nofit C bn c -> head_nofit C (add x bn) c.
  Proof.
    intros Hx. unfold head_nofit. destruct (snd c) as [|f r]; [auto|].
    unfold add_to_bin. cbn [snd]. rewrite map_app, sel_app, zsum_app. cbn [map].
    assert (H0 : 0 <= zsum (sel (valueof f) [valueof x])).
    { apply zsum_sel_le. constructor; [exact Hx|constructor]. }
    lia.
  Qed.

  Lemma head_nofit_add C x a bn : snd bn <> [] -> head_nofit C a bn -> head_nofit C a (add x bn).
  Proof.
    unfold head_nofit, add_to_bin. cbn [snd]. destruct (snd bn) as [|f r]; [congruence|].
    intros _ H. cbn [app]. exact H.
  Qed.

  Lemma hfit_into C x bn l2 : 0 <= valueof x -> snd bn <> [] -> forall l1 : bins A,
    hfit C (l1 ++ bn :: l2) -> hfit C (l1 ++ add x bn :: l2).
  Proof.
    intros Hx Hne. induction l1 as [|a l1 IH]; cbn [app hfit].
    - intros [H1 H2]. split; [|exact H2]. eapply Forall_impl; [|exact H1].
      intros c Hc. apply head_nofit_grow; assumption.
    - intros [H1 H2]. split; [|apply IH; exact H2].
      apply Forall_app in H1. destruct H1 as [H1a H1b].
      apply Forall_cons_iff in H1b. destruct H1b as [Hbn Hl2].
      apply Forall_app. split; [exact H1a|]. constructor; [|exact Hl2].
      apply head_nofit_add; assumption.
  Qed.

  Lemma hfit_new C x : forall b : bins A, wf valueof b ->
    Forall (fun bn : bin A => C < fst bn + valueof x) b ->
    Forall (fun z => valueof x <= valueof z) (contents b) ->
    hfit C b -> hfit C (b ++ [add x empty_bin]).
  Proof.
    induction b as [|a t IH]; intros Hw Hall Hx; cbn [app hfit].
    - intros _. split; constructor.
    - intros [H1 H2].
      unfold wf in Hw. apply Forall_cons_iff in Hw. destruct Hw as [Hwa Hw].
      apply Forall_cons_iff in Hall. destruct Hall as [Ha Hall].
      rewrite contents_cons in Hx. apply Forall_app in Hx. destruct Hx as [Hxa Hx].
      split; [|apply IH; assumption].
      apply Forall_app. split; [exact H1|]. constructor; [|constructor].
      unfold head_nofit, add_to_bin, empty_bin. cbn [snd app].
      rewrite sel_all; [|rewrite Forall_map; exact Hxa].
      unfold wf_bin in Hwa. lia.
  Qed.

  Lemma step_hfit C x (b b' : bins A) : 0 <= valueof x -> af_step valueof C x b b' ->
    wf valueof b -> all_nonempty b -> Forall (fun z => valueof x <= valueof z) (contents b) ->
    hfit C b -> hfit C b'.
  Proof.
    intros Hx H Hw Hne Hge Hh. destruct H as [l1 bn l2 Hfit|b Hall].
    - apply hfit_into; [exact Hx| |exact Hh]. unfold all_nonempty in Hne.
      apply Forall_app in Hne. destruct Hne as [_ Hne].
      apply Forall_cons_iff in Hne. destruct Hne as [Hne _]. exact Hne.
    - apply hfit_new; assumption.
  Qed.

  (** splitting at a position *)
  Lemma hfit_app C (b1 b2 : bins A) : hfit C (b1 ++ b2) ->
    Forall (fun c => Forall (head_nofit C c) b2) b1 /\ hfit C b1.
  Proof.
    induction b1 as [|c b1 IH]; cbn [app hfit].
    - intros _. split; [constructor|exact I].
    - intros [H1 H2]. destruct (IH H2) as [I1 I2].
      apply Forall_app in H1. destruct H1 as [H1a H1b].
      split; [constructor; [exact H1b|exact I1]|split; [exact H1a|exact I2]].
  Qed.

  Lemma hdesc_app_l : forall b1 b2 : bins A, hdesc valueof (b1 ++ b2) -> hdesc valueof b1.
  Proof.
    induction b1 as [|c b1 IH]; intros b2; cbn [app hdesc]; [auto|].
    intros [H1 H2]. split; [|apply (IH b2); exact H2].
    destruct (hd_dom_elim valueof _ _ H1) as (x0 & l0 & Es & HF).
    apply (hd_dom_intro valueof _ x0 l0 _ Es).
    rewrite contents_cons in *. rewrite contents_app in HF.
    apply Forall_app in HF. destruct HF as [HF1 HF2]. apply Forall_app in HF2. destruct HF2 as [HF2 _].
    apply Forall_app. split; assumption.
  Qed.

  (** an item of a bins-array with [hdesc] is at most the first item of its bin *)
  Lemma hdesc_in : forall (t : bins A) y, hdesc valueof t -> In y (contents t) ->
    exists (c : bin A) f r, In c t /\ snd c = f :: r /\ valueof y <= valueof f.
  Proof.
    induction t as [|c t IH]; intros y Hh Hy.
    - unfold contents, lists in Hy. cbn [map concat] in Hy. destruct Hy.
    - cbn [hdesc] in Hh. destruct Hh as [H1 H2]. rewrite contents_cons in Hy.
      apply in_app_or in Hy. destruct Hy as [Hy|Hy].
      + destruct (hd_dom_elim valueof _ _ H1) as (f & r & Es & HF).
        exists c, f, r. split; [left; reflexivity|split; [exact Es|]].
        rewrite Forall_forall in HF. apply HF. rewrite contents_cons. apply in_or_app. left. exact Hy.
      + destruct (IH y H2 Hy) as (c' & f & r & Hc & Es & Hle).
        exists c', f, r. split; [right; exact Hc|split; [exact Es|exact Hle]].
  Qed.

  Lemma head_in_contents (t : bins A) (c : bin A) f r : In c t -> snd c = f :: r -> In f (contents t).
  Proof.
    intros Hc Es. unfold contents, lists. apply in_concat. exists (snd c).
    split; [apply in_map; exact Hc|rewrite Es; left; reflexivity].
  Qed.

End HFit.

(** ---- 2. [nofollow] from [hfit] and [hdesc] ---- *)
Section NoFollow.
  Context {A : Type} (valueof : A -> Z).
  Notation vals bn := (map valueof (snd bn)).

  (** a bin closed for x <= C has its first item >= x, so that item is among the selected ones *)
  Lemma closed_head_sel C x (bn : bin A) (t : bins A) : x <= C ->
    C < zsum (sel x (vals bn)) + x -> hd_dom valueof bn (contents (bn :: t)) ->
    exists a r, snd bn = a :: r /\ In (valueof a) (sel x (vals bn)) /\
      Forall (fun y => valueof y <= valueof a) (contents t).
  Proof.
    intros HxC Hcl Hd. destruct (hd_dom_elim valueof _ _ Hd) as (a & r & Es & HF).
    exists a, r. rewrite contents_cons in HF. apply Forall_app in HF. destruct HF as [HF1 HF2].
    split; [exact Es|split; [|exact HF2]].
    destruct (sel x (vals bn)) as [|e l] eqn:El; [rewrite zsum_nil in Hcl; lia|].
    assert (He : In e (sel x (vals bn))) by (rewrite El; left; reflexivity).
    unfold sel in He. apply filter_In in He. destruct He as [He1 He2].
    apply in_map_iff in He1. destruct He1 as (y & Ey & Hy).
    rewrite Forall_forall in HF1. specialize (HF1 y Hy).
    rewrite <- El. unfold sel. apply filter_In. split; [rewrite Es; left; reflexivity|lia].
  Qed.

  Lemma no_follow_af C x (P : Z -> Prop) (bn : bin A) (t : bins A) : x <= C ->
    (forall y y', P y -> y <= y' -> 2 * y' <= C -> P y') ->
    (forall y, P y -> x <= y) ->
    C < zsum (sel x (vals bn)) + x ->
    hd_dom valueof bn (contents (bn :: t)) -> hdesc valueof t -> Forall (head_nofit valueof C bn) t ->
    Forall (fun a => 2 * a <= C) (sel x (vals bn)) ->
    (forall y, P y -> zsum (sel y (sel x (vals bn))) + y <= C) ->
    Forall (fun y => ~ P (valueof y)) (contents t).
  Proof.
    intros HxC Hup HPx Hcl Hd Hh Hs Hsm HM.
    destruct (closed_head_sel C x bn t HxC Hcl Hd) as (a & r & Es & Ha & Hdom).
    assert (Ha2 : 2 * valueof a <= C) by (rewrite Forall_forall in Hsm; apply Hsm; exact Ha).
    apply Forall_forall. intros y Hy HPy.
    destruct (hdesc_in valueof t y Hh Hy) as (c & f & rf & Hc & Ef & Hyf).
    assert (Hfa : valueof f <= valueof a).
    { rewrite Forall_forall in Hdom. apply Hdom. apply (head_in_contents t c f rf Hc Ef). }
    assert (HPf : P (valueof f)) by (apply (Hup (valueof y)); [exact HPy|exact Hyf|lia]).
    rewrite Forall_forall in Hs. specialize (Hs c Hc). unfold head_nofit in Hs. rewrite Ef in Hs.
    specialize (HM (valueof f) HPf). rewrite sel_sel in HM; [|apply HPx; exact HPf]. lia.
  Qed.

  Lemma hfit_chain C x : x <= C -> forall t : bins A, closed valueof C x t ->
    hfit valueof C t -> hdesc valueof t -> nf_chain valueof C x t.
  Proof.
    intros HxC. induction t as [|bn t IH]; cbn [hfit hdesc nf_chain]; [auto|]. intros Hcl [Hs Hsf] [Hd Hh].
    unfold closed in Hcl. apply Forall_cons_iff in Hcl. destruct Hcl as [Hc Hcl].
    split; [|apply IH; assumption].
    intros P Hup HPx Hsm HM. apply (no_follow_af C x P bn t); assumption.
  Qed.

End NoFollow.

(** ---- 3. the bounds for any bins-array with [Inv], [hfit], [hdesc] ---- *)
Section AFRatio.
  Context {A : Type} (valueof : A -> Z).
  Notation vals bn := (map valueof (snd bn)).

  (** all bins but the last are closed for the first item x0 of the last bin *)
  Lemma af_last C items (b : bins A) : items <> [] -> Forall (fun x => 0 <= valueof x) items ->
    Inv valueof C b items -> hfit valueof C b -> hdesc valueof b ->
    exists (t : bins A) (last : bin A) (x0 : A),
      b = t ++ [last] /\ In x0 (snd last) /\ 0 <= valueof x0 <= C /\
      closed valueof C (valueof x0) t /\ hfit valueof C t /\ hdesc valueof t /\ wf valueof b /\
      Forall (fun y => 0 <= valueof y) (contents b) /\ Permutation (contents b) items.
  Proof.
    intros Hne Hnn HI Hsf Hh.
    destruct (inv_last valueof C items b Hne Hnn HI) as (t & last & x0 & r & E & El & Hx0 & Hnnb). subst b.
    destruct HI as (Hw & _ & Hp & _). destruct (hfit_app valueof C t [last] Hsf) as [Hcl Hsft].
    exists t, last, x0. rewrite El. split; [reflexivity|]. split; [left; reflexivity|]. split; [exact Hx0|].
    split; [|split; [exact Hsft|split; [apply (hdesc_app_l valueof t [last]); exact Hh|auto]]].
    unfold closed. eapply Forall_impl; [|exact Hcl]. intros c Hc. cbv beta in Hc.
    apply Forall_cons_iff in Hc. destruct Hc as [Hc _]. unfold head_nofit in Hc. rewrite El in Hc. exact Hc.
  Qed.

  Theorem af_struct_ratio_43 C (items : list A) (b : bins A) (n : nat) :
    items <> [] -> Forall (fun x : A => 0 <= valueof x) items ->
    Inv valueof C b items -> hfit valueof C b -> hdesc valueof b ->
    Packable C (map valueof items) n -> (3 * length b <= 4 * n + 2)%nat.
  Proof.
    intros Hne Hnn HI Hsf0 Hh0 Hpack.
    destruct (af_last C items b Hne Hnn HI Hsf0 Hh0)
      as (t & last & x0 & E & Hin & Hx0 & Hcl & Hsf & Hh & Hw & Hnnb & Hp).
    subst b. apply (last_ratio_43 valueof C t last x0 items n); auto. apply hfit_chain; [lia|assumption..].
  Qed.

  Theorem af_struct_ratio_54 C (items : list A) (b : bins A) (n : nat) :
    items <> [] -> Forall (fun x : A => 0 <= valueof x) items ->
    Inv valueof C b items -> hfit valueof C b -> hdesc valueof b ->
    Packable C (map valueof items) n -> (4 * length b <= 5 * n + 4)%nat.
  Proof.
    intros Hne Hnn HI Hsf0 Hh0 Hpack.
    destruct (af_last C items b Hne Hnn HI Hsf0 Hh0)
      as (t & last & x0 & E & Hin & Hx0 & Hcl & Hsf & Hh & Hw & Hnnb & Hp).
    subst b. apply (last_ratio_54 valueof C t last x0 items n); auto. apply hfit_chain; [lia|assumption..].
  Qed.

  (** the two easy ranges of x = the first item of the last bin *)
  Lemma af_struct_119_ranges C (items : list A) (b : bins A) (n : nat) :
    items <> [] -> Forall (fun x : A => 0 <= valueof x) items ->
    Inv valueof C b items -> hfit valueof C b -> hdesc valueof b ->
    Packable C (map valueof items) n ->
    exists x0, In x0 items /\
      (11 * valueof x0 <= 2 * C -> (9 * length b <= 11 * n + 8)%nat) /\
      (C < 4 * valueof x0 -> (6 * length b <= 7 * n + 5)%nat).
  Proof.
    intros Hne Hnn HI Hsf0 Hh0 Hpack.
    destruct (af_last C items b Hne Hnn HI Hsf0 Hh0)
      as (t & last & x0 & E & Hin & Hx0 & Hcl & Hsf & Hh & Hw & Hnnb & Hp).
    subst b. exists x0. apply (last_119_ranges valueof C t last x0 items n); auto. apply hfit_chain; [lia|assumption..].
  Qed.

  (** ---- 4. any-fit-decreasing: any placement function whose steps are any-fit steps ---- *)
  Variable place : Z -> A -> bins A -> bins A.
  Definition af_place (C : Z) : Prop :=
    forall x b, 0 <= valueof x -> nonneg_sums b -> af_step valueof C x b (place C x b).

  Lemma afd_structure C items b : af_place C -> items <> [] -> Forall (fun x => 0 <= valueof x) items ->
    gloop valueof place C (sort_desc valueof items) (new_bins 1) = Ok b ->
    Inv valueof C b items /\ hfit valueof C b /\ hdesc valueof b.
  Proof.
    intros Hplace Hne Hnn H.
    assert (HJ : forall x b0 acc, 0 <= valueof x -> Inv valueof C b0 acc ->
               Forall (fun z => valueof x <= valueof z) (contents b0) ->
               hfit valueof C b0 -> hfit valueof C (place C x b0)).
    { intros x b0 acc Hx (Hw & _ & _ & Hnem & Hsn & _) Hge Hh. apply (step_hfit valueof C x b0); auto. }
    destruct (gloop_afd_first valueof place (hfit valueof C) C Hplace HJ (fun x => conj (Forall_nil _) I)
                (sort_desc valueof items) b (sort_desc_nonnil valueof items Hne) (sort_desc_sorted valueof items)
                (sort_desc_nonneg valueof items Hnn) H) as (HI & Hsf & Hh).
    split; [|split; assumption].
    apply (Inv_perm valueof C b (sort_desc valueof items)); [apply sort_desc_perm|exact HI].
  Qed.

  Theorem afd_ratio_43 C items b n : af_place C -> items <> [] -> Forall (fun x => 0 <= valueof x) items ->
    gloop valueof place C (sort_desc valueof items) (new_bins 1) = Ok b ->
    Packable C (map valueof items) n -> (3 * length b <= 4 * n + 2)%nat.
  Proof.
    intros Hplace Hne Hnn H Hpack. destruct (afd_structure C items b Hplace Hne Hnn H) as (HI & Hsf & Hh).
    apply (af_struct_ratio_43 C items b n); assumption.
  Qed.

  Theorem afd_ratio_54 C items b n : af_place C -> items <> [] -> Forall (fun x => 0 <= valueof x) items ->
    gloop valueof place C (sort_desc valueof items) (new_bins 1) = Ok b ->
    Packable C (map valueof items) n -> (4 * length b <= 5 * n + 4)%nat.
  Proof.
    intros Hplace Hne Hnn H Hpack. destruct (afd_structure C items b Hplace Hne Hnn H) as (HI & Hsf & Hh).
    apply (af_struct_ratio_54 C items b n); assumption.
  Qed.

  Theorem afd_119_ranges C items b n : af_place C -> items <> [] -> Forall (fun x => 0 <= valueof x) items ->
    gloop valueof place C (sort_desc valueof items) (new_bins 1) = Ok b ->
    Packable C (map valueof items) n ->
    exists x0, In x0 items /\
      (11 * valueof x0 <= 2 * C -> (9 * length b <= 11 * n + 8)%nat) /\
      (C < 4 * valueof x0 -> (6 * length b <= 7 * n + 5)%nat).
  Proof.
    intros Hplace Hne Hnn H Hpack. destruct (afd_structure C items b Hplace Hne Hnn H) as (HI & Hsf & Hh).
    apply (af_struct_119_ranges C items b n); assumption.
  Qed.
End AFRatio.

(** ---- 5. best-fit-decreasing ---- *)
Section BFD54.
  Context {A : Type} (valueof : A -> Z).

  Lemma bf_af_place C : af_place valueof (bf_place valueof true) C.
  Proof. intros x b Hx Hb. apply bf_is_step; assumption. Qed.

  Lemma bfd_gloop C items b : best_fit_decreasing valueof true C items = Ok b ->
    gloop valueof (bf_place valueof true) C (sort_desc valueof items) (new_bins 1) = Ok b.
  Proof. intros H. unfold best_fit_decreasing, best_fit in H. rewrite bf_loop_gloop in H. exact H. Qed.

  (** the invariants of best-fit-decreasing used here *)
  Lemma bfd_hfit C items b : items <> [] -> Forall (fun x => 0 <= valueof x) items ->
    best_fit_decreasing valueof true C items = Ok b ->
    Inv valueof C b items /\ hfit valueof C b /\ hdesc valueof b.
  Proof.
    intros Hne Hnn H. apply (afd_structure valueof (bf_place valueof true) C items b (bf_af_place C) Hne Hnn).
    apply bfd_gloop. exact H.
  Qed.

  Theorem bfd_ratio_43_partial C (items : list A) (b : bins A) (n : nat) :
    items <> [] -> Forall (fun x : A => 0 <= valueof x) items ->
    best_fit_decreasing valueof true C items = Ok b -> Packable C (map valueof items) n ->
    (3 * length b <= 4 * n + 2)%nat.
  Proof.
    intros Hne Hnn H Hpack.
    apply (afd_ratio_43 valueof (bf_place valueof true) C items b n (bf_af_place C) Hne Hnn); [|exact Hpack].
    apply bfd_gloop. exact H.
  Qed.

  Theorem bfd_ratio_54_partial C (items : list A) (b : bins A) (n : nat) :
    items <> [] -> Forall (fun x : A => 0 <= valueof x) items ->
    best_fit_decreasing valueof true C items = Ok b -> Packable C (map valueof items) n ->
    (4 * length b <= 5 * n + 4)%nat.
  Proof.
    intros Hne Hnn H Hpack.
    apply (afd_ratio_54 valueof (bf_place valueof true) C items b n (bf_af_place C) Hne Hnn); [|exact Hpack].
    apply bfd_gloop. exact H.
  Qed.

  Lemma bfd_119_ranges C (items : list A) (b : bins A) (n : nat) :
    items <> [] -> Forall (fun x : A => 0 <= valueof x) items ->
    best_fit_decreasing valueof true C items = Ok b -> Packable C (map valueof items) n ->
    exists x0, In x0 items /\
      (11 * valueof x0 <= 2 * C -> (9 * length b <= 11 * n + 8)%nat) /\
      (C < 4 * valueof x0 -> (6 * length b <= 7 * n + 5)%nat).
  Proof.
    intros Hne Hnn H Hpack.
    apply (afd_119_ranges valueof (bf_place valueof true) C items b n (bf_af_place C) Hne Hnn); [|exact Hpack].
    apply bfd_gloop. exact H.
  Qed.

  (** 11/9 when no value lies in (2C/11, C/4] *)
  Theorem bfd_ratio_11_9_partial C (items : list A) (b : bins A) (n : nat) :
    items <> [] -> Forall (fun x : A => 0 <= valueof x) items ->
    Forall (fun x : A => 11 * valueof x <= 2 * C \/ C < 4 * valueof x) items ->
    best_fit_decreasing valueof true C items = Ok b -> Packable C (map valueof items) n ->
    (9 * length b <= 11 * n + 8)%nat.
  Proof.
    intros Hne Hnn Hgap H Hpack.
    exact (ranges_11_9 valueof C items _ n (bfd_119_ranges C items b n Hne Hnn H Hpack) Hgap).
  Qed.

  (** 7/6 when every value exceeds C/4 *)
  Theorem bfd_ratio_76_large C (items : list A) (b : bins A) (n : nat) :
    items <> [] -> Forall (fun x : A => C < 4 * valueof x) items ->
    best_fit_decreasing valueof true C items = Ok b -> Packable C (map valueof items) n ->
    (6 * length b <= 7 * n + 5)%nat.
  Proof.
    intros Hne Hbig H Hpack.
    pose proof (large_nonneg valueof C items Hbig
                  (ok_values_le valueof C items _ b (bfd_error_iff valueof C items) H)) as Hnn.
    exact (ranges_76 valueof C items _ n (bfd_119_ranges C items b n Hne Hnn H Hpack) Hbig).
  Qed.

  (** against the optimum *)
  Corollary bfd_ratio_54_minbins C (items : list A) (b : bins A) (n : nat) :
    items <> [] -> Forall (fun x : A => 0 <= valueof x) items ->
    best_fit_decreasing valueof true C items = Ok b -> MinBins C (map valueof items) n ->
    (4 * length b <= 5 * n + 4)%nat.
  Proof. intros Hne Hnn H [Hpack _]. apply (bfd_ratio_54_partial C items b n); assumption. Qed.

  (** the sums-only binner makes the same decisions *)
  Corollary bfd_ratio_54_sums C items b n :
    items <> [] -> Forall (fun x => 0 <= valueof x) items ->
    best_fit_decreasing valueof false C items = Ok b ->
    Packable C (map valueof items) n -> (4 * length b <= 5 * n + 4)%nat.
  Proof.
    intros Hne Hnn H Hpack. rewrite <- bfd_erase in H.
    destruct (best_fit_decreasing valueof true C items) as [b1|e] eqn:E; [|discriminate H].
    cbn [rmap] in H. injection H as H. subst b. rewrite erase_length.
    apply (bfd_ratio_54_partial C items b1 n); assumption.
  Qed.
End BFD54.

(** the generic theorems also cover first-fit-decreasing (same statements as in FFD119Proofs.v) *)
Lemma ffd_ratio_54_from_af {A} (valueof : A -> Z) C (items : list A) (b : bins A) (n : nat) :
  items <> [] -> Forall (fun x : A => 0 <= valueof x) items ->
  first_fit_decreasing valueof true C items = Ok b -> Packable C (map valueof items) n ->
  (4 * length b <= 5 * n + 4)%nat.
Proof.
  intros Hne Hnn H Hpack. unfold first_fit_decreasing, first_fit in H. rewrite ff_loop_gloop in H.
  apply (afd_ratio_54 valueof (ff_place valueof true) C items b n); try assumption.
  intros x b0. apply ff_is_step.
Qed.

(** ---- 6. examples ---- *)
(** [sfit2] (the invariant of FFD119Proofs.v) fails for best-fit-decreasing: 15 fits bin 0 *)
Example bfd_not_sfit2 b : best_fit_decreasing idZ true 100 [80; 30; 30; 25; 15] = Ok b -> ~ sfit2 idZ 100 b.
Proof.
  rewrite bfd_not_sfit. intros H. injection H as H. subst b. cbn [sfit2]. intros [H _].
  rewrite Forall_forall in H. specialize (H 15). cbv beta in H.
  assert (Hin : In 15 (contents [(100, [30; 30; 25; 15])])) by (vm_compute; tauto).
  specialize (H Hin). vm_compute in H. discriminate H.
Qed.

(** the sample family satisfies the check because the
    theorems hold for every admissible input ([bfd_54_check_true]): nothing is evaluated *)
Definition hnofitb (C : Z) (bn c : bin Z) : bool :=
  match snd c with f :: _ => C <? zsum (sel f (snd bn)) + f | [] => true end.
Fixpoint hfitb (C : Z) (b : bins Z) : bool :=
  match b with [] => true | bn :: t => forallb (hnofitb C bn) t && hfitb C t end.
Definition bfd_54_check (C : Z) (vs : list Z) : bool :=
  match best_fit_decreasing idZ true C vs with
  | Ok b => hfitb C b && (3 * length b <=? 4 * min_bins C vs + 2)%nat
            && (4 * length b <=? 5 * min_bins C vs + 4)%nat
  | Err _ => false
  end.

Lemma hfitb_true C (b : bins Z) : hfit idZ C b -> hfitb C b = true.
Proof.
  induction b as [|bn t IH]; cbn [hfit hfitb]; [reflexivity|]. intros [H1 H2].
  rewrite (IH H2), andb_true_r. apply forallb_forall. intros c Hc.
  rewrite Forall_forall in H1. specialize (H1 c Hc). unfold head_nofit in H1. unfold hnofitb.
  destruct (snd c) as [|f r]; [reflexivity|]. rewrite map_id in H1. lia.
Qed.

Lemma bfd_54_check_true C vs : vs <> [] -> Forall (fun v => 0 < v <= C) vs -> bfd_54_check C vs = true.
Proof.
  intros Hne H. unfold bfd_54_check.
  assert (Hnn : Forall (fun v => 0 <= idZ v) vs) by (eapply Forall_impl; [|exact H]; cbv beta; lia).
  destruct (best_fit_decreasing idZ true C vs) as [b|e] eqn:E.
  - destruct (min_bins_MinBins C vs H) as [Hpack _].
    pose proof (bfd_ratio_43_partial idZ C vs b _ Hne Hnn E Hpack) as H43.
    pose proof (bfd_ratio_54_partial idZ C vs b _ Hne Hnn E Hpack) as H54.
    destruct (bfd_hfit idZ C vs b Hne Hnn E) as (_ & Hh & _).
    rewrite (hfitb_true C b Hh). cbn [andb]. apply andb_true_intro. split; apply Nat.leb_le; lia.
  - exfalso. apply (no_value_above C vs H), bfd_error_iff. exists e. exact E.
Qed.

Example bfd_54_random :
  forallb (fun s => bfd_54_check (fst (ffd_32_instance s)) (snd (ffd_32_instance s))) (map Z.of_nat (seq 1 80)) = true.
Proof. apply forallb_forall. intros s _. apply bfd_54_check_true; apply ffd_32_instance_values. Qed.

(** one third of the smallest member of Johnson's 11/9 family (C = 60: 31, 17, 16, 13): best-fit-
    decreasing uses 4 bins, the optimum is 3 *)
Example bfd_54_johnson_run :
  rmap (@length (bin Z)) (best_fit_decreasing idZ true 60 (repeat 31 2 ++ repeat 17 2 ++ repeat 16 2 ++ repeat 13 4))
    = Ok 4%nat /\
  rmap (@length (bin Z)) (best_fit_decreasing idZ true 60 (repeat 31 6 ++ repeat 17 6 ++ repeat 16 6 ++ repeat 13 12))
    = Ok 11%nat.
Proof. vm_compute. split; reflexivity. Qed.

Example bfd_54_johnson_thm b :
  best_fit_decreasing idZ true 60 (repeat 31 2 ++ repeat 17 2 ++ repeat 16 2 ++ repeat 13 4) = Ok b ->
  (4 * length b <= 5 * 3 + 4)%nat.
Proof.
  intros H. set (L := repeat 31 2 ++ repeat 17 2 ++ repeat 16 2 ++ repeat 13 4) in *.
  apply (bfd_ratio_54_partial idZ 60 L b 3); [discriminate| |exact H|].
  - repeat constructor; lia.
  - rewrite map_id. apply johnson_60_packable.
Qed.

(** all values above C/4: BFD 3 bins, optimum 2, 6 * 3 <= 7 * 2 + 5 *)
Example bfd_76_tight_thm b :
  best_fit_decreasing idZ true 10 [4; 4; 3; 3; 3; 3] = Ok b -> (6 * length b <= 7 * 2 + 5)%nat.
Proof.
  intros H. apply (bfd_ratio_76_large idZ 10 [4; 4; 3; 3; 3; 3] b 2); [discriminate| |exact H|].
  - repeat constructor; lia.
  - apply (min_bins_MinBins 10 [4; 4; 3; 3; 3; 3]). repeat constructor; lia.
Qed.

Check step_hfit.
Check no_follow_af.
Check af_struct_ratio_54.
Check afd_ratio_54.
Check bfd_hfit.

Print Assumptions bfd_ratio_43_partial.
Print Assumptions bfd_ratio_54_partial.
Print Assumptions bfd_ratio_11_9_partial.
Print Assumptions bfd_ratio_76_large.
Print Assumptions bfd_119_ranges.
Print Assumptions bfd_ratio_54_minbins.
Print Assumptions bfd_ratio_54_sums.
Print Assumptions afd_ratio_43.
Print Assumptions afd_ratio_54.
Print Assumptions afd_119_ranges.
Print Assumptions ffd_ratio_54_from_af.
Print Assumptions bfd_54_johnson_thm.
Print Assumptions bfd_not_sfit2.
