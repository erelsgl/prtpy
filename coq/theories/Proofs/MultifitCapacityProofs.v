(** Capacity lemma for MultiFit: the ratio 11/9 = 1.2222...
    (published constants: 1.22 Coffman-Garey-Johnson 1978, 6/5 Friesen 1984, 13/11 Yue 1990).

    PROVED here (values >= 0, k >= 1, T = largest sum of ANY partition of the values into k bins,
    c an integer capacity):
      ffd_capacity_119 : 11 T <= 9 c -> first-fit-decreasing with capacity c does not fail and
                         uses at most k bins
      multifit_ratio_119_exact : L <= (11 OPT + 8)/9 + OPT/2^it + OPT/2^51   (multiplied out)
      multifit_ratio_119       : 9 * 2^it * L <= (11 * 2^it + 9) * OPT + 44 * 2^it
                                 i.e.  L <= (11/9 + 2^-it) OPT + 44/9         (total <= 2^53)
      multifit_ratio_119_small : ... + 17/9                                   (total <= 2^51)
    by instantiating [MultifitProofs.multifit_ratio_ceil] (float model of the binary search).
    11/9 - 61/50 = 1/450: the published constant 1.22 is NOT reached (OPEN, see the end).
    The capacity lemmas for 5/4, 4/3 and 3/2 (MultifitRatioProofs.v) are instances of this one.

    Proof of the capacity lemma ([ffd_peel_119], induction on k).  Let d = c - T, x the value that
    opens bin k+1 ([ffd_overflow]; x > d by volume, [overflow_big]), cut the descending list after
    x and let a be its largest value.
    - a + 2x > T: the bin of a in the packing holds at most one more value, the first bin of
      first-fit dominates it and is peeled off with the exchange lemma
      [BCOptimalProofs.dom_exchange] ([peel_first_bin]).
    - otherwise every value lies in [x, T - 2x] ([ffd_weights_119]).  Weights, scale 12 ([w119]):
           6 above d + x,  5 in [c/3, d + x],  4 in ((c - x)/3, c/3),  3 in [x, (c - x)/3].
      A set that fits into T weighs <= 12 ([light119]; this is where 9 d >= 2 T is used, through
      5 x > 2 T - 4 d).  A bin of first-fit (closed for x: level > c - x) weighs >= 12, except
      three values of classes {5,3,3}, {4,4,3} (11) or {4,3,3} (10) ([bin119_cases]); by the
      invariant [FFD119Proofs.sfit2] every value of every later bin is then at most the smallest
      of the three, hence of class 3, and a closed bin of class-3 values holds at least four of
      them ([bin119_small], [heavy119_small]).  So the k bins weigh >= 12 k - 2 ([heavy119]),
      x weighs 3, the packing <= 12 k: contradiction.
    The weights were found by integer programming over all bin patterns on grids.

    Hypotheses: those of [multifit_ratio_2] (items <> [], values >= 0, k >= 1, total <= 2^53). *)
From Prtpy Require Import Base.Prelude Model.Binner Model.Packing Model.Multifit Spec.Partition
  Model.Objectives Proofs.BaseLemmas Proofs.BinnerLemmas Proofs.PackingProofs Proofs.OracleSpec Proofs.RatioProofs
  Proofs.MultifitProofs Proofs.BCOptimalProofs Proofs.FFDRatioProofs Proofs.FFD119Proofs.
From Coq Require Import ZifyBool Sorting.Sorted.
Open Scope Z_scope.

Local Notation idZ := (fun v : Z => v).
Notation desc := (StronglySorted (fun a c : Z => c <= a)).

(** ---- 1. the weights (scale 12), for a packing capacity T, a first-fit capacity C and the
        smallest value x:  6 above C - T + x, 5 in [C/3, C - T + x], 4 in ((C - x)/3, C/3),
        3 in [x, (C - x)/3], 0 below x ---- *)
Definition w119 (T C x a : Z) : Z :=
  if a <? x then 0
  else if C - T + x <? a then 6
  else if C <=? 3 * a then 5
  else if C - x <? 3 * a then 4
  else 3.

Lemma w119_spec T C x a :
  (a < x /\ w119 T C x a = 0) \/
  (x <= a /\ C - T + x < a /\ w119 T C x a = 6) \/
  (x <= a /\ a <= C - T + x /\ C <= 3 * a /\ w119 T C x a = 5) \/
  (x <= a /\ a <= C - T + x /\ 3 * a < C /\ C - x < 3 * a /\ w119 T C x a = 4) \/
  (x <= a /\ a <= C - T + x /\ 3 * a < C /\ 3 * a <= C - x /\ w119 T C x a = 3).
Proof.
  unfold w119. destruct (a <? x) eqn:E0; [left; lia|].
  destruct (C - T + x <? a) eqn:E1; [right; left; lia|].
  destruct (C <=? 3 * a) eqn:E2; [right; right; left; lia|].
  destruct (C - x <? 3 * a) eqn:E3; [right; right; right; left; lia|].
  right; right; right; right; lia.
Qed.

Notation ws119 T C x := (gws (w119 T C x)).

Lemma w119_nonneg T C x a : 0 <= w119 T C x a.
Proof. pose proof (w119_spec T C x a). lia. Qed.

Lemma w119_small T C x a : a < x -> w119 T C x a = 0.
Proof. intros H. pose proof (w119_spec T C x a). lia. Qed.

Lemma w119_ge3 T C x a : x <= a -> 3 <= w119 T C x a.
Proof. intros H. pose proof (w119_spec T C x a). lia. Qed.

(** a set that fits into capacity T weighs at most 12 *)
Lemma light119 T C x g : 0 <= T -> 11 * T <= 9 * C -> C - T < x ->
  Forall (fun a => 0 <= a) g -> zsum g <= T -> ws119 T C x g <= 12.
Proof.
  intros HT Hr Hx Hnn HS. rewrite <- (gws_sel (w119 T C x) x g (w119_small T C x)).
  pose proof (zsum_sel_le x g Hnn) as Hle. pose proof (sel_ge x g) as Hge.
  destruct (sel x g) as [|a [|c [|e [|f [|h r]]]]];
    rewrite ?gws_cons, ?gws_nil; rewrite ?zsum_cons, ?zsum_nil in Hle; rewrite ?Forall_cons_iff in Hge.
  - lia.
  - pose proof (w119_spec T C x a). lia.
  - pose proof (w119_spec T C x a). pose proof (w119_spec T C x c). lia.
  - pose proof (w119_spec T C x a). pose proof (w119_spec T C x c). pose proof (w119_spec T C x e). lia.
  - (* four values: each is at most T - 3 x <= (C - x) / 3 and weighs 3 *)
    assert (w119 T C x a = 3) by (pose proof (w119_spec T C x a); lia).
    assert (w119 T C x c = 3) by (pose proof (w119_spec T C x c); lia).
    assert (w119 T C x e = 3) by (pose proof (w119_spec T C x e); lia).
    assert (w119 T C x f = 3) by (pose proof (w119_spec T C x f); lia).
    lia.
  - (* five values above C - T >= 2 T / 9 do not fit into T *)
    exfalso. destruct Hge as (Ha & Hc & He & Hf & Hh & Hge).
    assert (0 <= zsum r).
    { apply zsum_nonneg. eapply Forall_impl; [|exact Hge]. intros z Hz. cbv beta in Hz. lia. }
    lia.
Qed.

(** a set of values in [x, T - 2x] that x does not fit with (capacity C) weighs at least 12,
    except for three values weighing 10 or 11, and then a value above the smallest of them
    fits in beside the values that are at least as large *)
Lemma bin119_cases T C x l : 0 <= T -> 11 * T <= 9 * C -> C - T < x -> x <= C ->
  Forall (fun a => x <= a <= T - 2 * x) l -> C < zsum l + x ->
  12 <= ws119 T C x l \/
  (10 <= ws119 T C x l /\ forall y, x <= y <= T - 2 * x -> C < zsum (sel y l) + y -> 3 * y <= C - x).
Proof.
  intros HT Hr Hx HxC Hge Hcl.
  destruct l as [|a [|c [|e [|f r]]]];
    rewrite ?gws_cons, ?gws_nil; rewrite ?zsum_cons, ?zsum_nil in Hcl; rewrite ?Forall_cons_iff in Hge.
  - lia.
  - lia.
  - left. pose proof (w119_spec T C x a). pose proof (w119_spec T C x c). lia.
  - pose proof (w119_spec T C x a) as Sa. pose proof (w119_spec T C x c) as Sc.
    pose proof (w119_spec T C x e) as Se.
    destruct (Z_le_dec 12 (w119 T C x a + (w119 T C x c + (w119 T C x e + 0)))) as [H12|H12];
      [left; exact H12|].
    right. split; [lia|]. intros y Hy.
    rewrite !sel_cons, sel_nil.
    destruct (y <=? a) eqn:Ea; destruct (y <=? c) eqn:Ec; destruct (y <=? e) eqn:Ee;
      rewrite ?zsum_cons, ?zsum_nil; intros Hfit; lia.
  - left. pose proof (gws_nonneg (w119 T C x) r (w119_nonneg T C x)).
    pose proof (w119_ge3 T C x a ltac:(lia)). pose proof (w119_ge3 T C x c ltac:(lia)).
    pose proof (w119_ge3 T C x e ltac:(lia)). pose proof (w119_ge3 T C x f ltac:(lia)). lia.
Qed.

(** ... and when all values are at most (C - x)/3 there is no exception *)
Lemma bin119_small T C x l :
  Forall (fun a => x <= a /\ 3 * a <= C - x) l -> x <= C -> C < zsum l + x -> 12 <= ws119 T C x l.
Proof.
  intros Hge HxC Hcl.
  destruct l as [|a [|c [|e [|f r]]]];
    rewrite ?gws_cons; rewrite ?zsum_cons, ?zsum_nil in Hcl; rewrite ?Forall_cons_iff in Hge;
    try lia. (* up to three values of at most (C - x)/3 leave room for x *)
  pose proof (gws_nonneg (w119 T C x) r (w119_nonneg T C x)).
  pose proof (w119_ge3 T C x a ltac:(lia)). pose proof (w119_ge3 T C x c ltac:(lia)).
  pose proof (w119_ge3 T C x e ltac:(lia)). pose proof (w119_ge3 T C x f ltac:(lia)). lia.
Qed.

(** ---- 2. the bins of first-fit on a descending list are heavy: at most one of them weighs
        less than 12 (10 or 11); after such a bin every value is at most (C - x)/3 ---- *)
Section Heavy119.
  Context {A : Type} (valueof : A -> Z).
  Notation vals bn := (map valueof (snd bn)).
  Notation cw T C x b := (ws119 T C x (map valueof (contents b))).

  Lemma cw119_cons T C x bn (t : bins A) :
    cw T C x (bn :: t) = ws119 T C x (sel x (vals bn)) + cw T C x t.
  Proof.
    rewrite contents_cons, map_app, gws_app.
    rewrite (gws_sel (w119 T C x) x _ (w119_small T C x)). reflexivity.
  Qed.

  Lemma heavy119_small T C x : x <= C -> forall t : bins A, closed valueof C x t ->
    Forall (fun y => 3 * valueof y <= C - x) (contents t) ->
    12 * Z.of_nat (length t) <= cw T C x t.
  Proof.
    intros HxC. induction t as [|bn t IH]; intros Hcl Hsm.
    - cbn [length Z.of_nat]. unfold contents, lists. cbn [map concat]. rewrite gws_nil. lia.
    - unfold closed in Hcl. apply Forall_cons_iff in Hcl. destruct Hcl as [Hc Hcl].
      rewrite contents_cons in Hsm. apply Forall_app in Hsm. destruct Hsm as [Hsm1 Hsm2].
      specialize (IH Hcl Hsm2). rewrite cw119_cons. cbn [length]. rewrite Nat2Z.inj_succ.
      assert (H12 : 12 <= ws119 T C x (sel x (vals bn))).
      { apply bin119_small; [|exact HxC|exact Hc].
        apply Forall_forall. intros a Ha. split.
        - pose proof (sel_ge x (vals bn)) as Hg. rewrite Forall_forall in Hg. apply Hg. exact Ha.
        - assert (Hs : Forall (fun a => 3 * a <= C - x) (sel x (vals bn))).
          { apply sel_incl. rewrite Forall_map. exact Hsm1. }
          rewrite Forall_forall in Hs. apply Hs. exact Ha. }
      lia.
  Qed.

  Lemma heavy119 T C x : 0 <= T -> 11 * T <= 9 * C -> C - T < x -> x <= C ->
    forall t : bins A, closed valueof C x t -> sfit2 valueof C t ->
    Forall (fun y => x <= valueof y <= T - 2 * x) (contents t) ->
    12 * Z.of_nat (length t) <= cw T C x t + 2.
  Proof.
    intros HT Hr Hx HxC. induction t as [|bn t IH]; intros Hcl Hsf Hrg.
    - cbn [length Z.of_nat]. unfold contents, lists. cbn [map concat]. rewrite gws_nil. lia.
    - pose proof Hcl as Hcl0. unfold closed in Hcl. apply Forall_cons_iff in Hcl. destruct Hcl as [Hc Hcl].
      cbn [sfit2] in Hsf. destruct Hsf as [Hs1 Hsf].
      rewrite contents_cons in Hrg. apply Forall_app in Hrg. destruct Hrg as [Hrg1 Hrg2].
      rewrite cw119_cons. cbn [length]. rewrite Nat2Z.inj_succ.
      assert (Hin : Forall (fun a => x <= a <= T - 2 * x) (sel x (vals bn))).
      { apply sel_incl. rewrite Forall_map. exact Hrg1. }
      destruct (bin119_cases T C x (sel x (vals bn)) HT Hr Hx HxC Hin Hc) as [H12|(H10 & HM)].
      + specialize (IH Hcl Hsf Hrg2). lia.
      + assert (Hsm : Forall (fun y => 3 * valueof y <= C - x) (contents t)).
        { rewrite Forall_forall in *. intros y Hy. specialize (Hs1 y Hy). cbv beta in Hs1.
          specialize (Hrg2 y Hy). cbv beta in Hrg2.
          apply (HM (valueof y) Hrg2). rewrite sel_sel; [exact Hs1|lia]. }
        pose proof (heavy119_small T C x HxC t Hcl Hsm). lia.
  Qed.
End Heavy119.

(** ---- 3. first-fit on a descending list, started on no bins, when bin k+1 is opened ---- *)
Section Overflow.
  Context {A : Type} (valueof : A -> Z).
  Notation place := (ff_place valueof true).

  Lemma ff_place_length C x (b : bins A) :
    length (place C x b) = length b \/
    (length (place C x b) = S (length b) /\ Forall (fun c => C < fst c + valueof x) b).
  Proof.
    induction b as [|bn t IH]; cbn [ff_place].
    - right. split; [reflexivity|constructor].
    - destruct (fst bn + valueof x <=? C) eqn:E.
      + left. reflexivity.
      + cbn [length]. destruct IH as [IH|[IH1 IH2]].
        * left. rewrite IH. reflexivity.
        * right. split; [rewrite IH1; reflexivity|constructor; [lia|exact IH2]].
  Qed.

  (** if first-fit ends with more than k bins, some item x found k bins, none of which it fits *)
  Lemma ff_loop_overflow C k : forall items (b0 b : bins A),
    ff_loop valueof true C items b0 = Ok b -> (length b0 <= k)%nat -> (k < length b)%nat ->
    exists l1 x l2 b1, items = l1 ++ x :: l2 /\ ff_loop valueof true C l1 b0 = Ok b1 /\
      length b1 = k /\ valueof x <= C /\ Forall (fun c => C < fst c + valueof x) b1.
  Proof.
    induction items as [|x t IH]; intros b0 b H Hl0 Hl; cbn [ff_loop] in H.
    - injection H as H. subst b. lia.
    - destruct (valueof x >? C) eqn:E; [discriminate H|].
      destruct (le_lt_dec (length (place C x b0)) k) as [Hle|Hgt].
      + destruct (IH _ _ H Hle Hl) as (l1 & y & l2 & b1 & E1 & E2 & E3 & E4 & E5).
        exists (x :: l1), y, l2, b1. split; [rewrite E1; reflexivity|].
        split; [cbn [ff_loop]; rewrite E; exact E2|]. auto.
      + destruct (ff_place_length C x b0) as [Hp|[Hp1 Hp2]]; [lia|].
        exists [], x, t, b0. split; [reflexivity|]. split; [reflexivity|].
        split; [lia|]. split; [lia|exact Hp2].
  Qed.
End Overflow.

Lemma ff_loop_app {A} (valueof : A -> Z) keep C : forall l1 l2 b0,
  ff_loop valueof keep C (l1 ++ l2) b0 = rbind (ff_loop valueof keep C l1 b0) (ff_loop valueof keep C l2).
Proof.
  induction l1 as [|x l1 IH]; intros l2 b0; cbn [app ff_loop]; [reflexivity|].
  destruct (valueof x >? C); [reflexivity|apply IH].
Qed.

Lemma ff_place_full {A} (valueof : A -> Z) C x (b : bins A) :
  Forall (fun c => C < fst c + valueof x) b -> length (ff_place valueof true C x b) = S (length b).
Proof.
  induction b as [|bn t IH]; intros H; cbn [ff_place]; [reflexivity|].
  apply Forall_cons_iff in H. destruct H as [H1 H2].
  destruct (fst bn + valueof x <=? C) eqn:E; [lia|]. cbn [length]. rewrite IH by exact H2. reflexivity.
Qed.

Lemma ff_loop_start C L : L <> [] -> ff_loop idZ true C L (new_bins 1) = ff_loop idZ true C L [].
Proof.
  intros Hne. destruct L as [|a L]; [congruence|]. cbn [ff_loop].
  destruct (a >? C) eqn:E; [reflexivity|]. unfold new_bins, empty_bin. cbn [repeat ff_place fst].
  destruct (0 + a <=? C) eqn:E2; [reflexivity|lia].
Qed.

Lemma sorted_app_mid {T} (R : T -> T -> Prop) l1 x l2 :
  StronglySorted R (l1 ++ x :: l2) -> Forall (fun a => R a x) l1.
Proof.
  intros H. apply StronglySorted_app_inv in H. destruct H as (_ & _ & H).
  eapply Forall_impl; [|exact H]. intros a Ha. exact (Forall_inv Ha).
Qed.

Lemma ff_loop_nil_inv C l1 b1 : l1 <> [] -> Forall (fun v => 0 <= v) l1 -> desc l1 ->
  ff_loop idZ true C l1 [] = Ok b1 ->
  wf idZ b1 /\ Permutation (contents b1) l1 /\ sfit2 idZ C b1.
Proof.
  intros Hne Hnn Hs H. rewrite <- (ff_loop_start C l1 Hne) in H.
  destruct (ff_Inv idZ C l1 b1 Hne Hnn H) as (Hw & _ & Hp & _).
  split; [exact Hw|]. split; [exact Hp|].
  apply (ff_loop_sfit2 idZ C l1 (new_bins 1) b1); [exact Hs|exact Hnn| | | |exact H].
  - rewrite new_bins_contents. constructor.
  - apply new_bins_wf.
  - unfold new_bins. cbn [repeat sfit2]. split; [apply Forall_nil|exact I].
Qed.

Lemma ffd_overflow C k L b : (1 <= k)%nat -> desc L -> Forall (fun v => 0 <= v) L ->
  ff_loop idZ true C L [] = Ok b -> (k < length b)%nat ->
  exists l1 x l2 b1, L = l1 ++ x :: l2 /\ ff_loop idZ true C l1 [] = Ok b1 /\ length b1 = k /\
    x <= C /\ Forall (fun c => C < fst c + x) b1 /\
    wf idZ b1 /\ Permutation (contents b1) l1 /\ sfit2 idZ C b1.
Proof.
  intros Hk Hs Hnn H Hlen.
  destruct (ff_loop_overflow idZ C k L [] b H ltac:(cbn [length]; lia) Hlen)
    as (l1 & x & l2 & b1 & -> & E2 & E3 & E4 & E5).
  assert (Hne : l1 <> []).
  { intros E. subst l1. cbn [ff_loop] in E2. injection E2 as <-. cbn [length] in E3. lia. }
  apply Forall_app in Hnn. destruct Hnn as [Hn1 _].
  destruct (ff_loop_nil_inv C l1 b1 Hne Hn1 (proj1 (StronglySorted_app_inv _ _ _ Hs)) E2) as (Hw & Hpc & Hsf).
  exists l1, x, l2, b1. auto 10.
Qed.

(** volume: if the values fit into k bins of capacity T, the overflowing value exceeds C - T *)
Lemma overflow_big C T k l1 x l2 (b1 : bins Z) : (1 <= k)%nat -> GPack T (l1 ++ x :: l2) k ->
  Forall (fun v => 0 <= v) (x :: l2) -> length b1 = k -> wf idZ b1 -> Permutation (contents b1) l1 ->
  Forall (fun c => C < fst c + x) b1 -> C - T < x.
Proof.
  intros Hk Hpack Hn2 Hlen Hw Hpc Hfull. apply Forall_cons_iff in Hn2. destruct Hn2 as [Hx Hn2].
  pose proof (gpack_total T _ k Hpack) as Htot. rewrite zsum_app, zsum_cons in Htot.
  pose proof (zsum_nonneg l2 Hn2) as H2.
  assert (E : zsum l1 = zsum (sums b1)).
  { rewrite (wf_total idZ b1 Hw), map_id. symmetry. apply zsum_perm. exact Hpc. }
  assert (Hs : Forall (fun s => C - x + 1 <= s) (sums b1)).
  { unfold sums. rewrite Forall_map. eapply Forall_impl; [|exact Hfull]. intros c Hc. cbv beta in Hc. lia. }
  pose proof (zsum_ge_bound _ _ Hs) as Hb.
  replace (length (sums b1)) with k in Hb by (unfold sums; rewrite map_length; symmetry; exact Hlen).
  destruct (Z_lt_le_dec (C - T) x) as [Hlt|Hle]; [exact Hlt|exfalso].
  assert (Z.of_nat k * (T + 1) <= Z.of_nat k * (C - x + 1)) by (apply Z.mul_le_mono_nonneg_l; lia).
  lia.
Qed.

Lemma closed_of_full C x (b1 : bins Z) : wf idZ b1 -> Forall (fun v => x <= v) (contents b1) ->
  Forall (fun c => C < fst c + x) b1 -> closed idZ C x b1.
Proof.
  unfold closed, wf. induction b1 as [|bn t IH]; intros Hw Hge Hf; [constructor|].
  apply Forall_cons_iff in Hw. destruct Hw as [Hw1 Hw2].
  apply Forall_cons_iff in Hf. destruct Hf as [Hf1 Hf2].
  rewrite contents_cons in Hge. apply Forall_app in Hge. destruct Hge as [Hg1 Hg2].
  constructor; [|apply IH; assumption].
  unfold wf_bin in Hw1. rewrite sel_all; [lia|]. rewrite Forall_map. exact Hg1.
Qed.

Lemma desc_head_max a l : desc (a :: l) -> Forall (fun v => v <= a) l.
Proof. intros H. inversion H as [|a' l' _ Ha]; subst. exact Ha. Qed.

(** ---- 4. peeling off the first bin ----
    what first-fit puts into a bin of level s (fst) and what it leaves (snd) *)
Fixpoint fill (C s : Z) (L : list Z) : list Z * list Z :=
  match L with
  | [] => ([], [])
  | v :: t => if s + v <=? C then (v :: fst (fill C (s + v) t), snd (fill C (s + v) t))
              else (fst (fill C s t), v :: snd (fill C s t))
  end.

Lemma fill_perm C : forall L s, Permutation L (fst (fill C s L) ++ snd (fill C s L)).
Proof.
  induction L as [|v L IH]; intros s; cbn [fill]; [apply Permutation_refl|].
  destruct (s + v <=? C); cbn [fst snd].
  - cbn [app]. apply perm_skip, IH.
  - apply Permutation_cons_app, IH.
Qed.

Lemma fill_Forall (P : Z -> Prop) C L s : Forall P L ->
  Forall P (fst (fill C s L)) /\ Forall P (snd (fill C s L)).
Proof. intros H. apply Forall_app. eapply Permutation_Forall; [apply fill_perm|exact H]. Qed.

Lemma fill_sorted C : forall L s, desc L -> desc (snd (fill C s L)).
Proof.
  induction L as [|v L IH]; intros s Hs; cbn [fill]; [constructor|].
  inversion Hs as [|v' L' Hs' Hv]; subst.
  destruct (s + v <=? C); cbn [snd]; [apply IH; exact Hs'|].
  constructor; [apply IH; exact Hs'|]. apply (fill_Forall _ C L s Hv).
Qed.

Lemma ff_peel C : forall L (bn : bin Z) t b, ff_loop idZ true C L (bn :: t) = Ok b ->
  exists t', ff_loop idZ true C (snd (fill C (fst bn) L)) t = Ok t' /\ length b = S (length t').
Proof.
  induction L as [|v L IH]; intros bn t b H; cbn [ff_loop] in H.
  - injection H as H. subst b. exists t. split; reflexivity.
  - destruct (v >? C) eqn:Ev; [discriminate H|]. cbn [ff_place] in H. cbn [fill].
    destruct (fst bn + v <=? C) eqn:E.
    + destruct (IH _ _ _ H) as (t' & H1 & H2). exists t'. cbn [snd].
      unfold add_to_bin in H1. cbn [fst] in H1. split; assumption.
    + destruct (IH _ _ _ H) as (t' & H1 & H2). exists t'. cbn [snd]. split; [|exact H2].
      cbn [ff_loop]. rewrite Ev. exact H1.
Qed.

Lemma fill_dom1 C : forall L s o, desc L -> In o L -> s + o <= C ->
  exists f rest, fst (fill C s L) = f :: rest /\ o <= f.
Proof.
  induction L as [|v L IH]; intros s o Hs Hin Hfit; [destruct Hin|].
  inversion Hs as [|v' L' Hs' Hv]; subst. cbn [fill].
  destruct (s + v <=? C) eqn:E; cbn [fst].
  - exists v, (fst (fill C (s + v) L)). split; [reflexivity|].
    destruct Hin as [->|Hin]; [lia|]. rewrite Forall_forall in Hv. apply Hv. exact Hin.
  - destruct Hin as [->|Hin]; [lia|]. apply IH; assumption.
Qed.

Lemma dom_one f2 rest o2 : Forall (fun v => 0 <= v) rest -> o2 <= f2 -> Dom (f2 :: rest) [o2].
Proof.
  intros Hnn H2. destruct (dom_nil rest Hnn) as (G0 & HF & HP). exists ([o2] :: G0). split.
  - constructor; [|exact HF]. rewrite zsum_cons, zsum_nil. lia.
  - cbn [concat app]. apply perm_skip. exact HP.
Qed.

(** when the largest value a leaves room for at most one value >= x beside it (a + 2 x > T), the
    first bin of first-fit dominates the rest of the bin of a in the packing; by the exchange
    lemma the values outside first-fit's first bin fit into k bins *)
Lemma peel_first_bin T C k x a L0 b : T <= C -> 0 < x -> T < a + 2 * x ->
  desc (a :: L0) -> Forall (fun v => x <= v) L0 -> GPack T (a :: L0) (S k) ->
  ff_loop idZ true C (a :: L0) [] = Ok b ->
  exists L1 t, desc L1 /\ Forall (fun v => 0 <= v) L1 /\ GPack T L1 k /\
    ff_loop idZ true C L1 [] = Ok t /\ length b = S (length t).
Proof.
  intros HTC Hx Hlarge Hs Hge HG H. inversion Hs as [|a' L' Hs0 Ha]; subst.
  destruct (gpack_head T a L0 (S k) HG) as (B & R' & m & Em & HPB & HsumB & HGR). injection Em as <-.
  assert (HgeB : Forall (fun v => x <= v) B).
  { apply (Permutation_Forall HPB) in Hge. apply Forall_app in Hge. apply Hge. }
  assert (Hnn0 : Forall (fun v => 0 <= v) L0).
  { eapply Forall_impl; [|exact Hge]. intros v Hv. cbv beta in Hv. lia. }
  destruct (fill_Forall (fun v => 0 <= v) C L0 a Hnn0) as [Htk Hlf].
  assert (HD : Dom (fst (fill C a L0)) B).
  { destruct B as [|o2 [|o3 B']].
    - apply dom_nil. exact Htk.
    - rewrite zsum_cons, zsum_nil in HsumB.
      assert (Hin : In o2 L0) by (eapply Permutation_in; [symmetry; exact HPB|left; reflexivity]).
      destruct (fill_dom1 C L0 a o2 Hs0 Hin ltac:(lia)) as (f & rest & E & Hf).
      rewrite E in *. apply Forall_cons_iff in Htk. apply dom_one; [apply Htk|exact Hf].
    - exfalso. rewrite !zsum_cons in HsumB. rewrite !Forall_cons_iff in HgeB.
      destruct HgeB as (Ho2 & Ho3 & HgeB).
      assert (0 <= zsum B').
      { apply zsum_nonneg. eapply Forall_impl; [|exact HgeB]. intros v Hv. cbv beta in Hv. lia. }
      lia. }
  cbn [ff_loop] in H. destruct (a >? C) eqn:Ea; [discriminate H|]. cbn [ff_place] in H.
  destruct (ff_peel C L0 _ [] _ H) as (t' & H1 & H2).
  unfold add_to_bin, empty_bin in H1. cbn [fst] in H1. rewrite Z.add_0_l in H1.
  exists (snd (fill C a L0)), t'. split; [apply fill_sorted; exact Hs0|]. split; [exact Hlf|].
  split; [|split; assumption].
  apply (dom_exchange T k (fst (fill C a L0)) B (snd (fill C a L0)) R'); [| |exact HD|exact HGR].
  - eapply Forall_impl; [|exact HgeB]. intros v Hv. cbv beta in Hv. lia.
  - eapply Permutation_trans; [symmetry; apply fill_perm|exact HPB].
Qed.

(** ---- 5. the capacity lemma ---- *)

(** when all values lie in [x, T - 2x]: the packing weighs at most 12 k, the k bins of first-fit
    at least 12 k - 2, and x weighs 3 *)
Lemma ffd_weights_119 T C k x l1 (b1 : bins Z) : 0 <= T -> 11 * T <= 9 * C -> C - T < x -> x <= C ->
  Forall (fun v => x <= v <= T - 2 * x) l1 -> GPack T (l1 ++ [x]) k ->
  wf idZ b1 -> Permutation (contents b1) l1 -> sfit2 idZ C b1 -> length b1 = k ->
  Forall (fun c => C < fst c + x) b1 -> False.
Proof.
  intros HT Hr Hx HxC Hrange HG Hw Hpc Hsf Hlen Hfull.
  assert (Hrb : Forall (fun y => x <= idZ y <= T - 2 * x) (contents b1)).
  { eapply Permutation_Forall; [symmetry; exact Hpc|exact Hrange]. }
  assert (Hcl : closed idZ C x b1).
  { apply closed_of_full; [exact Hw| |exact Hfull].
    eapply Forall_impl; [|exact Hrb]. intros v Hv. cbv beta in Hv. lia. }
  pose proof (heavy119 idZ T C x HT Hr Hx HxC b1 Hcl Hsf Hrb) as Hheavy.
  rewrite map_id, (gws_perm _ _ _ Hpc), Hlen in Hheavy.
  assert (Hlight : ws119 T C x (l1 ++ [x]) <= 12 * Z.of_nat k).
  { apply (packable_gws (w119 T C x) T 12).
    - intros g Hg0 Hg. apply light119; assumption.
    - apply Forall_app. split; [|constructor; [lia|constructor]].
      eapply Forall_impl; [|exact Hrange]. intros v Hv. cbv beta in Hv. lia.
    - apply gpack_packable. exact HG. }
  rewrite gws_app, gws_cons, gws_nil in Hlight.
  pose proof (w119_ge3 T C x x ltac:(lia)). lia.
Qed.

(** Induction on k.  Let x be the value that opens bin k+1 (x > C - T by volume), cut the list
    after x, let a be its largest value: peel the first bin if a + 2x > T, else weigh. *)
Lemma ffd_peel_119 T C : 0 <= T -> 11 * T <= 9 * C -> forall k L b,
  desc L -> Forall (fun v => 0 <= v) L -> GPack T L k ->
  ff_loop idZ true C L [] = Ok b -> (length b <= k)%nat.
Proof.
  intros HT0 Hr. assert (HTC : T <= C) by lia.
  induction k as [|k IH]; intros L b Hs Hnn HG H.
  - apply gpack_packable, packable_zero in HG. subst L. injection H as <-. apply Nat.le_refl.
  - destruct (le_lt_dec (length b) (S k)) as [Hle|Hgt]; [exact Hle|exfalso].
    destruct (ffd_overflow C (S k) L b ltac:(lia) Hs Hnn H Hgt)
      as (l1 & x & l2 & b1 & -> & E2 & E3 & E4 & E5 & Hw & Hpc & Hsf).
    pose proof (sorted_app_mid _ l1 x l2 Hs) as Hge. cbv beta in Hge.
    apply Forall_app in Hnn. destruct Hnn as [_ Hn2].
    pose proof (overflow_big C T (S k) l1 x l2 b1 ltac:(lia) HG Hn2 E3 Hw Hpc E5) as Hbx.
    apply Forall_cons_iff in Hn2. destruct Hn2 as [_ Hn2].
    (* the list cut after x *)
    assert (Hs1 : desc (l1 ++ [x])).
    { change (x :: l2) with ([x] ++ l2) in Hs. rewrite app_assoc in Hs. exact (proj1 (StronglySorted_app_inv _ _ _ Hs)). }
    assert (HG1 : GPack T (l1 ++ [x]) (S k)).
    { apply (gpack_remove_all T l2 Hn2). apply (gpack_perm T (l1 ++ x :: l2)); [|exact HG].
      change (x :: l2) with ([x] ++ l2). rewrite app_assoc. apply Permutation_app_comm. }
    destruct l1 as [|a l1']; [cbn [ff_loop] in E2; injection E2 as <-; discriminate E3|].
    apply Forall_cons_iff in Hge. destruct Hge as [Hga Hge].
    pose proof (desc_head_max a (l1' ++ [x]) Hs1) as Hmax.
    destruct (Z_lt_le_dec (T - 2 * x) a) as [Hlarge|Hsmall].
    + assert (HL : ff_loop idZ true C ((a :: l1') ++ [x]) [] = Ok (ff_place idZ true C x b1)).
      { rewrite ff_loop_app, E2. cbn [rbind ff_loop]. destruct (x >? C) eqn:E; [lia|reflexivity]. }
      assert (HgeL0 : Forall (fun v => x <= v) (l1' ++ [x])).
      { apply Forall_app. split; [exact Hge|constructor; [lia|constructor]]. }
      destruct (peel_first_bin T C k x a (l1' ++ [x]) _ HTC ltac:(lia) ltac:(lia) Hs1 HgeL0 HG1 HL)
        as (L1 & t & Hs' & Hnn' & HG' & H' & Hlen).
      rewrite (ff_place_full idZ C x b1 E5), E3 in Hlen.
      pose proof (IH L1 t Hs' Hnn' HG' H'). lia.
    + apply (ffd_weights_119 T C (S k) x (a :: l1') b1); try assumption.
      apply Forall_app in Hmax. destruct Hmax as [Hmax _].
      constructor; [lia|]. apply Forall_and; [exact Hge|].
      eapply Forall_impl; [|exact Hmax]. intros v Hv. cbv beta in Hv. lia.
Qed.

Lemma packable_bounds T vs k : (1 <= k)%nat -> Forall (fun v => 0 <= v) vs -> Packable T vs k ->
  0 <= T /\ Forall (fun v => v <= T) vs.
Proof.
  intros Hk Hnn (s & Hs & Hcap).
  destruct (Attainable_bounds k vs Hnn s Hs) as [B1 B2].
  pose proof (Attainable_length _ _ _ Hs) as Hlen.
  assert (Hne : s <> []) by (apply length_pos_ne; lia).
  pose proof (zmax_in s Hne) as Hin. rewrite Forall_forall in Hcap, B1.
  pose proof (Hcap _ Hin) as H1. pose proof (B1 _ Hin) as H0.
  split; [lia|]. eapply Forall_impl; [|exact B2]. intros v Hv. cbv beta in Hv. lia.
Qed.

Lemma opt_packable k vs opt : Opt MinLargest k vs opt -> Packable opt vs k.
Proof.
  intros [(s & Hs & Ev) _]. rewrite value_MinLargest in Ev. subst opt.
  exists s. split; [exact Hs|apply zmax_ge].
Qed.

(** no ValueError, and the sums-only run has as many bins as the contents-keeping run *)
Lemma ff_run C vs : Forall (fun v => v <= C) vs ->
  exists b, first_fit idZ true C vs = Ok b /\ first_fit idZ false C vs = Ok (erase b).
Proof.
  intros Hle. destruct (ff_ok idZ true C vs Hle) as [b Hb]. exists b. split; [exact Hb|].
  rewrite <- (ff_erase idZ), Hb. reflexivity.
Qed.

(** (L_11/9) first-fit-decreasing with an integer capacity c >= 11/9 T, T the largest sum of ANY
    partition of the values into k bins, never fails and uses at most k bins *)
Theorem ffd_capacity_119 k T c vs : (1 <= k)%nat -> Forall (fun v => 0 <= v) vs -> Packable T vs k ->
  11 * T <= 9 * c ->
  exists b, first_fit idZ false c (sort_desc idZ vs) = Ok b /\ (length b <= k)%nat.
Proof.
  intros Hk Hnn Hpack HC.
  destruct (packable_bounds T vs k Hk Hnn Hpack) as [HT0 Hle].
  assert (Hp : Permutation (sort_desc idZ vs) vs) by apply sort_desc_perm.
  destruct (ff_run c (sort_desc idZ vs)) as (b & Hb & Hb').
  - eapply Permutation_Forall; [symmetry; exact Hp|].
    eapply Forall_impl; [|exact Hle]. intros v Hv. cbv beta in Hv. lia.
  - exists (erase b). split; [exact Hb'|]. rewrite erase_length. unfold first_fit in Hb.
    destruct (list_eq_dec Z.eq_dec (sort_desc idZ vs) []) as [E|E].
    + rewrite E in Hb. injection Hb as <-. rewrite new_bins_length. exact Hk.
    + rewrite (ff_loop_start c _ E) in Hb.
      apply (ffd_peel_119 T c HT0 HC k (sort_desc idZ vs) b); [apply sort_desc_sorted| | |exact Hb].
      * eapply Permutation_Forall; [symmetry; exact Hp|exact Hnn].
      * apply (gpack_perm T vs); [symmetry; exact Hp|apply packable_gpack; exact Hpack].
Qed.

(** ---- 6. the rung r = 11/9 of MultiFit ---- *)
Section Rung119.
  Context {A : Type} (valueof : A -> Z).
  Variables (it k : nat) (items : list A) (b : bins A) (opt : Z).
  Hypothesis Hne : items <> [].
  Hypothesis Hnn : Forall (fun x => 0 <= valueof x) items.
  Hypothesis Hk : (1 <= k)%nat.
  Hypothesis Hrun : multifit valueof true it k items = Ok b.
  Hypothesis Hopt : Opt MinLargest k (map valueof items) opt.

  (** exact form: largest <= (11 opt + 8)/9 + opt / 2^it + opt / 2^51 *)
  Theorem multifit_ratio_119_exact : zsum (map valueof items) <= 2 ^ 53 ->
    2 ^ 51 * 2 ^ Z.of_nat it * (9 * zmax (sums b))
    <= 2 ^ 51 * 2 ^ Z.of_nat it * (11 * opt + 8) + 9 * (2 ^ 51 + 2 ^ Z.of_nat it) * opt.
  Proof.
    intros HS. replace (11 * opt + 8) with (11 * opt + 9 - 1) by lia.
    apply ceil_ratio_arith; [pose proof (pow2_pos (Z.of_nat it) ltac:(lia)); lia|lia|].
    apply (multifit_ratio_ceil valueof 11 9 it k items b opt); auto; [lia|].
    intros c Hc. apply (ffd_capacity_119 k opt c); auto.
    - apply vs_nonneg; exact Hnn.
    - apply opt_packable; exact Hopt.
  Qed.

  (** largest <= (11/9 + 2^-it) opt + 44/9 *)
  Theorem multifit_ratio_119 : zsum (map valueof items) <= 2 ^ 53 ->
    9 * 2 ^ Z.of_nat it * zmax (sums b) <= (11 * 2 ^ Z.of_nat it + 9) * opt + 44 * 2 ^ Z.of_nat it.
  Proof.
    intros HS. pose proof (multifit_ratio_119_exact HS) as H.
    pose proof (multifit_slack valueof 4 9 _ it k items b opt Hnn Hk Hopt ltac:(lia) ltac:(lia) H).
    lia.
  Qed.

  (** with a total of at most 2^51: largest <= (11/9 + 2^-it) opt + 17/9 *)
  Theorem multifit_ratio_119_small : zsum (map valueof items) <= 2 ^ 51 ->
    9 * 2 ^ Z.of_nat it * zmax (sums b) <= (11 * 2 ^ Z.of_nat it + 9) * opt + 17 * 2 ^ Z.of_nat it.
  Proof.
    intros HS. pose proof (multifit_ratio_119_exact ltac:(lia)) as H.
    pose proof (multifit_slack valueof 1 9 _ it k items b opt Hnn Hk Hopt ltac:(lia) ltac:(lia) H).
    lia.
  Qed.
End Rung119.

(** ---- 7. examples ---- *)
(** the instance on which the first bin of first-fit does not dominate the bin of the largest
    value (T = 400 = 200 + 106 + 94 = 199 + 101 + 100, k = 2): capacity 489 >= 11/9 * 400 *)
Example ffd_capacity_119_ex :
  loads 2 [200; 199; 106; 101; 100; 94] [0; 1; 0; 1; 1; 0]%nat = [400; 400] /\
  rmap (@length (bin Z)) (first_fit idZ false 489 (sort_desc idZ [200; 199; 106; 101; 100; 94])) = Ok 2%nat.
Proof. vm_compute. split; reflexivity. Qed.

(** a deficient bin of the weight argument: T = 108, c = 132, x = 26; the bin {37, 35, 35} is
    closed for x (107 + 26 > 132) and weighs 4 + 3 + 3 = 10 *)
Example w119_deficient :
  map (w119 108 132 26) [37; 35; 35; 26] = [4; 3; 3; 3] /\ 132 < 37 + 35 + 35 + 26.
Proof. vm_compute. split; reflexivity. Qed.

(* OPEN: every ratio below 11/9, in particular 61/50 (Coffman-Garey-Johnson), 6/5, 13/11.
     Theorem ffd_capacity_6150 k T c vs : (1 <= k)%nat -> Forall (fun v => 0 <= v) vs ->
       Packable T vs k -> 61 * T <= 50 * c ->
       exists b, first_fit idZ false c (sort_desc idZ vs) = Ok b /\ (length b <= k)%nat.
   What is known (from an SMT solver over the reals, not formalised): the weights [w119] and the whole argument
   above remain valid for every ratio >= 6/5 PROVIDED 5 x >= 2 T - 4 d; only the window
   d < x < (2 T - 4 d) / 5 is open (for 61/50: 0.22 T < x < 0.224 T, and then k >= 56 by
   volume).  In that window {d + x + 1, (c - x)/3 + 1, x} fits into T (weight 6 + 4 + 3), three
   values just above (c - x)/3 close a bin of first-fit, five values x fit into one bin, and
   linear programs over all bin patterns only find weights that follow the
   volume v / T closely (15 classes at scale 48, with plateaus at 2/9, 1/4, 1/3, 3/8, 4/9, 1/2, 5/9),
   with several kinds of deficient bins; the single "no later bin is deficient" argument used
   here does not suffice there. *)

Print Assumptions ffd_capacity_119.
Print Assumptions multifit_ratio_119_exact.
Print Assumptions multifit_ratio_119.
Print Assumptions multifit_ratio_119_small.
