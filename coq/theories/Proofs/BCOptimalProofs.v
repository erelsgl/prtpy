(** Optimality of the bin-completion model (Model/BinCompletion.v): [bc_optimal] proves
    [bc_optimal_statement].
    Steps: (1) packings as lists of groups; (2) a dominance relation on completions and its
    soundness (exchange argument); (3) [is_dominant] implies it; (4) the survivors of
    [check_for_dominance] dominate every candidate; (5) [find_bin_completions] is complete up to
    dominance; (6) the branch-and-bound loops keep a branch that can reach any packing better
    than the incumbent; (7) [bc_optimal]. *)
From Prtpy Require Import Base.Prelude Model.Binner Model.Packing Model.CG Model.BinCompletion
  Spec.Partition Proofs.BaseLemmas Proofs.BinnerLemmas Proofs.PackingProofs Proofs.CoveringProofs
  Proofs.BCProofs.
From Coq Require Import ZifyBool.

Notation nonzero := (fun v : Z => negb (v =? 0)).

Definition bc_optimal_statement : Prop :=
  forall C fuel items b, 0 < C -> Forall (fun v => 0 <= v) items ->
    bin_completion true C fuel items = Ok b ->
    MinBins C (filter nonzero items) (length b).

(** ---- 1. packings as lists of groups ---- *)

Definition GPack (C : Z) (vs : list Z) (n : nat) : Prop :=
  exists G : list (list Z), length G = n /\ Permutation (concat G) vs /\
                            Forall (fun g => zsum g <= C) G.

Lemma gpack_packable C vs n : GPack C vs n -> Packable C vs n.
Proof.
  intros (G & HL & HP & HF). rewrite <- HL.
  replace (length G) with (length (map (fun g : list Z => (zsum g, g)) G)) by apply map_length.
  apply packing_packable. unfold is_packing. repeat split.
  - unfold contents, lists. rewrite map_map. cbn [snd]. rewrite map_id. exact HP.
  - unfold feasible. rewrite Forall_map. cbn [fst]. exact HF.
  - unfold wf. rewrite Forall_map. apply Forall_forall. intros g _.
    unfold wf_bin. cbn [fst snd]. rewrite map_zid. reflexivity.
Qed.

Lemma lrun_groups : forall ps (G : list (list Z)),
  Forall (fun p : Z * nat => (snd p < length G)%nat) ps ->
  exists G', length G' = length G /\ Permutation (concat G') (map fst ps ++ concat G) /\
             lrun ps (map zsum G) = map zsum G'.
Proof.
  induction ps as [|[v i] t IH]; intros G HF.
  - exists G. repeat split. apply Permutation_refl.
  - inversion HF as [|p l Hp Ht]; subst p l. cbn [snd] in Hp.
    destruct (IH (update i (cons v) G)) as (G' & HL & HP & HR).
    { rewrite update_length. exact Ht. }
    exists G'. rewrite update_length in HL. repeat split; [exact HL| |].
    + apply Permutation_trans with (map fst t ++ concat (update i (cons v) G)); [exact HP|].
      cbn [map fst]. apply Permutation_trans with (map fst t ++ v :: concat G).
      * apply Permutation_app_head. apply concat_update_cons. exact Hp.
      * perm_solve.
    + unfold lrun in *. cbn [fold_left]. rewrite <- HR. f_equal. unfold lstep. cbn [fst snd].
      symmetry. apply map_update. intros g. rewrite zsum_cons. lia.
Qed.

Lemma packable_gpack C vs n : Packable C vs n -> GPack C vs n.
Proof.
  intros (s & HA & HF). apply Attainable_pairs in HA. destruct HA as (ps & Hm & Hlt & Hs).
  destruct (lrun_groups ps (repeat [] n)) as (G' & HL & HP & HR).
  { rewrite repeat_length. exact Hlt. }
  rewrite repeat_length in HL. rewrite map_repeat_eq, zsum_nil, Hs in HR.
  rewrite concat_repeat_nil, app_nil_r, Hm in HP.
  exists G'. repeat split; [exact HL|exact HP|].
  rewrite HR in HF. rewrite Forall_map in HF. exact HF.
Qed.

Lemma gpack_iff C vs n : Packable C vs n <-> GPack C vs n.
Proof. split; [apply packable_gpack|apply gpack_packable]. Qed.

Lemma gpack_perm C vs vs' n : Permutation vs vs' -> GPack C vs n -> GPack C vs' n.
Proof.
  intros HP (G & HL & HG & HF). exists G. repeat split; [exact HL| |exact HF].
  apply Permutation_trans with vs; assumption.
Qed.

Lemma in_concat_split (a : Z) (G : list (list Z)) : In a (concat G) ->
  exists G1 h1 h2 G2, G = G1 ++ (h1 ++ a :: h2) :: G2.
Proof.
  intros H. apply in_concat in H. destruct H as (h & Hh & Ha).
  apply in_split in Hh. destruct Hh as (G1 & G2 & EG).
  apply in_split in Ha. destruct Ha as (h1 & h2 & Eh). subst h.
  exists G1, h1, h2, G2. exact EG.
Qed.

Lemma gpack_locate C a R n : GPack C (a :: R) n ->
  exists G1 h1 h2 G2, n = S (length (G1 ++ G2)) /\
    Permutation (concat G1 ++ h1 ++ h2 ++ concat G2) R /\
    Forall (fun g => zsum g <= C) G1 /\ zsum h1 + a + zsum h2 <= C /\ Forall (fun g => zsum g <= C) G2.
Proof.
  intros (G & HL & HP & HF).
  assert (Hin : In a (concat G)).
  { eapply Permutation_in; [apply Permutation_sym; exact HP|left; reflexivity]. }
  destruct (in_concat_split a G Hin) as (G1 & h1 & h2 & G2 & EG). subst G.
  apply Forall_app in HF. destruct HF as [HF1 HF2]. inversion HF2 as [|h l Hh HF3]; subst h l.
  exists G1, h1, h2, G2. repeat split; [| |exact HF1| |exact HF3].
  - rewrite <- HL, !app_length. cbn [length]. lia.
  - rewrite concat_app in HP. cbn [concat] in HP. apply (Permutation_cons_inv (a := a)).
    apply Permutation_trans with (concat G1 ++ (h1 ++ a :: h2) ++ concat G2); [perm_solve|exact HP].
  - rewrite zsum_app, zsum_cons in Hh. lia.
Qed.

(** an item may be replaced by items of no larger total *)
Lemma gpack_replace C a g R n : zsum g <= a -> GPack C (a :: R) n -> GPack C (g ++ R) n.
Proof.
  intros Hg H. destruct (gpack_locate C a R n H) as (G1 & h1 & h2 & G2 & HL & HR & HF1 & Hh & HF2).
  exists (G1 ++ (h1 ++ g ++ h2) :: G2). repeat split.
  - rewrite HL, !app_length. cbn [length]. lia.
  - rewrite concat_app. cbn [concat].
    apply Permutation_trans with (g ++ concat G1 ++ h1 ++ h2 ++ concat G2); [perm_solve|].
    apply Permutation_app_head. exact HR.
  - apply Forall_app. split; [exact HF1|]. constructor; [|exact HF2]. rewrite !zsum_app. lia.
Qed.

Lemma gpack_remove C a R n : 0 <= a -> GPack C (a :: R) n -> GPack C R n.
Proof. intros Ha H. apply (gpack_replace C a [] R n); [exact Ha|exact H]. Qed.

Lemma gpack_remove_all C A : Forall (fun a => 0 <= a) A ->
  forall R n, GPack C (A ++ R) n -> GPack C R n.
Proof.
  induction 1 as [|a A' Ha HA IH]; intros R n H; [exact H|].
  apply IH. apply (gpack_remove C a); [exact Ha|exact H].
Qed.

(** the bin of the first item *)
Lemma gpack_head C x R n : GPack C (x :: R) n ->
  exists B R' m, n = S m /\ Permutation R (B ++ R') /\ x + zsum B <= C /\ GPack C R' m.
Proof.
  intros H. destruct (gpack_locate C x R n H) as (G1 & h1 & h2 & G2 & HL & HR & HF1 & Hh & HF2).
  exists (h1 ++ h2), (concat (G1 ++ G2)), (length (G1 ++ G2)). repeat split.
  - exact HL.
  - rewrite concat_app. apply Permutation_trans with (concat G1 ++ h1 ++ h2 ++ concat G2);
      [apply Permutation_sym; exact HR|perm_solve].
  - rewrite zsum_app. lia.
  - exists (G1 ++ G2). repeat split; [apply Permutation_refl|]. apply Forall_app. split; assumption.
Qed.

Lemma gpack_add_bin C g R n : zsum g <= C -> GPack C R n -> GPack C (g ++ R) (S n).
Proof.
  intros Hg (G & HL & HP & HF). exists (g :: G). repeat split.
  - cbn [length]. rewrite HL. reflexivity.
  - cbn [concat]. apply Permutation_app_head. exact HP.
  - constructor; assumption.
Qed.

(** ---- 2. dominance between completions and the exchange argument ---- *)

(** the items of B can be packed into bins whose capacities are the items of A *)
Definition Dom (A B : list Z) : Prop :=
  exists G, Forall2 (fun a g => zsum g <= a) A G /\ Permutation (concat G) B.

Lemma pos_zsum_nil l : Forall (fun v => 0 < v) l -> zsum l <= 0 -> l = [].
Proof.
  intros HF Hs. destruct l as [|x t]; [reflexivity|]. exfalso.
  inversion HF as [|y l Hx Ht]; subst y l. rewrite zsum_cons in Hs.
  assert (H0 : 0 <= zsum t).
  { apply zsum_nonneg. eapply Forall_impl; [|exact Ht]. intros v Hv. cbv beta in Hv. lia. }
  lia.
Qed.

(** an item present on both sides can be cancelled *)
Lemma dom_cancel a A' g G' B :
  zsum g <= a -> Forall2 (fun a g => zsum g <= a) A' G' ->
  Permutation (g ++ concat G') B -> In a B -> Forall (fun v => 0 < v) B ->
  exists B', Permutation B (a :: B') /\ Dom A' B'.
Proof.
  intros Hg HF2 HP Hin Hpos.
  assert (Hin' : In a (g ++ concat G')).
  { eapply Permutation_in; [apply Permutation_sym; exact HP|exact Hin]. }
  apply in_app_or in Hin'. destruct Hin' as [Hin'|Hin'].
  - apply in_split in Hin'. destruct Hin' as (g1 & g2 & Eg). subst g.
    assert (Hp12 : Forall (fun v => 0 < v) (g1 ++ g2)).
    { apply (Permutation_Forall (Permutation_sym HP)) in Hpos.
      apply Forall_app in Hpos. destruct Hpos as [Hpos _].
      apply Forall_app in Hpos. destruct Hpos as [Hp1 Hp2].
      inversion Hp2 as [|y l _ Hp3]; subst y l. apply Forall_app. split; assumption. }
    assert (E : g1 ++ g2 = []).
    { apply pos_zsum_nil; [exact Hp12|]. rewrite !zsum_app in *. rewrite zsum_cons in Hg. lia. }
    apply app_eq_nil in E. destruct E as [E1 E2]. subst g1 g2. cbn [app] in HP.
    exists (concat G'). split; [apply Permutation_sym; exact HP|].
    exists G'. split; [exact HF2|apply Permutation_refl].
  - destruct (in_concat_split a G' Hin') as (G1 & h1 & h2 & G2 & EG). subst G'.
    apply Forall2_app_inv_r in HF2. destruct HF2 as (A1 & A2 & HF1 & HF3 & EA).
    inversion HF3 as [|d h A3 G3 Hd HF4]; subst. 
    exists (concat (G1 ++ (h1 ++ g ++ h2) :: G2)). split.
    + apply Permutation_trans with (g ++ concat (G1 ++ (h1 ++ a :: h2) :: G2));
        [apply Permutation_sym; exact HP|].
      rewrite !concat_app. cbn [concat]. perm_solve.
    + exists (G1 ++ (h1 ++ g ++ h2) :: G2). split; [|apply Permutation_refl].
      apply Forall2_app; [exact HF1|]. constructor; [|exact HF4].
      rewrite !zsum_app in *. rewrite zsum_cons in Hd. lia.
Qed.

(** exchange: if the items outside B can be packed into n bins then so can the items outside A *)
Lemma dom_exchange C n : forall A B RA RB,
  Forall (fun v => 0 < v) B -> Permutation (A ++ RA) (B ++ RB) -> Dom A B ->
  GPack C RB n -> GPack C RA n.
Proof.
  induction A as [|a A' IH]; intros B RA RB Hpos HP (G & HF2 & HG) HK.
  - inversion HF2; subst. cbn [concat] in HG. apply Permutation_nil in HG. subst B.
    cbn [app] in HP. apply (gpack_perm C RB); [apply Permutation_sym; exact HP|exact HK].
  - inversion HF2 as [|a0 g A0 G' Hg HF3]; subst. cbn [concat] in HG.
    destruct (in_dec Z.eq_dec a B) as [Hin|Hnin].
    + destruct (dom_cancel a A' g G' B Hg HF3 HG Hin Hpos) as (B' & HB & HD).
      apply (IH B' RA RB); [| |exact HD|exact HK].
      * apply (Permutation_Forall HB) in Hpos. inversion Hpos; assumption.
      * apply (Permutation_cons_inv (a := a)).
        apply Permutation_trans with (B ++ RB); [exact HP|].
        change (a :: B' ++ RB) with ((a :: B') ++ RB). apply Permutation_app_tail. exact HB.
    + assert (HinR : In a RB).
      { assert (H : In a (B ++ RB)) by (eapply Permutation_in; [exact HP|left; reflexivity]).
        apply in_app_or in H. destruct H as [H|H]; [contradiction|exact H]. }
      apply in_split in HinR. destruct HinR as (R1 & R2 & ER). subst RB.
      apply (IH (concat G') RA (g ++ R1 ++ R2)).
      * apply (Permutation_Forall (Permutation_sym HG)) in Hpos.
        apply Forall_app in Hpos. destruct Hpos as [_ Hpos]. exact Hpos.
      * apply (Permutation_cons_inv (a := a)).
        apply Permutation_trans with (B ++ R1 ++ a :: R2); [exact HP|].
        apply Permutation_trans with ((g ++ concat G') ++ R1 ++ a :: R2);
          [apply Permutation_app_tail, Permutation_sym; exact HG|perm_solve].
      * exists G'. split; [exact HF3|apply Permutation_refl].
      * apply (gpack_replace C a g (R1 ++ R2) n Hg).
        apply (gpack_perm C (R1 ++ a :: R2)); [perm_solve|exact HK].
Qed.

(** ---- 3. the dominance test implies dominance ---- *)

Lemma place_in_slots_spec x : forall caps caps', In caps' (place_in_slots x caps) ->
  exists p c s, caps = p ++ c :: s /\ caps' = p ++ (c - x) :: s /\ x <= c.
Proof.
  induction caps as [|c t IH]; intros caps' H; cbn [place_in_slots] in H; [destruct H|].
  apply in_app_or in H. destruct H as [H|H].
  - destruct (x <=? c) eqn:E; [|destruct H]. destruct H as [H|H]; [|destruct H]. subst caps'.
    exists [], c, t. repeat split. lia.
  - apply in_map_iff in H. destruct H as (r & Er & Hr). subst caps'.
    destruct (IH r Hr) as (p & c' & s & E1 & E2 & Hle). subst t r.
    exists (c :: p), c', s. repeat split. exact Hle.
Qed.

Lemma dom_nil caps : Forall (fun c => 0 <= c) caps -> Dom caps [].
Proof.
  intros Hnn. exists (map (fun _ => []) caps). split.
  - induction Hnn as [|c cs Hc _ IHc]; cbn [map]; constructor; [exact Hc|exact IHc].
  - clear Hnn. induction caps as [|c cs IHc]; [apply Permutation_refl|].
    cbn [map concat app]. exact IHc.
Qed.

Lemma fits_some_dom : forall l caps, fits_some l caps = true -> Forall (fun c => 0 <= c) caps ->
  Dom caps l.
Proof.
  induction l as [|x t IH]; intros caps H Hnn.
  - apply dom_nil. exact Hnn.
  - cbn [fits_some] in H. apply existsb_exists in H. destruct H as (caps' & Hin & Hfit).
    destruct (place_in_slots_spec x caps caps' Hin) as (p & c & s & E1 & E2 & Hle). subst caps caps'.
    apply Forall_app in Hnn. destruct Hnn as [Hnp Hns].
    inversion Hns as [|c0 s0 Hc Hs]; subst c0 s0.
    destruct (IH (p ++ (c - x) :: s) Hfit) as (G & HF2 & HG).
    { apply Forall_app. split; [exact Hnp|]. constructor; [lia|exact Hs]. }
    apply Forall2_app_inv_l in HF2. destruct HF2 as (Gp & G2 & HFp & HF3 & EG).
    inversion HF3 as [|c0 g s0 Gs Hg HFs]; subst.
    exists (Gp ++ (x :: g) :: Gs). split.
    + apply Forall2_app; [exact HFp|]. constructor; [|exact HFs]. rewrite zsum_cons. lia.
    + rewrite concat_app in *. cbn [concat] in *.
      apply Permutation_trans with (x :: concat Gp ++ g ++ concat Gs); [perm_solve|].
      apply perm_skip. exact HG.
Qed.

(** completion A of the bin is at least as good as completion B, for the remaining items M *)
Definition Better (C : Z) (M A B : list Z) : Prop :=
  forall n, GPack C (list_without M B) n -> GPack C (list_without M A) n.

Lemma better_refl C M A : Better C M A A.
Proof. intros n H. exact H. Qed.

Lemma better_trans C M A B D : Better C M A B -> Better C M B D -> Better C M A D.
Proof. intros H1 H2 n H. apply H1, H2, H. Qed.

Lemma sub_multiset_pos c l : Forall (fun v => 0 < v) l -> sub_multiset c l = true ->
  Forall (fun v => 0 < v) c.
Proof.
  intros Hpos H. apply list_without_perm in H.
  apply (Permutation_Forall (Permutation_sym H)) in Hpos.
  apply Forall_app in Hpos. destruct Hpos as [Hc _]. exact Hc.
Qed.

Lemma pos_nonneg l : Forall (fun v => 0 < v) l -> Forall (fun v => 0 <= v) l.
Proof. apply Forall_impl. intros v Hv. lia. Qed.

(** (a) soundness of the dominance test *)
Theorem is_dominant_sound C M A B :
  Forall (fun v => 0 < v) M -> sub_multiset A M = true -> sub_multiset B M = true ->
  is_dominant A B = true -> Better C M A B.
Proof.
  intros Hpos HA HB Hdom n HK.
  pose proof (list_without_perm A M HA) as HPA. pose proof (list_without_perm B M HB) as HPB.
  pose proof (sub_multiset_pos A M Hpos HA) as HposA.
  pose proof (sub_multiset_pos B M Hpos HB) as HposB.
  unfold is_dominant in Hdom. destruct B as [|h2 B'].
  - rewrite list_without_nil in HK. apply (gpack_remove_all C A (pos_nonneg A HposA)).
    apply (gpack_perm C M); [apply Permutation_sym; exact HPA|exact HK].
  - destruct A as [|h1 A']; [discriminate Hdom|].
    destruct (sub_multiset (h2 :: B') (h1 :: A')) eqn:Esub.
    + apply sub_multiset_spec in Esub. destruct Esub as (rest & Hrest).
      apply (gpack_remove_all C rest).
      * apply pos_nonneg. apply (Permutation_Forall (Permutation_sym Hrest)) in HposA.
        apply Forall_app in HposA. destruct HposA as [_ Hr]. exact Hr.
      * apply (gpack_perm C (list_without M (h2 :: B'))); [|exact HK].
        apply (Permutation_app_inv_l (h2 :: B')).
        apply Permutation_trans with M; [exact HPB|].
        apply Permutation_trans with ((h1 :: A') ++ list_without M (h1 :: A'));
          [apply Permutation_sym; exact HPA|].
        rewrite app_assoc. apply Permutation_app_tail. apply Permutation_sym. exact Hrest.
    + destruct (h1 <? h2); [discriminate Hdom|].
      apply (dom_exchange C n (h1 :: A') (h2 :: B') _ (list_without M (h2 :: B'))).
      * exact HposB.
      * apply Permutation_trans with M; [exact HPA|apply Permutation_sym; exact HPB].
      * apply fits_some_dom; [exact Hdom|apply pos_nonneg; exact HposA].
      * exact HK.
Qed.

(** ---- 4. the survivors of [check_for_dominance] dominate every candidate ---- *)

Lemma zlist_eqb_refl x : zlist_eqb x x = true.
Proof. induction x as [|a t IH]; cbn [zlist_eqb]; [reflexivity|]. rewrite Z.eqb_refl, IH. reflexivity. Qed.

Lemma In_mem_list x l : In x l -> mem_list x l = true.
Proof.
  induction l as [|y t IH]; intros H; [destruct H|]. cbn [mem_list].
  destruct H as [H|H]; [subst y; rewrite zlist_eqb_refl; reflexivity|].
  rewrite (IH H). apply orb_true_r.
Qed.

Lemma mem_list_false x l : mem_list x l = false -> ~ In x l.
Proof. intros H Hin. apply In_mem_list in Hin. congruence. Qed.

Lemma zlist_dec (x y : list Z) : {x = y} + {x <> y}.
Proof. apply list_eq_dec. apply Z.eq_dec. Qed.

Lemma remove_first_list_keep c d : forall l, In c l -> c <> d -> In c (remove_first_list d l).
Proof.
  induction l as [|y t IH]; intros H Hne; [destruct H|]. cbn [remove_first_list].
  destruct (zlist_eqb d y) eqn:E.
  - apply zlist_eqb_eq in E. subst y. destruct H as [H|H]; [congruence|exact H].
  - destruct H as [H|H]; [left; exact H|right; apply IH; assumption].
Qed.

Lemma fold_remove_first_list_keep c : forall ds l, In c l -> ~ In c ds ->
  In c (fold_left (fun acc d => remove_first_list d acc) ds l).
Proof.
  induction ds as [|d ds IH]; intros l H Hn; cbn [fold_left]; [exact H|].
  apply IH.
  - apply remove_first_list_keep; [exact H|]. intros E. apply Hn. left. symmetry. exact E.
  - intros Hin. apply Hn. right. exact Hin.
Qed.

Section CFD.
  Variable R : list Z -> list Z -> Prop.
  Variable L : list (list Z).
  Hypothesis R_refl : forall a, R a a.
  Hypothesis R_trans : forall a b c, R a b -> R b c -> R a c.
  Hypothesis R_dom : forall a b, In a L -> In b L -> is_dominant a b = true -> R a b.

  (** every dropped candidate is dominated by a candidate that is not dropped *)
  Definition cfd_inv (D : list (list Z)) : Prop :=
    forall d, In d D -> exists s, In s L /\ ~ In s D /\ R s d.

  Lemma cfd_inv_add D a b : cfd_inv D -> In a L -> ~ In a D -> a <> b -> R a b ->
    cfd_inv (D ++ [b]).
  Proof.
    intros HI HaL HaD Hne Hab d Hd.
    assert (HaD' : ~ In a (D ++ [b])).
    { intros H. apply in_app_or in H. destruct H as [H|[H|[]]]; [contradiction|congruence]. }
    apply in_app_or in Hd. destruct Hd as [Hd|[Hd|[]]].
    - destruct (HI d Hd) as (s & HsL & HsD & Hsd).
      destruct (zlist_dec s b) as [E|NE].
      + subst s. exists a. repeat split; [exact HaL|exact HaD'|].
        apply (R_trans a b d); assumption.
      + exists s. repeat split; [exact HsL| |exact Hsd].
        intros H. apply in_app_or in H. destruct H as [H|[H|[]]]; [contradiction|congruence].
    - subst d. exists a. repeat split; assumption.
  Qed.

  Lemma cfd_inner_inv l1 : forall rest D,
    (forall l2, In l2 rest -> In l2 L) -> In l1 L -> ~ In l1 rest -> ~ In l1 D ->
    cfd_inv D -> cfd_inv (cfd_inner l1 rest D).
  Proof.
    induction rest as [|l2 t IH]; intros D HrL H1L H1r H1D HI; cbn [cfd_inner]; [exact HI|].
    assert (HtL : forall l, In l t -> In l L) by (intros l Hl; apply HrL; right; exact Hl).
    assert (H1t : ~ In l1 t) by (intros H; apply H1r; right; exact H).
    assert (Hne : l1 <> l2) by (intros E; apply H1r; left; symmetry; exact E).
    assert (H2L : In l2 L) by (apply HrL; left; reflexivity).
    destruct (mem_list l2 D) eqn:Em; [apply IH; assumption|].
    apply mem_list_false in Em.
    destruct (is_dominant l1 l2) eqn:E12.
    - apply IH; try assumption.
      + intros H. apply in_app_or in H. destruct H as [H|[H|[]]]; [contradiction|congruence].
      + apply (cfd_inv_add D l1 l2); try assumption. apply R_dom; assumption.
    - destruct (is_dominant l2 l1) eqn:E21; [|apply IH; assumption].
      apply (cfd_inv_add D l2 l1); try assumption; [congruence|]. apply R_dom; assumption.
  Qed.

  Lemma cfd_outer_inv : forall l D,
    (forall c, In c l -> In c L) -> NoDup l -> cfd_inv D -> cfd_inv (cfd_outer l D).
  Proof.
    induction l as [|l1 t IH]; intros D HlL Hnd HI; cbn [cfd_outer]; [exact HI|].
    destruct t as [|l2 t']; [exact HI|].
    inversion Hnd as [|x xs H1t Hndt]; subst x xs.
    assert (HtL : forall c, In c (l2 :: t') -> In c L) by (intros c Hc; apply HlL; right; exact Hc).
    destruct (mem_list l1 D) eqn:Em; [apply IH; assumption|].
    apply mem_list_false in Em. apply IH; [exact HtL|exact Hndt|].
    apply cfd_inner_inv; try assumption. apply HlL. left. reflexivity.
  Qed.
End CFD.

Theorem check_for_dominance_complete (R : list Z -> list Z -> Prop) L :
  (forall a, R a a) -> (forall a b c, R a b -> R b c -> R a c) ->
  (forall a b, In a L -> In b L -> is_dominant a b = true -> R a b) -> NoDup L ->
  forall c, In c L -> exists s, In s (check_for_dominance L) /\ R s c.
Proof.
  intros Hrefl Htrans Hdom Hnd c Hc.
  assert (HI : cfd_inv R L (cfd_outer L [])).
  { apply (cfd_outer_inv R L Htrans Hdom L []); [intros x Hx; exact Hx|exact Hnd|].
    intros d Hd. destruct Hd. }
  assert (Hkeep : forall s, In s L -> ~ In s (cfd_outer L []) -> In s (check_for_dominance L)).
  { intros s Hs Hn. unfold check_for_dominance. destruct L as [|a [|b t]]; try exact Hs.
    apply (Permutation_in _ (Permutation_sym (sort_desc_perm zsum _))).
    apply fold_remove_first_list_keep; assumption. }
  destruct (in_dec zlist_dec c (cfd_outer L [])) as [Hin|Hnin].
  - destruct (HI c Hin) as (s & HsL & HsD & Hsc). exists s. split; [|exact Hsc].
    apply Hkeep; assumption.
  - exists c. split; [apply Hkeep; assumption|apply Hrefl].
Qed.

Lemma unique_list_aux_spec : forall l seen,
  NoDup (unique_list_aux l seen) /\
  (forall c, In c (unique_list_aux l seen) -> ~ In c seen) /\
  (forall c, In c l -> In c (unique_list_aux l seen) \/ In c seen).
Proof.
  induction l as [|x t IH]; intros seen; cbn [unique_list_aux].
  - repeat split; [constructor|intros c []|intros c []].
  - destruct (mem_list x seen) eqn:E.
    + destruct (IH seen) as (H1 & H2 & H3). repeat split; [exact H1|exact H2|].
      intros c [Hc|Hc]; [subst c; right; apply mem_list_In; exact E|apply H3; exact Hc].
    + apply mem_list_false in E. destruct (IH (x :: seen)) as (H1 & H2 & H3). repeat split.
      * constructor; [|exact H1]. intros H. apply (H2 x H). left. reflexivity.
      * intros c [Hc|Hc]; [subst c; exact E|]. intros Hs. apply (H2 c Hc). right. exact Hs.
      * intros c [Hc|Hc]; [left; left; exact Hc|].
        destruct (H3 c Hc) as [H|[H|H]]; [left; right; exact H|left; left; exact H|right; exact H].
Qed.

Lemma unique_list_NoDup l : NoDup (unique_list l).
Proof. apply unique_list_aux_spec. Qed.

Lemma unique_list_complete c l : In c l -> In c (unique_list l).
Proof.
  intros H. destruct (unique_list_aux_spec l []) as (_ & _ & H3).
  destruct (H3 c H) as [H'|[]]. exact H'.
Qed.

(** ---- 5. completeness of the completion generator, up to dominance ---- *)

Lemma combos_complete : forall l B rest, Permutation (B ++ rest) l ->
  exists fc, In fc (combos (length B) l) /\ Permutation fc B.
Proof.
  induction l as [|x t IH]; intros B rest HP.
  - apply Permutation_sym, Permutation_nil, app_eq_nil in HP. destruct HP as [E _]. subst B.
    exists []. split; [left; reflexivity|apply Permutation_refl].
  - destruct B as [|b0 B0] eqn:EB.
    { exists []. split; [left; reflexivity|apply Permutation_refl]. }
    rewrite <- EB in *. assert (HlB : length B = S (length B0)) by (subst B; reflexivity).
    destruct (in_dec Z.eq_dec x B) as [Hin|Hnin].
    + apply in_split in Hin. destruct Hin as (B1 & B2 & E). 
      assert (HP' : Permutation ((B1 ++ B2) ++ rest) t).
      { apply (Permutation_cons_inv (a := x)).
        apply Permutation_trans with (B ++ rest); [rewrite E; perm_solve|exact HP]. }
      destruct (IH _ _ HP') as (fc & Hfc & Hperm). exists (x :: fc). split.
      * assert (El : length B = S (length (B1 ++ B2))).
        { rewrite E, !app_length. cbn [length]. lia. }
        rewrite El. cbn [combos]. apply in_or_app. left. apply in_map. exact Hfc.
      * rewrite E. apply Permutation_trans with (x :: B1 ++ B2); [apply perm_skip; exact Hperm|].
        apply Permutation_middle.
    + assert (HinR : In x rest).
      { assert (H : In x (B ++ rest)).
        { eapply Permutation_in; [apply Permutation_sym; exact HP|left; reflexivity]. }
        apply in_app_or in H. destruct H as [H|H]; [contradiction|exact H]. }
      apply in_split in HinR. destruct HinR as (R1 & R2 & E). subst rest.
      assert (HP' : Permutation (B ++ R1 ++ R2) t).
      { apply (Permutation_cons_inv (a := x)).
        apply Permutation_trans with (B ++ R1 ++ x :: R2); [perm_solve|exact HP]. }
      destruct (IH _ _ HP') as (fc & Hfc & Hperm). exists fc. split; [|exact Hperm].
      rewrite HlB in *. cbn [combos]. apply in_or_app. right. exact Hfc.
Qed.

Lemma sub_is_dominant A B : sub_multiset B A = true -> is_dominant A B = true.
Proof.
  intros H. unfold is_dominant. destruct B as [|h2 B']; [reflexivity|].
  destruct A as [|h1 A']; [cbn in H; discriminate H|]. rewrite H. reflexivity.
Qed.

Lemma first_fitting_zero x C items : Forall (fun v => 0 < v) items ->
  first_fitting x C items = 0 -> forall i, In i items -> C < x + i.
Proof.
  induction 1 as [|a t Ha _ IH]; intros H i Hi; [destruct Hi|]. cbn [first_fitting] in H.
  destruct (x + a <=? C) eqn:E; [lia|].
  destruct Hi as [Hi|Hi]; [subst i; lia|apply IH; assumption].
Qed.

Lemma perm_sub_multiset B A : Permutation A B -> sub_multiset B A = true.
Proof.
  intros H. apply (sub_multiset_of_perm B []). rewrite app_nil_r. apply Permutation_sym. exact H.
Qed.

(** every feasible completion is contained in a candidate *)
Lemma found_list_cover x y C items B : In y items ->
  sub_multiset B items = true -> x + zsum B <= C ->
  exists A0, In A0 (found_list x y C items) /\ sub_multiset B A0 = true.
Proof.
  intros Hy HB Hfit. destruct B as [|b0 B0] eqn:EB.
  { exists [y]. split; [left; reflexivity|reflexivity]. }
  rewrite <- EB in *. assert (HBne : B <> []) by (subst B; discriminate).
  apply sub_multiset_spec in HB. destruct HB as (rest & Hrest).
  destruct (combos_complete items B rest Hrest) as (fc & Hfc & Hperm).
  assert (Hfcne : fc <> []).
  { intros E. subst fc. apply Permutation_nil in Hperm. contradiction. }
  assert (Hlen : (length B <= length items)%nat).
  { rewrite <- (Permutation_length Hrest), app_length. lia. }
  assert (Hcand : forall A0, In A0 (completions_for_fc x y C items fc) ->
                             In A0 (found_list x y C items)).
  { intros A0 HA0. right. apply in_flat_map. exists (length B). split.
    - apply range_from_In. lia.
    - apply in_flat_map. exists fc. split; [|exact HA0]. apply filter_In. split; [exact Hfc|].
      rewrite (zsum_perm _ _ Hperm). lia. }
  unfold completions_for_fc in Hcand.
  destruct (undominated_pairs (length (list_without items fc)) (x + zsum fc) y C (list_without items fc))
    as [|p0 ps].
  - destruct fc as [|f0 ft]; [congruence|]. exists (f0 :: ft). split.
    + apply Hcand. left. reflexivity.
    + apply perm_sub_multiset. exact Hperm.
  - exists (sort_desc zid (p0 ++ fc)). split.
    + apply Hcand. apply in_or_app. left. left. reflexivity.
    + apply (sub_multiset_of_perm B p0).
      apply Permutation_trans with (p0 ++ fc); [|apply Permutation_sym, sort_desc_perm].
      apply Permutation_trans with (fc ++ p0); [|apply Permutation_app_comm].
      apply Permutation_app_tail. apply Permutation_sym. exact Hperm.
Qed.

(** (b) completeness of [find_bin_completions] up to dominance: every feasible completion B of
    the bin of x (any size) is matched or beaten by a returned completion *)
Theorem find_bin_completions_complete C x items B :
  Forall (fun v => 0 < v) items -> sub_multiset B items = true -> x + zsum B <= C ->
  (find_bin_completions x items C = [] /\ B = []) \/
  (exists A, In A (find_bin_completions x items C) /\ Better C items A B).
Proof.
  intros Hpos HB Hfit. rewrite find_bin_completions_eq.
  destruct (Z.eqb_spec (first_fitting x C items) 0) as [Hy0|Hy].
  - left. split; [reflexivity|]. destruct B as [|b0 B0]; [reflexivity|]. exfalso.
    pose proof (sub_multiset_pos _ _ Hpos HB) as HposB.
    apply list_without_perm in HB.
    assert (Hb : In b0 items) by (eapply Permutation_in; [exact HB|left; reflexivity]).
    pose proof (first_fitting_zero x C items Hpos Hy0 b0 Hb) as Hbig.
    inversion HposB as [|b l Hb0 HB0]; subst b l.
    apply pos_nonneg, zsum_nonneg in HB0. rewrite zsum_cons in Hfit. lia.
  - right. destruct (first_fitting_spec x C items Hy) as [HyIn _].
    set (F := found_list x (first_fitting x C items) C items).
    assert (HF : forall c, In c F -> sub_multiset c items = true).
    { intros c Hc. apply (found_list_sound x C items c Hy Hc). }
    destruct (found_list_cover x _ C items B HyIn HB Hfit) as (A0 & HA0 & Hsub). fold F in HA0.
    set (L := unique_list (sort_desc zsum F)).
    assert (HL : forall c, In c L -> sub_multiset c items = true).
    { intros c Hc. apply HF. apply unique_list_In in Hc.
      apply (Permutation_in _ (sort_desc_perm zsum F)). exact Hc. }
    assert (HA0L : In A0 L).
    { apply unique_list_complete. apply (Permutation_in _ (Permutation_sym (sort_desc_perm zsum F))).
      exact HA0. }
    destruct (check_for_dominance_complete (Better C items) L (better_refl C items)
                (better_trans C items)) with (c := A0) as (s & Hs & Hbetter).
    + intros a b Ha Hb Hd. apply is_dominant_sound; auto.
    + apply unique_list_NoDup.
    + exact HA0L.
    + exists s. split; [exact Hs|]. apply (better_trans C items s A0 B Hbetter).
      apply is_dominant_sound; auto. apply sub_is_dominant. exact Hsub.
Qed.

(** ---- 6. the branch-and-bound loops ---- *)

Lemma remove_first_incl x l : incl (remove_first x l) l.
Proof.
  induction l as [|y t IH]; intros v Hv; cbn [remove_first] in Hv; [exact Hv|].
  destruct (x =? y); [right; exact Hv|].
  destruct Hv as [Hv|Hv]; [left; exact Hv|right; apply IH; exact Hv].
Qed.

Lemma list_without_incl c : forall l, incl (list_without l c) l.
Proof.
  induction c as [|x t IH]; intros l v Hv; [exact Hv|]. rewrite list_without_cons in Hv.
  apply (remove_first_incl x l). apply IH. exact Hv.
Qed.

Lemma remove_first_length x l : (length (remove_first x l) <= length l)%nat.
Proof.
  induction l as [|y t IH]; cbn [remove_first length]; [lia|].
  destruct (x =? y); cbn [length]; lia.
Qed.

Lemma list_without_length c : forall l, (length (list_without l c) <= length l)%nat.
Proof.
  induction c as [|x t IH]; intros l; [cbn; lia|]. rewrite list_without_cons.
  pose proof (IH (remove_first x l)). pose proof (remove_first_length x l). lia.
Qed.

Lemma incl_pos (l l' : list Z) : incl l l' -> Forall (fun v => 0 < v) l' -> Forall (fun v => 0 < v) l.
Proof. intros Hi Hp. rewrite Forall_forall in *. intros v Hv. apply Hp, Hi, Hv. Qed.

Lemma gpack_total C vs n : GPack C vs n -> zsum vs <= Z.of_nat n * C.
Proof. intros H. apply packable_total. apply gpack_packable. exact H. Qed.

Section Search.
  Variable keep : bool.
  Variable C : Z.
  Variable T : nat.            (* number of bins of some packing of all the items *)
  Hypothesis HC : 0 < C.

  (** a branch from which a packing with at most T bins can still be completed *)
  Definition good (items : list Z) (b : zbins) : Prop :=
    exists m, (length b + m <= T)%nat /\ GPack C items m.
  Definition goodbr (br : branch) : Prop := good (br_items br) (br_bins br).

  (** a good branch is never cut by the partial lower bound while the incumbent is worse than T *)
  Lemma good_not_pruned items b bestn : (T < bestn)%nat -> good items b ->
    plb_ge C (length b) items bestn = false.
  Proof.
    intros HT (m & Hm & HK). apply gpack_total in HK. unfold plb_ge.
    destruct ((Z.of_nat bestn - Z.of_nat (length b)) * C <=? zsum items) eqn:E; [|reflexivity].
    exfalso. assert (H : Z.of_nat m + 1 <= Z.of_nat bestn - Z.of_nat (length b)) by lia. nia.
  Qed.

  Lemma bc_round_good bestn x updated b newbr cur' updated' newbr' :
    (T < bestn)%nat -> Forall (fun v => 0 < v) updated -> good (x :: updated) b ->
    bc_round keep C bestn x updated b newbr = (cur', updated', newbr') ->
    good updated' (b ++ [cur']) \/ Exists goodbr newbr'.
  Proof.
    intros HT Hpos (m & Hm & HK) H.
    destruct (gpack_head C x updated m HK) as (B & R' & m' & Em & HP & Hfit & HK').
    assert (HB : sub_multiset B updated = true).
    { apply (sub_multiset_of_perm B R'). apply Permutation_sym. exact HP. }
    assert (HKB : GPack C (list_without updated B) m').
    { apply (gpack_perm C R'); [|exact HK']. apply (Permutation_app_inv_l B).
      apply Permutation_trans with updated; [apply Permutation_sym; exact HP|].
      apply Permutation_sym. apply list_without_perm. exact HB. }
    assert (Hlen : forall c : bin Z, (length (b ++ [c]) + m' <= T)%nat).
    { intros c. rewrite app_length. cbn [length]. lia. }
    unfold bc_round in H.
    destruct (find_bin_completions_complete C x updated B Hpos HB Hfit) as [[E1 E2]|(A & HA & Hbet)].
    - rewrite E1 in H. injection H as Ec Eu En. subst cur' updated' newbr' B.
      left. exists m'. split; [apply Hlen|]. rewrite list_without_nil in HKB. exact HKB.
    - apply Hbet in HKB.
      destruct (find_bin_completions x updated C) as [|c0 others]; [destruct HA|].
      cbv beta iota zeta in H. injection H as Ec Eu En. subst cur' updated' newbr'.
      destruct HA as [HA|HA].
      + subst c0. left. exists m'. split; [apply Hlen|exact HKB].
      + right. apply Exists_app. right. apply Exists_exists.
        set (cur := add_to_bin zid keep x empty_bin).
        exists (mk_branch (list_without updated A) (b ++ [add_all keep cur A])). split.
        * apply in_flat_map. exists A. split; [exact HA|]. fold cur.
          rewrite (good_not_pruned (list_without updated A) (b ++ [add_all keep cur A]) bestn HT).
          { left. reflexivity. }
          exists m'. split; [apply Hlen|exact HKB].
        * exists m'. cbn [br_items br_bins]. split; [apply Hlen|exact HKB].
  Qed.

  Lemma bc_round_shape bestn x updated b newbr cur' updated' newbr' :
    bc_round keep C bestn x updated b newbr = (cur', updated', newbr') ->
    exists brs c, newbr' = newbr ++ brs /\ updated' = list_without updated c.
  Proof.
    intros H. unfold bc_round in H. destruct (find_bin_completions x updated C) as [|c0 others].
    - injection H as Ec Eu En. exists [], []. rewrite app_nil_r. split; [congruence|].
      rewrite list_without_nil. congruence.
    - cbv beta iota zeta in H. injection H as Ec Eu En. subst updated' newbr'.
      eexists. exists c0. split; reflexivity.
  Qed.

  Lemma bc_inner_good bestn : (T < bestn)%nat ->
    forall fuel items b newbr items' b' newbr',
    (length items <= fuel)%nat -> Forall (fun v => 0 < v) items ->
    good items b \/ Exists goodbr newbr ->
    bc_inner keep C fuel bestn items b newbr = (items', b', newbr') ->
    (items' = [] /\ (length b' <= T)%nat) \/ Exists goodbr newbr'.
  Proof.
    intros HT.
    assert (Hnil : forall fuel b newbr items' b' newbr', good [] b \/ Exists goodbr newbr ->
              bc_inner keep C fuel bestn [] b newbr = (items', b', newbr') ->
              (items' = [] /\ (length b' <= T)%nat) \/ Exists goodbr newbr').
    { intros fuel b newbr items' b' newbr' Hgood H. rewrite bc_inner_nil in H.
      injection H as E1 E2 E3. subst.
      destruct Hgood as [(m & Hm & _)|Hg]; [left; split; [reflexivity|lia]|right; exact Hg]. }
    induction fuel as [|f IH]; intros items b newbr items' b' newbr' Hfuel Hpos Hgood H.
    - destruct items as [|x t]; [apply (Hnil _ _ _ _ _ _ Hgood H)|cbn [length] in Hfuel; lia].
    - destruct items as [|x updated]; [apply (Hnil _ _ _ _ _ _ Hgood H)|].
      rewrite bc_inner_S in H.
      destruct (bc_round keep C bestn x updated b newbr) as [[cur1 upd1] nb1] eqn:ER.
      inversion Hpos as [|x0 l0 Hx Hpu]; subst x0 l0.
      destruct (bc_round_shape bestn x updated b newbr cur1 upd1 nb1 ER) as (brs & c & Enb & Eupd).
      assert (Hgood1 : good upd1 (b ++ [cur1]) \/ Exists goodbr nb1).
      { destruct Hgood as [Hg|Hg].
        - apply (bc_round_good bestn x updated b newbr cur1 upd1 nb1 HT Hpu Hg ER).
        - right. rewrite Enb. apply Exists_app. left. exact Hg. }
      destruct (plb_ge C (length (b ++ [cur1])) upd1 bestn) eqn:Eplb.
      + injection H as E1 E2 E3. subst items' b' newbr'.
        destruct Hgood1 as [Hg|Hg]; [|right; exact Hg].
        rewrite (good_not_pruned upd1 (b ++ [cur1]) bestn HT Hg) in Eplb. discriminate Eplb.
      + apply (IH upd1 (b ++ [cur1]) nb1 items' b' newbr'); [| |exact Hgood1|exact H].
        * rewrite Eupd. pose proof (list_without_length c updated). cbn [length] in Hfuel. lia.
        * rewrite Eupd. apply (incl_pos _ updated); [apply list_without_incl|exact Hpu].
  Qed.
End Search.

Lemma br_ok_pos C vs items b : Forall (fun v => 0 < v) vs -> br_ok C vs items b ->
  Forall (fun v => 0 < v) items.
Proof.
  intros Hpos (_ & _ & _ & HP). apply (Permutation_Forall (Permutation_sym HP)) in Hpos.
  apply Forall_app in Hpos. destruct Hpos as [_ H]. exact H.
Qed.

(** (c) the outer loop: as long as the incumbent has more than T bins, some queued branch can
    still be completed to T bins; hence the answer has at most T bins *)
Lemma bc_outer_good C T vs lb :
  0 < C -> Forall (fun v => 0 < v) vs -> Forall (fun v => v <= C) vs -> lb <= Z.of_nat T ->
  forall fuel queue best r, brs_ok C vs queue ->
  (length best <= T)%nat \/ Exists (goodbr C T) queue ->
  bc_outer true C fuel lb queue best = Ok r -> (length r <= T)%nat.
Proof.
  intros HC Hpos Hle Hlb. induction fuel as [|f IH]; intros queue best r Hq Hinv H; [discriminate H|].
  destruct (le_lt_dec (length best) T) as [Hbest|Hbest].
  { destruct (bc_outer_result C vs lb Hle _ _ _ _ H Hq) as [->|[_ Hlt]]; lia. }
  destruct Hinv as [Hinv|Hinv]; [lia|].
  destruct queue as [|cb q]; [inversion Hinv|].
  rewrite bc_outer_S in H.
  destruct (bc_inner true C (length (br_items cb)) (length best) (br_items cb) (br_bins cb) [])
    as [[items1 b1] newbr] eqn:EI.
  inversion Hq as [|cb' q' Hcb Hq']; subst cb' q'.
  destruct (bc_inner_ok C vs (length best) Hle _ _ _ _ _ _ _ EI Hcb (Forall_nil _)) as [Hok1 Hbrs1].
  cbv zeta in H.
  set (best1 := match items1 with
                | [] => if Nat.ltb (length b1) (length best) then b1 else best
                | _ :: _ => best
                end) in H.
  assert (Hnext : (length best1 <= T)%nat \/ Exists (goodbr C T) (q ++ newbr)).
  { inversion Hinv as [cb' q' Hg|cb' q' Hg]; subst cb' q'.
    - destruct (bc_inner_good true C T HC (length best) Hbest _ _ _ _ _ _ _ (Nat.le_refl _)
                  (br_ok_pos C vs _ _ Hpos Hcb) (or_introl Hg) EI) as [[E Hb1]|Hg1].
      + left. subst best1 items1.
        assert (E : Nat.ltb (length b1) (length best) = true) by (apply Nat.ltb_lt; lia).
        rewrite E. exact Hb1.
      + right. apply Exists_app. right. exact Hg1.
    - right. apply Exists_app. left. exact Hg. }
  destruct (Z.of_nat (length best1) =? lb) eqn:Elb.
  - injection H as E. subst r. lia.
  - apply (IH (q ++ newbr) best1 r); [|exact Hnext|exact H].
    apply Forall_app. split; assumption.
Qed.

(** ---- 7. optimality ---- *)

Lemma filter_nonzero_pos items : Forall (fun v => 0 <= v) items ->
  Forall (fun v => 0 < v) (filter nonzero items).
Proof.
  intros H. apply Forall_forall. intros v Hv. apply filter_In in Hv. destruct Hv as [Hv Hnz].
  rewrite Forall_forall in H. specialize (H v Hv). cbv beta in Hnz. lia.
Qed.

Theorem bc_le_any_packing : forall C fuel items b m,
  0 < C -> Forall (fun v => 0 <= v) items ->
  bin_completion true C fuel items = Ok b ->
  Packable C (filter nonzero items) m -> (length b <= m)%nat.
Proof.
  intros C fuel items b m HC Hnn H Hm.
  pose proof (bc_lb_sound C _ m HC Hm) as Hlb.
  unfold bin_completion in H.
  destruct (existsb (fun v => C <? v) items) eqn:Eo; [discriminate H|].
  pose proof (no_oversize_Forall C items Eo) as Hle.
  set (vs := filter nonzero items) in *.
  pose proof (incl_Forall (incl_filter _ items) Hle : Forall (fun v => v <= C) vs) as Hlev.
  destruct (best_fit_decreasing zid true C vs) as [bfd|e]; [|discriminate H].
  destruct (C =? 0) eqn:E0; [lia|].
  destruct (Z.of_nat (length bfd) =? cdiv (zsum vs) C) eqn:Elb.
  - injection H as E. subst b. lia.
  - apply (bc_outer_good C m vs (cdiv (zsum vs) C) HC (filter_nonzero_pos items Hnn) Hlev Hlb
             fuel [mk_branch (sort_desc zid vs) []] bfd b); [apply brs_ok_init| |exact H].
    right. constructor. exists m. cbn [br_items br_bins length]. split; [lia|].
    apply (gpack_perm C vs); [apply Permutation_sym, sort_desc_perm|].
    apply packable_gpack. exact Hm.
Qed.

(** The three places where the search looks as if it could lose the optimum, and why it does not:
    every feasible sub-multiset fc of the remaining items is itself enumerated (all sizes), and
    either fc or a superset fc + pair is recorded, so skipping pairs with sum <= y loses nothing;
    [check_for_dominance] never drops a candidate without keeping a dominator ([cfd_inv]);
    [plb_ge] with >= cuts a branch only if it cannot beat the incumbent ([good_not_pruned]). *)
Theorem bc_optimal : bc_optimal_statement.
Proof.
  intros C fuel items b HC Hnn H. split.
  - apply (bc_packable C fuel); assumption.
  - intros m Hm. apply (bc_le_any_packing C fuel items b m); assumption.
Qed.

Corollary bc_optimal_BCProofs : Prtpy.Proofs.BCProofs.bc_optimal_statement.
Proof. exact bc_optimal. Qed.

Corollary bc_optimal_bounded : forall C fuel items b,
  0 < C -> Forall (fun v => 0 <= v <= C) items ->
  bin_completion true C fuel items = Ok b ->
  MinBins C (filter nonzero items) (length b).
Proof.
  intros C fuel items b HC Hb H. apply (bc_optimal C fuel items b HC); [|exact H].
  eapply Forall_impl; [|exact Hb]. intros v Hv. cbv beta in Hv. lia.
Qed.

(** not vacuous: a run where best-fit-decreasing needs 3 bins and the search finds 2 *)
Example bc_optimal_nonvacuous :
  (match best_fit_decreasing zid true 20 [11;7;7;6;5;4] with Ok b => length b | Err _ => O end) = 3%nat /\
  (match bin_completion true 20 20 [11;7;7;6;5;4] with Ok b => length b | Err _ => O end) = 2%nat.
Proof. vm_compute. split; reflexivity. Qed.

Print Assumptions is_dominant_sound.
Print Assumptions check_for_dominance_complete.
Print Assumptions find_bin_completions_complete.
Print Assumptions bc_outer_good.
Print Assumptions bc_le_any_packing.
Print Assumptions bc_optimal.
Print Assumptions bc_optimal_BCProofs.
Print Assumptions bc_optimal_bounded.
