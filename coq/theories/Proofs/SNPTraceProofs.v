(** The traced SNP / RNP return exactly what snp / rnp return. *)
From Prtpy Require Import Base.Prelude Model.Binner Model.KK Model.InExTree Model.SNP Model.SNPTrace
  Proofs.SNPProofs Proofs.EraseProofs.

Section P.
  Context {A : Type} (valueof : A -> Z) (nameof : A -> Z) (keep : bool).

  Local Notation snp_rec := (snp_rec valueof nameof keep).
  Local Notation snp_rec_tr := (snp_rec_tr valueof nameof keep).
  Local Notation bins_spread := (bins_spread (A := A)).

  (** ---- SNP: the traced twin of [snp_dfs], the recursive call abstracted ---- *)
  Definition snp_dfs_tr (next : list A -> bins A -> strace -> bins A * strace) (kz t : Z)
    : list A -> list A -> bins A -> strace -> bins A * strace :=
    fix dfs (rest cur : list A) (best : bins A) (tr : strace) : bins A * strace :=
      if dfs_pruned valueof kz t rest cur best then (best, tr)
      else match rest with
           | [] => next cur best (tr ++ [map valueof cur])
           | x :: r => let p := dfs r (cur ++ [x]) best tr in dfs r cur (fst p) (snd p)
           end.

  Lemma snp_rec_tr_3 n prior items best tr :
    snp_rec_tr (S (S (S n))) prior items best tr =
    snp_dfs_tr (fun cur b tr' => snp_rec_tr (S (S n)) (prior ++ [bin_of valueof keep cur]) (find_diff nameof items cur) b tr')
         (Z.of_nat (S (S (S n)))) (vsum valueof items) (sort_desc valueof items) [] best tr.
  Proof. reflexivity. Qed.

  Lemma snp_dfs_tr_fst next next_tr kz t :
    (forall cur b tr, fst (next_tr cur b tr) = next cur b) ->
    forall rest cur best tr,
      fst (snp_dfs_tr next_tr kz t rest cur best tr) = snp_dfs valueof next kz t rest cur best.
  Proof.
    intros Hnext. induction rest as [|x r IH]; intros cur best tr.
    - rewrite snp_dfs_nil. cbn [snp_dfs_tr]. destruct (dfs_pruned valueof kz t [] cur best); [reflexivity|].
      apply Hnext.
    - rewrite snp_dfs_cons. cbn [snp_dfs_tr]. destruct (dfs_pruned valueof kz t (x :: r) cur best); [reflexivity|].
      cbv zeta. rewrite IH. rewrite IH. reflexivity.
  Qed.

  Lemma snp_rec_tr_fst : forall kc prior items best tr,
    fst (snp_rec_tr kc prior items best tr) = snp_rec kc prior items best.
  Proof.
    induction kc as [|kc IH]; intros prior items best tr; [reflexivity|].
    destruct kc as [|[|n]]; [reflexivity| |].
    - cbn [SNPTrace.snp_rec_tr SNP.snp_rec].
      destruct (ckk valueof nameof keep 2 items) as [two|e]; [|reflexivity].
      destruct (spread (sums two ++ sums prior) <? bins_spread best); reflexivity.
    - rewrite snp_rec_tr_3, snp_rec_3. apply snp_dfs_tr_fst.
      intros cur b tr'. apply IH.
  Qed.

  Theorem snp_tr_result : forall k items, fst (snp_tr valueof nameof keep k items) = snp valueof nameof keep k items.
  Proof.
    intros k items. unfold snp_tr, snp.
    destruct (kk valueof keep k items) as [best|e]; [|reflexivity].
    destruct (bins_spread best =? 0); [reflexivity|].
    cbv zeta. cbn [fst]. rewrite snp_rec_tr_fst. reflexivity.
  Qed.

  (** ---- RNP: the traced twin of [rnp_dfs] ---- *)
  Local Notation rnp_rec := (rnp_rec valueof nameof keep).
  Local Notation rnp_rec_tr := (rnp_rec_tr valueof nameof keep).

  Definition rnp_dfs_tr (leaf : list A -> bins A -> strace -> result (bins A) * strace) (kz t d0 : Z)
    : list A -> list A -> bins A -> strace -> result (bins A) * strace :=
    fix dfs (rest cur : list A) (best : bins A) (tr : strace) : result (bins A) * strace :=
      if (t <? kz * vsum valueof cur) || (kz * (vsum valueof cur + vsum valueof rest) <? t - (kz - 1) * d0)
      then (Ok best, tr)
      else match rest with
           | [] => leaf cur best tr
           | x :: r => let p := dfs r (cur ++ [x]) best tr in
                       match fst p with
                       | Err e => (Err e, snd p)
                       | Ok best1 => dfs r cur best1 (snd p)
                       end
           end.

  Lemma rnp_dfs_tr_fst leaf leaf_tr kz t d0 :
    (forall cur b tr, fst (leaf_tr cur b tr) = leaf cur b) ->
    forall rest cur best tr,
      fst (rnp_dfs_tr leaf_tr kz t d0 rest cur best tr) = rnp_dfs valueof leaf kz t d0 rest cur best.
  Proof.
    intros Hleaf. induction rest as [|x r IH]; intros cur best tr; cbn [rnp_dfs_tr rnp_dfs];
      destruct (_ || _); try reflexivity; [apply Hleaf|].
    cbv zeta. rewrite IH. destruct (rnp_dfs valueof leaf kz t d0 r (cur ++ [x]) best) as [b1|e]; [|reflexivity].
    apply IH.
  Qed.

  Lemma fold_fst {S T U : Type} (F : T -> U -> T) (G : T * S -> U -> T * S) :
    (forall a u, fst (G a u) = F (fst a) u) ->
    forall l r s, fst (fold_left G l (r, s)) = fold_left F l r.
  Proof.
    intros HG. induction l as [|u l IH]; intros r s; [reflexivity|].
    cbn [fold_left]. specialize (HG (r, s) u). cbn [fst] in HG.
    destruct (G (r, s) u) as [r' s']. cbn [fst] in HG. rewrite <- HG. apply IH.
  Qed.

  Lemma rnp_rec_tr_fst : forall fuel kc isfloat prior items best tr,
    fst (rnp_rec_tr fuel kc isfloat prior items best tr) = rnp_rec fuel kc isfloat prior items best.
  Proof.
    induction fuel as [|f IH]; intros kc isfloat prior items best tr; [reflexivity|].
    rewrite rnp_rec_S. cbn [SNPTrace.rnp_rec_tr].
    destruct (Nat.eqb kc 2); [reflexivity|]. destruct (Nat.odd kc).
    - cbv zeta.
      apply (rnp_dfs_tr_fst (rnp_next_odd valueof nameof keep f kc isfloat prior items)).
      intros cur b tr0. unfold rnp_next_odd. destruct (isfloat && negb (Nat.eqb (length cur) 0)); [reflexivity|].
      cbv zeta. rewrite IH.
      destruct (rnp_rec f (kc - 1) isfloat _ _ b) as [nb|e]; [|reflexivity].
      destruct (spread _ <? bins_spread b); reflexivity.
    - cbv zeta. apply fold_fst. intros [r s] part. cbn [fst snd].
      destruct r as [b|e]; [|reflexivity]. cbn [rnp_step_even]. cbv zeta.
      rewrite IH. destruct (rnp_rec f (Nat.div kc 2) true prior (snd (nth 0 part empty_bin)) b) as [nb1|e1]; [|reflexivity].
      rewrite IH. destruct (rnp_rec f (Nat.div kc 2) true prior (snd (nth 1 part empty_bin)) b) as [nb2|e2]; [|reflexivity].
      destruct (spread _ <? bins_spread best); reflexivity.
  Qed.

  Theorem rnp_tr_result : forall k items, fst (rnp_tr valueof nameof keep k items) = rnp valueof nameof keep k items.
  Proof.
    intros k items. unfold rnp_tr, rnp.
    destruct (kk valueof keep k items) as [best|e]; [|reflexivity].
    destruct (bins_spread best =? 0); [reflexivity|]. apply rnp_rec_tr_fst.
  Qed.
End P.

Print Assumptions snp_tr_result.
Print Assumptions rnp_tr_result.
