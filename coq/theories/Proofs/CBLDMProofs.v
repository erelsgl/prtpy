(** Proofs about the model of prtpy/partitioning/cbldm.py (Model/CBLDM.v):
    argument validation (C19), interruption safety and validity (C11, C12),
    anytime monotonicity, totality without a limit (C01/C12), soundness of the
    two prunes and optimality over the leaves of the search tree (C12). *)
From Prtpy Require Import Base.Prelude Model.Binner Model.CBLDM Spec.Partition
     Proofs.BaseLemmas Proofs.BinnerLemmas.
From Coq Require Import Sorting.Sorted ZifyBool.

(** * Part A: pure arithmetic on signed combinations *)

Fixpoint signed_sum (signs : list bool) (xs : list Z) : Z :=
  match signs, xs with
  | s :: st, x :: xt => (if s then x else - x) + signed_sum st xt
  | _, _ => 0
  end.

Lemma signed_sum_bounds signs xs :
  Forall (fun x => 0 <= x) xs -> - zsum xs <= signed_sum signs xs <= zsum xs.
Proof.
  intros H. revert signs. induction H as [|x xt Hx Hxt IH]; intros [|s st];
    cbn [signed_sum]; try change (zsum (x :: xt)) with (x + zsum xt); try (cbn; lia).
  - pose proof (zsum_nonneg xt Hxt). lia.
  - specialize (IH st). destruct s; lia.
Qed.

Lemma signed_sum_In signs xs x :
  Forall (fun y => 0 <= y) xs -> length signs = length xs -> In x xs ->
  2 * x - zsum xs <= Z.abs (signed_sum signs xs).
Proof.
  intros H. revert signs. induction H as [|y yt Hy Hyt IH]; intros signs Hl Hin; [destruct Hin|].
  destruct signs as [|s st]; [discriminate Hl|]. simpl in Hl. injection Hl as Hl.
  cbn [signed_sum]. change (zsum (y :: yt)) with (y + zsum yt). destruct Hin as [->|Hin].
  - pose proof (signed_sum_bounds st yt Hyt). destruct s; lia.
  - specialize (IH st Hl Hin). destruct s; lia.
Qed.

(** the arithmetic core of both prunes: [2 max - sum] is a lower bound of every
    signed combination of non-negative numbers *)
Lemma signed_sum_prune signs xs :
  Forall (fun x => 0 <= x) xs -> length signs = length xs ->
  2 * zmax_list 0 xs - zsum xs <= Z.abs (signed_sum signs xs).
Proof.
  intros H Hl. destruct (zmax_list_in 0 xs) as [E|Hin].
  - rewrite E. pose proof (zsum_nonneg xs H). lia.
  - apply signed_sum_In; auto.
Qed.

(** signs can be normalised: a signed sum of arbitrary integers is a signed sum of
    their absolute values *)
Lemma signed_sum_abs signs xs :
  length signs = length xs ->
  exists signs', length signs' = length xs /\
                 signed_sum signs xs = signed_sum signs' (map Z.abs xs).
Proof.
  revert signs. induction xs as [|x xt IH]; intros [|s st] Hl; try discriminate Hl.
  - exists []. split; reflexivity.
  - simpl in Hl. injection Hl as Hl. destruct (IH st Hl) as (st' & Hl' & E).
    exists ((if 0 <=? x then s else negb s) :: st'). split; [simpl; lia|].
    simpl. rewrite <- E. destruct (0 <=? x) eqn:Ex; destruct s; simpl; lia.
Qed.

Lemma signed_sum_prune_abs signs xs :
  length signs = length xs ->
  2 * zmax_list 0 (map Z.abs xs) - zsum (map Z.abs xs) <= Z.abs (signed_sum signs xs).
Proof.
  intros Hl. destruct (signed_sum_abs signs xs Hl) as (signs' & Hl' & E). rewrite E.
  apply signed_sum_prune.
  - rewrite Forall_map. apply Forall_forall. intros y _. lia.
  - rewrite map_length. exact Hl'.
Qed.

(** ** Signed combinations of pairs (sum gap, count gap) with a shared sign vector *)

Inductive SC : list (Z * Z) -> Z * Z -> Prop :=
| SC_nil : SC [] (0, 0)
| SC_cons (s : bool) x y l v w v' w' :
    SC l (v, w) ->
    v' = (if s then x else - x) + v ->
    w' = (if s then y else - y) + w ->
    SC ((x, y) :: l) (v', w').

Lemma SC_signs l v : SC l v ->
  exists signs, length signs = length l /\
                fst v = signed_sum signs (map fst l) /\ snd v = signed_sum signs (map snd l).
Proof.
  induction 1 as [|s x y l v w v' w' H IH Hv Hw].
  - exists []. repeat split.
  - destruct IH as (signs & Hl & E1 & E2). exists (s :: signs). simpl in *. subst.
    split; [lia|]. split; destruct s; lia.
Qed.

Lemma signs_SC signs l : length signs = length l ->
  SC l (signed_sum signs (map fst l), signed_sum signs (map snd l)).
Proof.
  revert signs. induction l as [|[x y] l IH]; intros [|s st] Hl; try discriminate Hl.
  - constructor.
  - simpl in Hl. injection Hl as Hl. simpl. eapply (SC_cons s); [apply (IH st Hl)| |]; destruct s; reflexivity.
Qed.

Lemma SC_perm l l' v : Permutation l l' -> SC l v -> SC l' v.
Proof.
  intros P. revert v. induction P as [|[x y] l l' P IH|[x y] [x2 y2] l|l l' l'' P1 IH1 P2 IH2]; intros v H.
  - exact H.
  - inversion H as [|s x0 y0 l0 v0 w0 v' w' H0 Hv Hw]; subst.
    eapply (SC_cons s); [apply IH; exact H0| |]; reflexivity.
  - inversion H as [|s x0 y0 l0 v0 w0 v' w' H0 Hv Hw]; subst.
    inversion H0 as [|s2 x1 y1 l1 v1 w1 v2 w2 H1 Hv1 Hw1]; subst.
    eapply (SC_cons s2); [eapply (SC_cons s); [exact H1|reflexivity|reflexivity]| |]; lia.
  - auto.
Qed.

Lemma SC_flip l v w : SC l (v, w) -> SC l (- v, - w).
Proof.
  remember (v, w) as vw eqn:E. intros H. revert v w E.
  induction H as [|s x y l v0 w0 v' w' H IH Hv Hw]; intros v w E; injection E as E1 E2; subst.
  - apply SC_nil.
  - eapply (SC_cons (negb s)); [apply IH; reflexivity| |]; destruct s; simpl; lia.
Qed.

(** entries up to a global sign; merging two entries with either relative orientation *)
Definition same_or_neg (g h : Z * Z) : Prop :=
  (fst g = fst h /\ snd g = snd h) \/ (fst g = - fst h /\ snd g = - snd h).
Definition gmerge (s : bool) (g h : Z * Z) : Z * Z :=
  (fst g + (if s then fst h else - fst h), snd g + (if s then snd h else - snd h)).

Lemma same_or_neg_sym g h : same_or_neg g h -> same_or_neg h g.
Proof. unfold same_or_neg. lia. Qed.

Lemma SC_head_eq g g' l v : same_or_neg g' g -> SC (g :: l) v -> SC (g' :: l) v.
Proof.
  destruct g as [x y], g' as [x' y']. unfold same_or_neg. cbn [fst snd]. intros E H.
  inversion H as [|s x0 y0 l0 v0 w0 v' w' H0 Hv Hw]; subst.
  destruct E as [[-> ->]|[-> ->]]; [exact H|].
  eapply (SC_cons (negb s)); [exact H0| |]; destruct s; simpl; lia.
Qed.

Lemma SC_merge s g h l v : SC (gmerge s g h :: l) v -> SC (g :: h :: l) v.
Proof.
  destruct g as [xa ya], h as [xb yb]. unfold gmerge. cbn [fst snd]. intros H.
  inversion H as [|t x0 y0 l0 v0 w0 v' w' H0 Hv Hw]; subst.
  eapply (SC_cons t); [eapply (SC_cons (if t then s else negb s)); [exact H0|reflexivity|reflexivity]| |];
    destruct t, s; simpl; lia.
Qed.

Lemma SC_unmerge g h l v : SC (g :: h :: l) v -> exists s, SC (gmerge s g h :: l) v.
Proof.
  destruct g as [xa ya], h as [xb yb]. unfold gmerge. cbn [fst snd]. intros H.
  inversion H as [|s x0 y0 l0 v0 w0 v' w' H0 Hv Hw]; subst.
  inversion H0 as [|s2 x1 y1 l1 v1 w1 v2 w2 H1 Hv1 Hw1]; subst.
  exists (Bool.eqb s s2). eapply (SC_cons s); [exact H1| |]; destruct s, s2; simpl; lia.
Qed.

Lemma SC_snoc_cons (g : Z * Z) l v : SC (l ++ [g]) v <-> SC (g :: l) v.
Proof.
  split; apply SC_perm; [symmetry|]; apply Permutation_cons_append.
Qed.

Lemma SC_bound l v : SC l v ->
  2 * zmax_list 0 (map (fun p => Z.abs (fst p)) l) - zsum (map (fun p => Z.abs (fst p)) l) <= Z.abs (fst v) /\
  2 * zmax_list 0 (map (fun p => Z.abs (snd p)) l) - zsum (map (fun p => Z.abs (snd p)) l) <= Z.abs (snd v).
Proof.
  intros H. destruct (SC_signs l v H) as (signs & Hl & -> & ->).
  rewrite <- (map_map fst Z.abs), <- (map_map snd Z.abs).
  split; apply signed_sum_prune_abs; rewrite map_length; exact Hl.
Qed.

(** alternating signs balance a vector of ones *)
Lemma SC_ones (l : list (Z * Z)) :
  Forall (fun p => snd p = 1) l -> exists v w, SC l (v, w) /\ (w = 0 \/ w = 1).
Proof.
  induction 1 as [|[x y] l Hy Hl IH].
  - exists 0, 0. split; [constructor|auto].
  - simpl in Hy. subst y. destruct IH as (v & w & H & [->| ->]).
    + exists (x + v), 1. split; [eapply (SC_cons true); [exact H| |]; reflexivity|auto].
    + exists (- x + v), 0. split; [eapply (SC_cons false); [exact H| |]; reflexivity|auto].
Qed.

(** masks follow permutations *)
Lemma mask_perm vs vs' : Permutation vs vs' -> forall mask, length mask = length vs ->
  exists mask', length mask' = length vs' /\ side_sum vs' mask' = side_sum vs mask /\
                side_count mask' = side_count mask.
Proof.
  induction 1 as [|x l l' P IH|x y l|l1 l2 l3 P1 IH1 P2 IH2]; intros mask Hl.
  - exists mask. auto.
  - destruct mask as [|b m]; [discriminate Hl|]. cbn [length] in Hl.
    destruct (IH m) as (m' & H1 & H2 & H3); [lia|].
    exists (b :: m'). cbn [length side_sum side_count]. repeat split; lia.
  - destruct mask as [|b1 [|b2 m]]; try discriminate Hl.
    exists (b2 :: b1 :: m). cbn [length side_sum side_count] in *. repeat split; lia.
  - destruct (IH1 mask Hl) as (m1 & H1 & H2 & H3). destruct (IH2 m1 H1) as (m2 & H4 & H5 & H6).
    exists m2. repeat split; lia.
Qed.

(** * Part B: the model *)

Section CBLDMProofs.
  Context {A : Type} (valueof : A -> Z).

  (** ** last element of a descending sort is a minimum *)
  Lemma last_opt_snoc {T} (l : list T) x : last_opt (l ++ [x]) = Some x.
  Proof. unfold last_opt. rewrite rev_app_distr. reflexivity. Qed.

  Lemma last_opt_nil_iff {T} (l : list T) : last_opt l = None <-> l = [].
  Proof.
    split; [|intros ->; reflexivity].
    destruct l as [|x t] using rev_ind; auto. rewrite last_opt_snoc. discriminate.
  Qed.

  Lemma sorted_desc_last_le {T} (key : T -> Z) l x :
    StronglySorted (fun a b => key b <= key a) (l ++ [x]) -> Forall (fun y => key x <= key y) (l ++ [x]).
  Proof.
    induction l as [|y t IH]; simpl; intros H.
    - constructor; [lia|constructor].
    - inversion H as [|y0 t0 Ht Hy]; subst. constructor; auto.
      rewrite Forall_forall in Hy. apply Hy. apply in_or_app. right. left. reflexivity.
  Qed.

  Lemma sort_desc_last_min (items : list A) l :
    last_opt (sort_desc valueof items) = Some l ->
    In l items /\ Forall (fun y => valueof l <= valueof y) items.
  Proof.
    intros H. pose proof (sort_desc_sorted valueof items) as S. pose proof (sort_desc_perm valueof items) as P.
    destruct (sort_desc valueof items) as [|x t] using rev_ind; [discriminate H|].
    rewrite last_opt_snoc in H. injection H as ->. split.
    - eapply Permutation_in; [exact P|]. apply in_or_app. right. left. reflexivity.
    - eapply Permutation_Forall; [exact P|]. apply sorted_desc_last_le. exact S.
  Qed.

  Lemma last_opt_sort_desc (items : list A) : items <> [] -> last_opt (sort_desc valueof items) <> None.
  Proof. intros Hne E. apply last_opt_nil_iff in E. exact (sort_desc_nonnil valueof items Hne E). Qed.

  (** ** Argument validation (C19) *)
  Lemma cbldm_neg_check (items : list A) l :
    last_opt (sort_desc valueof items) = Some l ->
    (valueof l <? 0) = true <-> Exists (fun x => valueof x < 0) items.
  Proof.
    intros H. destruct (sort_desc_last_min items l H) as [Hin Hall]. split.
    - intros E. apply Exists_exists. exists l. split; [exact Hin|lia].
    - intros E. apply Exists_exists in E. destruct E as (x & Hx & Hneg).
      rewrite Forall_forall in Hall. specialize (Hall x Hx). lia.
  Qed.

  Theorem cbldm_error_iff : forall k items tl d dint limit, items <> [] ->
    ((exists e, cbldm valueof k items tl d dint limit = Err e) <->
     (k <> 2%nat \/ tl = false \/ d < 1 \/ dint = false \/ Exists (fun x => valueof x < 0) items)).
  Proof.
    intros k items tl d dint limit Hne. unfold cbldm.
    destruct (Nat.eqb k 2) eqn:Ek; cbn [negb].
    2:{ split; [intros _; left; apply Nat.eqb_neq; exact Ek|intros _; eexists; reflexivity]. }
    apply Nat.eqb_eq in Ek. destruct tl; cbn [negb].
    2:{ split; [intros _; auto|intros _; eexists; reflexivity]. }
    destruct (d <? 1) eqn:Ed; cbn [orb].
    1:{ split; [intros _; right; right; left; lia|intros _; eexists; reflexivity]. }
    destruct dint; cbn [negb].
    2:{ split; [intros _; auto|intros _; eexists; reflexivity]. }
    destruct (last_opt (sort_desc valueof items)) as [l|] eqn:El.
    2:{ exfalso. exact (last_opt_sort_desc items Hne El). }
    pose proof (cbldm_neg_check items l El) as Hc. destruct (valueof l <? 0) eqn:En.
    - split; [intros _; right; right; right; right; apply Hc; reflexivity|intros _; eexists; reflexivity].
    - split; [intros [e He]; discriminate He|].
      intros [H|[H|[H|[H|H]]]]; try lia; try discriminate H. apply Hc in H. discriminate H.
  Qed.

  Theorem cbldm_error_kind : forall k items tl d dint limit e,
    cbldm valueof k items tl d dint limit = Err e -> items <> [] -> e = ValueError.
  Proof.
    intros k items tl d dint limit e H Hne. unfold cbldm in H.
    destruct (negb (Nat.eqb k 2)); [injection H as <-; reflexivity|].
    destruct (negb tl); [injection H as <-; reflexivity|].
    destruct ((d <? 1) || negb dint); [injection H as <-; reflexivity|].
    destruct (last_opt (sort_desc valueof items)) as [l|] eqn:El.
    - destruct (valueof l <? 0); [injection H as <-; reflexivity|discriminate H].
    - exfalso. exact (last_opt_sort_desc items Hne El).
  Qed.

  (** the empty input is the only source of a different error *)
  Example cbldm_empty_IndexError : cbldm valueof 2 [] true 1 true None = Err IndexError.
  Proof. reflexivity. Qed.

  (** ** The recursion, one step at a time *)
  Notation subp := (@sub A).
  Notation state := (@cb_state A).

  Definition tick (st : state) : state :=
    mk_cb (cb_best st) (cb_delta st) (cb_opt st) (S (cb_ticks st)).
  Definition stop (limit : option nat) (st : state) : bool :=
    match limit with Some n => Nat.ltb n (cb_ticks st) | None => false end || cb_opt st.
  Definition leaf_step (d : Z) (p : subp) (st : state) : state :=
    if (len_diff p <=? d) && lt_delta (sum_diff p) (cb_delta st)
    then mk_cb (Some p) (Some (sum_diff p)) (sum_diff p =? 0) (cb_ticks st) else st.
  (** the quantity [2 max - sum] used by both prunes *)
  Definition prune_bound (f : subp -> Z) (subs : list subp) : Z :=
    2 * zmax_list 0 (map f subs) - zsum (map f subs).
  Definition pruned (d : Z) (subs : list subp) (st : state) : bool :=
    ge_delta (prune_bound sum_diff subs) (cb_delta st) || (d <? prune_bound len_diff subs).
  Definition reorder (n : nat) (subs : list subp) : list subp :=
    if Nat.leb (length subs) (Nat.div (n + 1) 2) then sort_asc (fun s => - sum_diff s) subs else subs.
  Definition merge_bin (x y : bin A) : bin A := combine_bin (combine_bin empty_bin x) y.
  Definition mk_comb (a b : subp) : subp :=
    sort_bins (pair_bins (merge_bin (bin_at a 0) (bin_at b 0)) (merge_bin (bin_at a 1) (bin_at b 1))).
  Definition mk_split (a b : subp) : subp :=
    sort_bins (pair_bins (merge_bin (bin_at a 1) (bin_at b 0)) (merge_bin (bin_at a 0) (bin_at b 1))).

  Lemma if_orb {T} (a b : bool) (X Y : T) :
    (if a then X else if b then X else Y) = (if a || b then X else Y).
  Proof. destruct a; reflexivity. Qed.

  Lemma cb_part_unfold n d limit fuel subs st :
    cb_part n d limit fuel subs st =
    if stop limit (tick st) then tick st else
    match subs with
    | [] => tick st
    | [p] => leaf_step d p (tick st)
    | _ :: _ :: _ =>
        if pruned d subs (tick st) then tick st else
        match fuel, reorder n subs with
        | S f, a :: b :: rest =>
            cb_part n d limit f (rest ++ [mk_comb a b])
                    (cb_part n d limit f (rest ++ [mk_split a b]) (tick st))
        | _, _ => tick st
        end
    end.
  Proof.
    destruct fuel as [|f]; cbn [cb_part]; fold (tick st); fold (stop limit (tick st)).
    all: destruct (stop limit (tick st)); [reflexivity|].
    all: destruct subs as [|p [|q r]]; try reflexivity.
    all: unfold pruned, prune_bound; apply if_orb.
  Qed.

  Lemma reorder_perm n subs : Permutation (reorder n subs) subs.
  Proof. unfold reorder. destruct (Nat.leb _ _); [apply sort_asc_perm|reflexivity]. Qed.

  Lemma reorder_length n subs : length (reorder n subs) = length subs.
  Proof. apply Permutation_length, reorder_perm. Qed.

  (** ** Structural facts on two-bin sub-partitions *)
  Definition sub_ok (s : subp) : Prop := length s = 2%nat /\ wf valueof s.
  Definition all_contents (subs : list subp) : list A := concat (map contents subs).
  Definition subs_ok (items : list A) (subs : list subp) : Prop :=
    Forall sub_ok subs /\ Permutation (all_contents subs) items.

  Lemma contents_two (a : subp) : length a = 2%nat -> contents a = snd (bin_at a 0) ++ snd (bin_at a 1).
  Proof.
    destruct a as [|x [|y [|z t]]]; simpl; intros H; try discriminate H.
    unfold contents, lists. simpl. rewrite app_nil_r. reflexivity.
  Qed.

  Lemma bin_at_wf (s : subp) i : wf valueof s -> wf_bin valueof (bin_at s i).
  Proof.
    unfold bin_at, wf. intros H. destruct (nth_in_or_default i s empty_bin) as [Hin|E].
    - rewrite Forall_forall in H. apply H. exact Hin.
    - rewrite E. reflexivity.
  Qed.

  Lemma merge_bin_wf x y : wf_bin valueof x -> wf_bin valueof y -> wf_bin valueof (merge_bin x y).
  Proof.
    intros Hx Hy. unfold merge_bin. apply combine_bin_wf; [|exact Hy].
    apply combine_bin_wf; [reflexivity|exact Hx].
  Qed.

  Lemma merge_bin_fst x y : fst (merge_bin x y) = fst x + fst y.
  Proof. unfold merge_bin, combine_bin, empty_bin. simpl. lia. Qed.

  Lemma merge_bin_snd x y : snd (merge_bin x y) = snd x ++ snd y.
  Proof. reflexivity. Qed.

  Lemma sort_bins_two (x y : bin A) :
    sort_bins (pair_bins x y) = if fst x <=? fst y then [x; y] else [y; x].
  Proof. reflexivity. Qed.

  (** the shape of both children of a node *)
  Definition merged (x0 x1 y0 y1 : bin A) : subp :=
    sort_bins (pair_bins (merge_bin x0 y0) (merge_bin x1 y1)).

  Lemma merged_ok x0 x1 y0 y1 :
    wf_bin valueof x0 -> wf_bin valueof x1 -> wf_bin valueof y0 -> wf_bin valueof y1 ->
    sub_ok (merged x0 x1 y0 y1) /\
    Permutation (contents (merged x0 x1 y0 y1)) ((snd x0 ++ snd x1) ++ snd y0 ++ snd y1).
  Proof.
    intros Hx0 Hx1 Hy0 Hy1. unfold merged. split; [split|].
    - rewrite sort_bins_length. reflexivity.
    - apply sort_bins_wf. unfold pair_bins. repeat constructor; apply merge_bin_wf; assumption.
    - rewrite sort_bins_contents. unfold pair_bins, contents, lists. cbn [map concat].
      rewrite app_nil_r, !merge_bin_snd, <- !app_assoc.
      apply Permutation_app_head, Permutation_app_swap_app.
  Qed.

  (** the two children of a node: combined ([true]) and split ([false]) *)
  Definition mk_child (s : bool) (a b : subp) : subp := if s then mk_comb a b else mk_split a b.

  Lemma mk_child_ok s a b : sub_ok a -> sub_ok b ->
    sub_ok (mk_child s a b) /\ Permutation (contents (mk_child s a b)) (contents a ++ contents b).
  Proof.
    intros [La Wa] [Lb Wb]. rewrite (contents_two a La), (contents_two b Lb).
    destruct s; cbn [mk_child].
    - apply merged_ok; apply bin_at_wf; assumption.
    - destruct (merged_ok (bin_at a 1) (bin_at a 0) (bin_at b 0) (bin_at b 1)) as [H1 H2];
        try (apply bin_at_wf; assumption).
      split; [exact H1|]. etransitivity; [exact H2|].
      apply Permutation_app_tail, Permutation_app_comm.
  Qed.

  Lemma all_contents_perm subs subs' :
    Permutation subs subs' -> Permutation (all_contents subs) (all_contents subs').
  Proof.
    unfold all_contents. induction 1 as [|x l l' P IH|x y l|l l' l'' P1 IH1 P2 IH2]; simpl.
    - reflexivity.
    - apply Permutation_app_head. exact IH.
    - rewrite !app_assoc. apply Permutation_app_tail. apply Permutation_app_comm.
    - etransitivity; eassumption.
  Qed.

  Lemma subs_ok_perm items subs subs' : Permutation subs subs' -> subs_ok items subs -> subs_ok items subs'.
  Proof.
    intros P [H1 H2]. split.
    - eapply Permutation_Forall; eassumption.
    - rewrite <- (all_contents_perm subs subs' P). exact H2.
  Qed.

  Lemma subs_ok_node s n items subs a b rest :
    subs_ok items subs -> reorder n subs = a :: b :: rest -> subs_ok items (rest ++ [mk_child s a b]).
  Proof.
    intros H E. apply (subs_ok_perm items _ _ (Permutation_sym (reorder_perm n subs))) in H.
    rewrite E in H. destruct H as [H1 H2].
    inversion H1 as [|a0 l0 Ha H1']; subst. inversion H1' as [|b0 l1 Hb Hr]; subst.
    destruct (mk_child_ok s a b Ha Hb) as [Hc Pc]. split.
    - apply Forall_app. split; [exact Hr|]. constructor; [exact Hc|constructor].
    - rewrite <- H2. unfold all_contents. rewrite map_app, concat_app. simpl. rewrite app_nil_r.
      rewrite Pc. etransitivity; [apply Permutation_app_comm|]. rewrite <- app_assoc. reflexivity.
  Qed.

  Lemma subs_ok_leaf items p : subs_ok items [p] -> is_partition valueof 2 items p.
  Proof.
    intros [H1 H2]. inversion H1 as [|p0 l0 [Lp Wp] _]; subst.
    unfold all_contents in H2. simpl in H2. rewrite app_nil_r in H2. split; [exact H2|split; assumption].
  Qed.

  (** ** Signed gaps: the pair (sum gap, count gap) of a sub-partition *)
  Definition blen (x : bin A) : Z := Z.of_nat (length (snd x)).
  Definition ssum (p : subp) : Z := fst (bin_at p 1) - fst (bin_at p 0).
  Definition slen (p : subp) : Z := blen (bin_at p 1) - blen (bin_at p 0).
  Definition gauge (p : subp) : Z * Z := (ssum p, slen p).

  Lemma sum_diff_abs p : sum_diff p = Z.abs (ssum p).
  Proof. unfold sum_diff, ssum. lia. Qed.
  Lemma len_diff_abs p : len_diff p = Z.abs (slen p).
  Proof. unfold len_diff, slen, blen. lia. Qed.

  Lemma merge_bin_blen x y : blen (merge_bin x y) = blen x + blen y.
  Proof. unfold blen. rewrite merge_bin_snd, app_length. lia. Qed.

  Lemma gauge_merged (x0 x1 y0 y1 : bin A) :
    same_or_neg (gauge (merged x0 x1 y0 y1))
                (fst x1 - fst x0 + (fst y1 - fst y0), blen x1 - blen x0 + (blen y1 - blen y0)).
  Proof.
    unfold merged. rewrite sort_bins_two, !merge_bin_fst.
    unfold same_or_neg, gauge, ssum, slen, bin_at.
    destruct (_ <=? _); cbn [nth fst snd]; rewrite !merge_bin_fst, !merge_bin_blen; lia.
  Qed.

  (** up to a global sign, a child's gaps are the sum (combined) or the difference (split)
      of its parents' gaps *)
  Lemma gauge_child s a b : same_or_neg (gauge (mk_child s a b)) (gmerge s (gauge a) (gauge b)).
  Proof.
    destruct s; cbn [mk_child].
    - exact (gauge_merged (bin_at a 0) (bin_at a 1) (bin_at b 0) (bin_at b 1)).
    - pose proof (gauge_merged (bin_at a 1) (bin_at a 0) (bin_at b 0) (bin_at b 1)) as H.
      change (merged _ _ _ _) with (mk_split a b) in H.
      unfold same_or_neg, gmerge, gauge, ssum, slen in *. cbn [fst snd] in *. lia.
  Qed.

  Lemma diff_child s a b :
    sum_diff (mk_child s a b) = Z.abs (ssum a + (if s then ssum b else - ssum b)) /\
    len_diff (mk_child s a b) = Z.abs (slen a + (if s then slen b else - slen b)).
  Proof.
    rewrite sum_diff_abs, len_diff_abs. pose proof (gauge_child s a b) as H.
    unfold same_or_neg, gmerge, gauge in H. cbn [fst snd] in H. lia.
  Qed.

  (** every sub-partition built by a node is sorted by sum *)
  Lemma pair_sorted_sorted (x y : bin A) : 0 <= ssum (sort_bins (pair_bins x y)).
  Proof. rewrite sort_bins_two. destruct (fst x <=? fst y) eqn:E; unfold ssum, bin_at; cbn [nth]; lia. Qed.

  Lemma mk_split_sorted a b : 0 <= ssum (mk_split a b).
  Proof. apply pair_sorted_sorted. Qed.
  Lemma mk_comb_sorted a b : 0 <= ssum (mk_comb a b).
  Proof. apply pair_sorted_sorted. Qed.

  (** with both inputs sorted by sum, the children's sum gaps are
      [|x_a - x_b|] (split) and [x_a + x_b] (combined) *)
  Lemma sum_diff_split_sorted a b : 0 <= ssum a -> 0 <= ssum b ->
    sum_diff (mk_split a b) = Z.abs (sum_diff a - sum_diff b).
  Proof.
    intros Ha Hb. destruct (diff_child false a b) as [E _]. cbn [mk_child] in E.
    rewrite E, !sum_diff_abs. lia.
  Qed.
  Lemma sum_diff_comb_sorted a b : 0 <= ssum a -> 0 <= ssum b ->
    sum_diff (mk_comb a b) = sum_diff a + sum_diff b.
  Proof.
    intros Ha Hb. destruct (diff_child true a b) as [E _]. cbn [mk_child] in E.
    rewrite E, !sum_diff_abs. lia.
  Qed.
  Lemma len_diff_split a b : len_diff (mk_split a b) = Z.abs (slen a - slen b).
  Proof.
    destruct (diff_child false a b) as [_ E]. cbn [mk_child] in E. rewrite E. reflexivity.
  Qed.
  Lemma len_diff_comb a b : len_diff (mk_comb a b) = Z.abs (slen a + slen b).
  Proof. exact (proj2 (diff_child true a b)). Qed.

  (** ** The leaves of the search tree (no pruning, no interruption) *)
  Inductive leaf_below (n : nat) : list subp -> subp -> Prop :=
  | LB_leaf p : leaf_below n [p] p
  | LB_split subs a b rest p :
      reorder n subs = a :: b :: rest -> leaf_below n (rest ++ [mk_split a b]) p -> leaf_below n subs p
  | LB_comb subs a b rest p :
      reorder n subs = a :: b :: rest -> leaf_below n (rest ++ [mk_comb a b]) p -> leaf_below n subs p.

  Lemma LB_child s n subs a b rest p : reorder n subs = a :: b :: rest ->
    leaf_below n (rest ++ [mk_child s a b]) p -> leaf_below n subs p.
  Proof. destruct s; [apply LB_comb|apply LB_split]. Qed.

  Lemma SC_reorder n subs v : SC (map gauge (reorder n subs)) v <-> SC (map gauge subs) v.
  Proof.
    split; apply SC_perm; apply Permutation_map; [|symmetry]; apply reorder_perm.
  Qed.

  Lemma SC_child s a b rest v :
    SC (map gauge (rest ++ [mk_child s a b])) v <->
    SC (gmerge s (gauge a) (gauge b) :: map gauge rest) v.
  Proof.
    rewrite map_app. cbn [map]. rewrite SC_snoc_cons.
    split; apply SC_head_eq; [apply same_or_neg_sym|]; apply gauge_child.
  Qed.

  (** a leaf's signed gaps are a signed combination of the node's *)
  Lemma leaf_SC n subs p : leaf_below n subs p -> SC (map gauge subs) (gauge p).
  Proof.
    induction 1 as [p|subs a b rest p E H IH|subs a b rest p E H IH].
    - simpl. unfold gauge. eapply (SC_cons true); [apply SC_nil| |]; lia.
    - apply (SC_reorder n). rewrite E. apply (SC_merge false), (SC_child false). exact IH.
    - apply (SC_reorder n). rewrite E. apply (SC_merge true), (SC_child true). exact IH.
  Qed.

  (** conversely every signed combination is realised (up to a global sign) by a leaf *)
  Lemma SC_leaf n m : forall subs v w, length subs = S m -> SC (map gauge subs) (v, w) ->
    exists p, leaf_below n subs p /\ (gauge p = (v, w) \/ gauge p = (- v, - w)).
  Proof.
    induction m as [|m IH]; intros subs v w Hl H.
    - destruct subs as [|p [|q r]]; try discriminate Hl. exists p. split; [constructor|].
      simpl in H. inversion H as [|s x y l v0 w0 v' w' H0 Hv Hw]; subst.
      inversion H0; subst. unfold gauge. destruct s; [left|right]; f_equal; lia.
    - pose proof (reorder_length n subs) as Hr.
      destruct (reorder n subs) as [|a [|b rest]] eqn:E; simpl in Hr; try lia.
      apply (SC_reorder n) in H. rewrite E in H. apply SC_unmerge in H. destruct H as [s H].
      apply (SC_child s) in H.
      destruct (IH (rest ++ [mk_child s a b]) v w) as (p & Hp & Hg);
        [rewrite app_length; simpl; lia|exact H|].
      exists p. split; [eapply LB_child; eassumption|exact Hg].
  Qed.

  Lemma leaf_below_nonempty n subs p : leaf_below n subs p -> subs <> [].
  Proof.
    intros H E. subst. inversion H as [|subs a b rest p0 Er _|subs a b rest p0 Er _]; subst;
      pose proof (reorder_length n []) as Hr; rewrite Er in Hr; discriminate Hr.
  Qed.

  Lemma leaf_below_single n q p : leaf_below n [q] p -> p = q.
  Proof.
    intros H. inversion H as [|subs a b rest p0 Er _|subs a b rest p0 Er _]; subst; auto;
      pose proof (reorder_length n [q]) as Hr; rewrite Er in Hr; discriminate Hr.
  Qed.

  (** ** The sum prune and the count prune are sound: [2 max - sum] of the
      node's gaps is a lower bound of the gap of every leaf below the node *)
  Theorem sum_prune_sound n subs p : leaf_below n subs p -> prune_bound sum_diff subs <= sum_diff p.
  Proof.
    intros H. apply leaf_SC, SC_bound, proj1 in H. rewrite !map_map in H.
    unfold prune_bound. rewrite sum_diff_abs.
    rewrite (map_ext sum_diff (fun x => Z.abs (fst (gauge x)))); [exact H|].
    intros q. apply sum_diff_abs.
  Qed.

  Theorem len_prune_sound n subs p : leaf_below n subs p -> prune_bound len_diff subs <= len_diff p.
  Proof.
    intros H. apply leaf_SC, SC_bound, proj2 in H. rewrite !map_map in H.
    unfold prune_bound. rewrite len_diff_abs.
    rewrite (map_ext len_diff (fun x => Z.abs (snd (gauge x)))); [exact H|].
    intros q. apply len_diff_abs.
  Qed.

  (** the same over plain sign vectors: [xs] are the sum gaps of the node *)
  Theorem sum_prune_arith : forall signs xs, Forall (fun x => 0 <= x) xs -> length signs = length xs ->
    2 * zmax_list 0 xs - zsum xs <= Z.abs (signed_sum signs xs).
  Proof. exact signed_sum_prune. Qed.

  (** and every leaf's sum gap is such a signed combination of the node's sum gaps *)
  Theorem leaf_signed_sum n subs p : leaf_below n subs p ->
    exists signs, length signs = length subs /\
                  sum_diff p = Z.abs (signed_sum signs (map sum_diff subs)) /\
                  Forall (fun x => 0 <= x) (map sum_diff subs).
  Proof.
    intros H. apply leaf_SC in H. apply SC_signs in H. destruct H as (signs & Hl & E1 & _).
    rewrite map_length in Hl. simpl in E1. rewrite map_map in E1.
    destruct (signed_sum_abs signs (map (fun x => fst (gauge x)) subs)) as (signs' & Hl' & E'); [rewrite map_length; exact Hl|].
    rewrite map_length in Hl'. exists signs'. split; [exact Hl'|]. split.
    - rewrite sum_diff_abs, E1, E'. rewrite map_map.
      rewrite (map_ext sum_diff (fun x => Z.abs (fst (gauge x)))); [reflexivity|]. intros q. apply sum_diff_abs.
    - rewrite Forall_map. apply Forall_forall. intros q _. rewrite sum_diff_abs. lia.
  Qed.

  (** ** Big-step view of [cb_part].  [strict = true]: the fuel never runs out. *)
  Section Run.
    Variables (n : nat) (d : Z) (limit : option nat).

    Inductive cb_run (strict : bool) : list subp -> state -> state -> Prop :=
    | R_stop subs st : stop limit (tick st) = true -> cb_run strict subs st (tick st)
    | R_nil st : stop limit (tick st) = false -> cb_run strict [] st (tick st)
    | R_leaf p st : stop limit (tick st) = false -> cb_run strict [p] st (leaf_step d p (tick st))
    | R_prune subs st : (2 <= length subs)%nat -> stop limit (tick st) = false ->
        pruned d subs (tick st) = true -> cb_run strict subs st (tick st)
    | R_node subs st a b rest st1 st2 : (2 <= length subs)%nat -> stop limit (tick st) = false ->
        pruned d subs (tick st) = false -> reorder n subs = a :: b :: rest ->
        cb_run strict (rest ++ [mk_split a b]) (tick st) st1 ->
        cb_run strict (rest ++ [mk_comb a b]) st1 st2 ->
        cb_run strict subs st st2
    | R_nofuel subs st : strict = false -> (2 <= length subs)%nat -> stop limit (tick st) = false ->
        pruned d subs (tick st) = false -> cb_run strict subs st (tick st).

    Lemma cb_run_lax strict subs st st' : cb_run strict subs st st' -> cb_run false subs st st'.
    Proof.
      induction 1 as [subs st H|st H|p st H|subs st Hl H Hp|subs st a b rest st1 st2 Hl H Hp E _ IH1 _ IH2|subs st _ Hl H Hp].
      - apply R_stop; assumption.
      - apply R_nil; assumption.
      - apply R_leaf; assumption.
      - apply R_prune; assumption.
      - eapply R_node; eassumption.
      - apply R_nofuel; auto.
    Qed.

    (** induction for what does not depend on why a branch ended: a run only ticks, or ticks and
        records a leaf, or ticks and then runs the two children one after the other *)
    Lemma cb_run_states (P : list subp -> state -> state -> Prop) :
      (forall subs st, P subs st (tick st)) ->
      (forall p st, P [p] st (leaf_step d p (tick st))) ->
      (forall subs st a b rest st1 st2, reorder n subs = a :: b :: rest ->
         P (rest ++ [mk_split a b]) (tick st) st1 -> P (rest ++ [mk_comb a b]) st1 st2 -> P subs st st2) ->
      forall strict subs st st', cb_run strict subs st st' -> P subs st st'.
    Proof.
      intros Ptick Pleaf Pnode strict subs st st'.
      induction 1 as [subs st H|st H|p st H|subs st Hl H Hp|subs st a b rest st1 st2 Hl H Hp E _ IH1 _ IH2|subs st _ Hl H Hp];
        auto.
      eapply Pnode; eassumption.
    Qed.

    Lemma cb_part_run_gen strict fuel : forall subs st,
      (strict = true -> (length subs <= S fuel)%nat) ->
      cb_run strict subs st (cb_part n d limit fuel subs st).
    Proof.
      induction fuel as [|f IH]; intros subs st Hf; rewrite cb_part_unfold.
      all: destruct (stop limit (tick st)) eqn:Es; [apply R_stop; exact Es|].
      all: destruct subs as [|p [|q r]]; [apply R_nil; exact Es|apply R_leaf; exact Es|].
      all: destruct (pruned d (p :: q :: r) (tick st)) eqn:Ep; [apply R_prune; simpl; auto; lia|].
      - destruct strict; [specialize (Hf eq_refl); simpl in Hf; lia|].
        apply R_nofuel; simpl; auto; lia.
      - pose proof (reorder_length n (p :: q :: r)) as Hr.
        destruct (reorder n (p :: q :: r)) as [|a [|b rest]] eqn:E; simpl in Hr; try lia.
        eapply R_node; [simpl; lia|exact Es|exact Ep|exact E| |].
        all: apply IH; intros Hs; specialize (Hf Hs); simpl in Hf; rewrite app_length; simpl; lia.
    Qed.

    Lemma cb_part_run fuel subs st : (length subs <= S fuel)%nat ->
      cb_run true subs st (cb_part n d limit fuel subs st).
    Proof. intros H. apply cb_part_run_gen. intros _. exact H. Qed.

    Lemma cb_part_run_lax fuel subs st : cb_run false subs st (cb_part n d limit fuel subs st).
    Proof. apply cb_part_run_gen. intros H. discriminate H. Qed.

    (** *** state invariants *)
    (** incumbent and its recorded gap agree; the optimality flag means gap 0 *)
    Definition coherent (st : state) : Prop :=
      match cb_best st, cb_delta st with
      | None, None => cb_opt st = false
      | Some p, Some v => v = sum_diff p /\ (cb_opt st = true -> v = 0)
      | _, _ => False
      end.

    Definition delta_le (a b : option Z) : Prop :=
      match a, b with
      | _, None => True
      | Some x, Some y => x <= y
      | None, Some _ => False
      end.
    Definition delta_lt (a b : option Z) : Prop :=
      match a, b with
      | Some x, None => True
      | Some x, Some y => x < y
      | None, _ => False
      end.

    Lemma delta_le_refl a : delta_le a a.
    Proof. destruct a; simpl; lia. Qed.
    Lemma delta_le_trans a b c : delta_le a b -> delta_le b c -> delta_le a c.
    Proof. destruct a, b, c; simpl; try lia; tauto. Qed.
    Lemma delta_lt_trans a b c : delta_lt a b -> delta_lt b c -> delta_lt a c.
    Proof. destruct a, b, c; simpl; try lia; tauto. Qed.
    Lemma delta_lt_le a b : delta_lt a b -> delta_le a b.
    Proof. destruct a, b; simpl; try lia; tauto. Qed.

    Lemma leaf_step_ticks p st : cb_ticks (leaf_step d p st) = cb_ticks st.
    Proof. unfold leaf_step. destruct (_ && _); reflexivity. Qed.

    Lemma leaf_step_coherent p st : coherent st -> coherent (leaf_step d p st).
    Proof.
      intros H. unfold leaf_step. destruct (_ && _); [|exact H].
      unfold coherent. simpl. split; [reflexivity|]. intros E. lia.
    Qed.

    (** a step either leaves the incumbent alone or strictly improves it *)
    Definition unchanged_or_better (st st' : state) : Prop :=
      (cb_best st' = cb_best st /\ cb_delta st' = cb_delta st /\ cb_opt st' = cb_opt st) \/
      delta_lt (cb_delta st') (cb_delta st).

    Lemma leaf_step_mono p st : unchanged_or_better st (leaf_step d p st).
    Proof.
      unfold leaf_step. destruct (len_diff p <=? d); cbn [andb]; [|left; auto].
      destruct (lt_delta (sum_diff p) (cb_delta st)) eqn:E; [|left; auto].
      right. simpl. unfold lt_delta in E. destruct (cb_delta st); simpl; [lia|exact I].
    Qed.

    Lemma uob_trans st st1 st2 : unchanged_or_better st st1 -> unchanged_or_better st1 st2 ->
      unchanged_or_better st st2.
    Proof.
      intros [(E1 & E2 & E3)|H1] [(F1 & F2 & F3)|H2].
      - left. repeat split; congruence.
      - right. rewrite <- E2. exact H2.
      - right. rewrite F2. exact H1.
      - right. eapply delta_lt_trans; eassumption.
    Qed.

    Lemma run_ticks strict subs st st' : cb_run strict subs st st' -> (cb_ticks st < cb_ticks st')%nat.
    Proof.
      apply (cb_run_states (fun _ st st' => (cb_ticks st < cb_ticks st')%nat)).
      - intros _ st0. simpl. lia.
      - intros p st0. rewrite leaf_step_ticks. simpl. lia.
      - intros _ st0 _ _ _ st1 st2 _ IH1 IH2. simpl in IH1. lia.
    Qed.

    Lemma run_coherent strict subs st st' : cb_run strict subs st st' -> coherent st -> coherent st'.
    Proof.
      apply (cb_run_states (fun _ st st' => coherent st -> coherent st')); auto.
      intros p st0 Hc. apply leaf_step_coherent. exact Hc.
    Qed.

    Lemma run_mono strict subs st st' : cb_run strict subs st st' -> unchanged_or_better st st'.
    Proof.
      assert (Ht : forall st0, unchanged_or_better st0 (tick st0)) by (left; repeat split; reflexivity).
      apply (cb_run_states (fun _ => unchanged_or_better)).
      - intros _. exact Ht.
      - intros p st0. apply (uob_trans st0 (tick st0)); [apply Ht|apply leaf_step_mono].
      - intros _ st0 _ _ _ st1 st2 _ IH1 IH2. apply (uob_trans st0 (tick st0)); [apply Ht|].
        eapply uob_trans; eassumption.
    Qed.

    Lemma uob_delta_le st st' : unchanged_or_better st st' -> delta_le (cb_delta st') (cb_delta st).
    Proof. intros [(_ & E & _)|H]; [rewrite E; apply delta_le_refl|apply delta_lt_le; exact H]. Qed.

    (** *** safety: the incumbent is always a valid balanced partition *)
    Definition best_ok (items : list A) (st : state) : Prop :=
      forall p, cb_best st = Some p -> is_partition valueof 2 items p /\ len_diff p <= d.

    Lemma run_safe items strict subs st st' : cb_run strict subs st st' ->
      subs_ok items subs -> best_ok items st -> best_ok items st'.
    Proof.
      apply (cb_run_states (fun subs st st' => subs_ok items subs -> best_ok items st -> best_ok items st')).
      - auto.
      - intros p st0 Hs Hb. unfold leaf_step. destruct (len_diff p <=? d) eqn:El; cbn [andb]; [|exact Hb].
        destruct (lt_delta _ _); [|exact Hb]. intros q Hq. simpl in Hq. injection Hq as <-.
        split; [apply subs_ok_leaf; exact Hs|lia].
      - intros subs0 st0 a b rest st1 st2 E IH1 IH2 Hs Hb.
        apply IH2; [exact (subs_ok_node true n items subs0 a b rest Hs E)|].
        apply IH1; [exact (subs_ok_node false n items subs0 a b rest Hs E)|exact Hb].
    Qed.
  End Run.

  (** ** The root of the search *)
  Definition init_subs (sorted : list A) : list subp :=
    map (fun x => add_item valueof true (new_bins 2) x 1) sorted.
  Definition init_state : state := mk_cb None None false O.

  Lemma init_sub_eq x : add_item valueof true (new_bins 2) x 1 = [(0, []); (0 + valueof x, [x])].
  Proof. reflexivity. Qed.

  Lemma init_subs_ok items sorted : Permutation sorted items -> subs_ok items (init_subs sorted).
  Proof.
    intros P. split.
    - unfold init_subs. rewrite Forall_map. apply Forall_forall. intros x _. split.
      + rewrite add_item_length. apply new_bins_length.
      + apply add_item_wf. apply new_bins_wf.
    - rewrite <- P. clear P. unfold all_contents, init_subs. induction sorted as [|x t IH]; simpl; [reflexivity|].
      apply perm_skip. exact IH.
  Qed.

  Lemma init_subs_gauge sorted : Forall (fun g => snd g = 1) (map gauge (init_subs sorted)).
  Proof.
    unfold init_subs. rewrite !Forall_map. apply Forall_forall. intros x _. reflexivity.
  Qed.

  Lemma init_subs_sorted sorted : Forall (fun x => 0 <= valueof x) sorted ->
    Forall (fun s => 0 <= ssum s) (init_subs sorted).
  Proof.
    intros H. unfold init_subs. rewrite Forall_map. eapply Forall_impl; [|exact H].
    intros x Hx. cbv beta in Hx |- *. rewrite init_sub_eq. unfold ssum, bin_at. cbn [nth fst]. lia.
  Qed.

  Lemma init_state_coherent : coherent init_state.
  Proof. reflexivity. Qed.

  Definition cb_root (items : list A) (d : Z) (limit : option nat) : state :=
    cb_part (length items) d limit (length items) (init_subs (sort_desc valueof items)) init_state.
  Definition cb_out (st : state) : result (cbldm_out A * nat) :=
    Ok (match cb_best st with None => CbPlaceholder | Some b => CbBins b end, cb_ticks st).

  (** either the arguments are rejected, whatever the limit, or the result is read off the
      final state of the search *)
  Lemma cbldm_run k items tl d dint :
    (exists e, forall limit, cbldm valueof k items tl d dint limit = Err e) \/
    (forall limit, cbldm valueof k items tl d dint limit = cb_out (cb_root items d limit)).
  Proof.
    unfold cbldm.
    destruct (negb (Nat.eqb k 2)); [left; eexists; intros limit; reflexivity|].
    destruct (negb tl); [left; eexists; intros limit; reflexivity|].
    destruct ((d <? 1) || negb dint); [left; eexists; intros limit; reflexivity|].
    destruct (last_opt (sort_desc valueof items)) as [l|]; [|left; eexists; intros limit; reflexivity].
    destruct (valueof l <? 0); [left; eexists; intros limit; reflexivity|].
    right. reflexivity.
  Qed.

  (** a leaf with count gap at most 1 exists below any root of singletons *)
  Lemma root_balanced_leaf n sorted : sorted <> [] ->
    exists p, leaf_below n (init_subs sorted) p /\ len_diff p <= 1.
  Proof.
    intros Hne. destruct (SC_ones _ (init_subs_gauge sorted)) as (v & w & H & Hw).
    assert (Hl : exists m, length (init_subs sorted) = S m).
    { unfold init_subs. rewrite map_length. destruct sorted as [|x t]; [congruence|]. exists (length t). reflexivity. }
    destruct Hl as [m Hl]. destruct (SC_leaf n m _ v w Hl H) as (p & Hp & Hg).
    exists p. split; [exact Hp|]. rewrite len_diff_abs. unfold gauge in Hg.
    destruct Hg as [Hg|Hg]; injection Hg as _ E; lia.
  Qed.

  (** ** Safety at every interruption point (C11, C12) *)
  Theorem cbldm_safe_gen : forall k items tl d dint limit out t,
    cbldm valueof k items tl d dint limit = Ok (out, t) ->
    out = CbPlaceholder \/
    exists b, out = CbBins b /\ is_partition valueof 2 items b /\ len_diff b <= d.
  Proof.
    intros k items tl d dint limit out t H.
    destruct (cbldm_run k items tl d dint) as [[e He]|He]; rewrite He in H; [discriminate H|].
    unfold cb_out in H. injection H as <- _.
    assert (Hb : best_ok d items (cb_root items d limit)).
    { eapply run_safe; [apply cb_part_run_lax| |].
      - apply init_subs_ok. apply sort_desc_perm.
      - intros p Hp. discriminate Hp. }
    destruct (cb_best (cb_root items d limit)) as [b|] eqn:Eb; [right|left; reflexivity].
    exists b. split; [reflexivity|]. apply Hb. exact Eb.
  Qed.

  Theorem cbldm_safe : forall items d limit out t,
    Forall (fun x => 0 <= valueof x) items -> items <> [] -> 1 <= d ->
    cbldm valueof 2 items true d true limit = Ok (out, t) ->
    out = CbPlaceholder \/
    exists b, out = CbBins b /\ is_partition valueof 2 items b /\ len_diff b <= d.
  Proof. intros items d limit out t _ _ _ H. eapply cbldm_safe_gen. exact H. Qed.

  (** ** The incumbent only improves *)
  Lemma coherent_best st p : coherent st -> cb_best st = Some p -> cb_delta st = Some (sum_diff p).
  Proof.
    unfold coherent. intros H E. rewrite E in H. destruct (cb_delta st) as [v|]; [|destruct H].
    destruct H as [-> _]. reflexivity.
  Qed.

  Lemma coherent_delta st v : coherent st -> cb_delta st = Some v ->
    exists p, cb_best st = Some p /\ v = sum_diff p.
  Proof.
    unfold coherent. intros H E. rewrite E in H. destruct (cb_best st) as [p|]; [|destruct H].
    exists p. split; [reflexivity|apply H].
  Qed.

  (** within any (sub-)run: the incumbent and its gap are untouched, or the gap has
      strictly decreased; the recorded gap is the incumbent's gap *)
  Theorem cbldm_delta_mono : forall n d limit fuel subs st,
    coherent st ->
    let st' := cb_part n d limit fuel subs st in
    coherent st' /\ unchanged_or_better st st' /\
    (forall p, cb_best st' = Some p -> cb_delta st' = Some (sum_diff p)).
  Proof.
    intros n d limit fuel subs st Hc st'.
    pose proof (cb_part_run_lax n d limit fuel subs st) as R. fold st' in R.
    assert (Hc' : coherent st') by (eapply run_coherent; eassumption).
    split; [exact Hc'|]. split; [eapply run_mono; exact R|].
    intros p. apply coherent_best. exact Hc'.
  Qed.

  Corollary cb_part_delta_le n d limit fuel (subs : list subp) (st : state) :
    delta_le (cb_delta (cb_part n d limit fuel subs st)) (cb_delta st).
  Proof. apply uob_delta_le. eapply run_mono. apply cb_part_run_lax. Qed.

  Corollary cb_part_ticks n d limit fuel (subs : list subp) (st : state) :
    (cb_ticks st < cb_ticks (cb_part n d limit fuel subs st))%nat.
  Proof. eapply run_ticks. apply cb_part_run_lax. Qed.

  Lemma root_coherent items d limit : coherent (cb_root items d limit).
  Proof. exact (proj1 (cbldm_delta_mono _ _ _ _ _ _ init_state_coherent)). Qed.

  (** ** Completeness of the search without a limit: the final gap is at most the
      gap of every feasible leaf of the tree *)
  Lemma run_complete n d subs st st' : cb_run n d None true subs st st' -> coherent st ->
    forall p, leaf_below n subs p -> len_diff p <= d ->
    exists v, cb_delta st' = Some v /\ v <= sum_diff p.
  Proof.
    induction 1 as [subs st H|st H|q st H|subs st Hl H Hp|subs st a b rest st1 st2 Hl H Hp E R1 IH1 R2 IH2|subs st Hs Hl H Hp];
      intros Hc p Hlf Hd.
    - unfold stop in H. simpl in H. unfold coherent in Hc. rewrite H in Hc. simpl.
      destruct (cb_best st) as [b|], (cb_delta st) as [v|]; try (destruct Hc; fail); try discriminate Hc.
      exists v. split; [reflexivity|]. destruct Hc as [_ Hv]. rewrite (Hv eq_refl), sum_diff_abs. lia.
    - exfalso. eapply leaf_below_nonempty; [exact Hlf|reflexivity].
    - apply leaf_below_single in Hlf. subst q. unfold leaf_step.
      destruct (len_diff p <=? d) eqn:El; [|lia]. cbn [andb].
      destruct (lt_delta (sum_diff p) (cb_delta (tick st))) eqn:Elt.
      + exists (sum_diff p). split; [reflexivity|lia].
      + unfold lt_delta in Elt. destruct (cb_delta (tick st)) as [x|]; [|discriminate Elt].
        exists x. split; [reflexivity|lia].
    - unfold pruned in Hp. apply orb_true_iff in Hp. destruct Hp as [Hp|Hp].
      + unfold ge_delta in Hp. destruct (cb_delta (tick st)) as [x|]; [|discriminate Hp].
        exists x. split; [reflexivity|]. pose proof (sum_prune_sound n subs p Hlf). lia.
      + pose proof (len_prune_sound n subs p Hlf). lia.
    - inversion Hlf as [q|subs0 a' b' rest' p0 E' Hlf'|subs0 a' b' rest' p0 E' Hlf']; subst.
      + simpl in Hl. lia.
      + rewrite E in E'. injection E' as <- <- <-.
        destruct (IH1 Hc p Hlf' Hd) as (v & Ev & Hv).
        pose proof (uob_delta_le _ _ (run_mono _ _ _ _ _ _ _ R2)) as Hle. rewrite Ev in Hle.
        destruct (cb_delta st2) as [v2|]; simpl in Hle; [|destruct Hle].
        exists v2. split; [reflexivity|lia].
      + rewrite E in E'. injection E' as <- <- <-.
        apply (IH2 (run_coherent _ _ _ _ _ _ _ R1 Hc) p Hlf' Hd).
    - discriminate Hs.
  Qed.

  (** valid arguments are not rejected *)
  Lemma cbldm_valid_run items d limit :
    Forall (fun x => 0 <= valueof x) items -> items <> [] -> 1 <= d ->
    cbldm valueof 2 items true d true limit = cb_out (cb_root items d limit).
  Proof.
    intros Hnn Hne Hd. destruct (cbldm_run 2 items true d true) as [[e He]|He]; [|apply He].
    exfalso. assert (H : exists e, cbldm valueof 2 items true d true limit = Err e)
      by (exists e; apply He).
    apply (cbldm_error_iff 2 items true d true limit Hne) in H.
    destruct H as [H|[H|[H|[H|H]]]]; try lia; try discriminate H.
    apply Exists_exists in H. destruct H as (x & Hx & Hneg).
    rewrite Forall_forall in Hnn. specialize (Hnn x Hx). lia.
  Qed.

  (** without a limit the final gap is at most that of every feasible leaf *)
  Theorem cbldm_leaf_optimal : forall items d,
    Forall (fun x => 0 <= valueof x) items -> items <> [] -> 1 <= d ->
    exists b t, cbldm valueof 2 items true d true None = Ok (CbBins b, t) /\
      forall p, leaf_below (length items) (init_subs (sort_desc valueof items)) p ->
                len_diff p <= d -> sum_diff b <= sum_diff p.
  Proof.
    intros items d Hnn Hne Hd. rewrite (cbldm_valid_run items d None Hnn Hne Hd). unfold cb_out.
    set (subs := init_subs (sort_desc valueof items)).
    pose proof (root_coherent items d None) as Hc'.
    set (st' := cb_root items d None) in *.
    assert (R : cb_run (length items) d None true subs init_state st').
    { apply cb_part_run. unfold subs, init_subs. rewrite map_length, sort_desc_length. lia. }
    destruct (root_balanced_leaf (length items) (sort_desc valueof items) (sort_desc_nonnil valueof items Hne)) as (p0 & Hp0 & Hd0).
    destruct (run_complete _ _ _ _ _ R init_state_coherent p0 Hp0) as (v0 & Ev0 & _); [lia|].
    destruct (coherent_delta _ _ Hc' Ev0) as (b & Eb & _).
    exists b, (cb_ticks st'). rewrite Eb. split; [reflexivity|].
    intros p Hp Hdp. destruct (run_complete _ _ _ _ _ R init_state_coherent p Hp Hdp) as (v & Ev & Hv).
    rewrite (coherent_best _ _ Hc' Eb) in Ev. injection Ev as <-. exact Hv.
  Qed.

  (** never a missing result without a limit (C01/C12) *)
  Theorem cbldm_total : forall items d,
    Forall (fun x => 0 <= valueof x) items -> items <> [] -> 1 <= d ->
    exists b t, cbldm valueof 2 items true d true None = Ok (CbBins b, t).
  Proof.
    intros items d Hnn Hne Hd. destruct (cbldm_leaf_optimal items d Hnn Hne Hd) as (b & t & E & _).
    exists b, t. exact E.
  Qed.

  (** ** Anytime monotonicity: two runs with limits l1 <= l2 *)
  (** a run is cut off once its tick counter has passed the limit (no flag is set:
      every later call returns at once, still counting) *)
  Definition cut (limit : option nat) (st : state) : Prop :=
    match limit with Some k => (k < cb_ticks st)%nat | None => False end.
  (** states identical so far, or the first run is cut off and the second, which goes on
      searching, is at least as good and has read the clock at least as often *)
  Definition sim (l1 : option nat) (st1 st2 : state) : Prop :=
    st1 = st2 \/
    (cut l1 st1 /\ delta_le (cb_delta st2) (cb_delta st1) /\ (cb_ticks st1 <= cb_ticks st2)%nat).

  Lemma cut_stop l st : cut l st -> stop l (tick st) = true.
  Proof.
    unfold cut, stop. destruct l as [k|]; [|tauto]. intros H. cbn [tick cb_ticks].
    apply orb_true_iff. left. apply Nat.ltb_lt. lia.
  Qed.

  Lemma cut_tick l st : cut l st -> cut l (tick st).
  Proof. unfold cut. destruct l as [k|]; [|tauto]. cbn [tick cb_ticks]. lia. Qed.

  Lemma stop_lim l1 l2 st : lim_le l1 l2 -> stop l2 st = true -> stop l1 st = true.
  Proof.
    unfold lim_le, stop. intros Hl H. apply orb_true_iff in H. apply orb_true_iff.
    destruct H as [H|H]; [left|right; exact H].
    destruct l2 as [b|]; [|discriminate H]. destruct l1 as [a|]; [|destruct Hl].
    apply Nat.ltb_lt in H. apply Nat.ltb_lt. lia.
  Qed.

  (** the two stop tests agree, or only the smaller limit has been passed *)
  Lemma stop_cases l1 l2 st : lim_le l1 l2 ->
    stop l2 (tick st) = stop l1 (tick st) \/ (stop l1 (tick st) = true /\ cut l1 (tick st)).
  Proof.
    intros Hl. destruct (stop l1 (tick st)) eqn:E1, (stop l2 (tick st)) eqn:E2; auto.
    - right. split; [reflexivity|]. unfold stop in E1, E2. unfold cut.
      apply orb_false_iff in E2. destruct E2 as [_ E2]. rewrite E2, orb_false_r in E1.
      destruct l1 as [k|]; [apply Nat.ltb_lt in E1; exact E1|discriminate E1].
    - rewrite (stop_lim l1 l2 _ Hl E2) in E1. discriminate E1.
  Qed.

  (** once the first run stops at a call because of its limit, it stays cut off *)
  Lemma sim_cut n d l1 l2 fuel (subs : list subp) st1 st2 :
    stop l1 (tick st1) = true -> cut l1 (tick st1) ->
    delta_le (cb_delta st2) (cb_delta st1) -> (cb_ticks st1 <= cb_ticks st2)%nat ->
    sim l1 (cb_part n d l1 fuel subs st1) (cb_part n d l2 fuel subs st2).
  Proof.
    intros Es Hc Hd Ht. rewrite (cb_part_unfold n d l1 fuel subs st1), Es.
    right. split; [exact Hc|]. pose proof (cb_part_ticks n d l2 fuel subs st2).
    cbn [tick cb_delta cb_ticks]. split; [|lia].
    eapply delta_le_trans; [apply cb_part_delta_le|exact Hd].
  Qed.

  Lemma sim_part n d l1 l2 : lim_le l1 l2 -> forall fuel (subs : list subp) st1 st2,
    sim l1 st1 st2 -> sim l1 (cb_part n d l1 fuel subs st1) (cb_part n d l2 fuel subs st2).
  Proof.
    intros Hl. induction fuel as [|f IH]; intros subs st1 st2 [->|(Hc & Hd & Ht)].
    2,4: apply sim_cut; auto using cut_stop, cut_tick.
    all: destruct (stop_cases l1 l2 st2 Hl) as [E|[E Hc]];
      [|apply sim_cut; auto using delta_le_refl].
    all: rewrite (cb_part_unfold n d l1), (cb_part_unfold n d l2), E.
    all: destruct (stop l1 (tick st2)); [left; reflexivity|].
    all: destruct subs as [|p [|q r]]; try (left; reflexivity).
    (* without fuel both runs have returned the same state by now *)
    destruct (pruned d (p :: q :: r) (tick st2)); [left; reflexivity|].
    destruct (reorder n (p :: q :: r)) as [|a [|b rest]]; try (left; reflexivity).
    apply IH. apply IH. left. reflexivity.
  Qed.

  Lemma root_sim items d l1 l2 : lim_le l1 l2 -> sim l1 (cb_root items d l1) (cb_root items d l2).
  Proof. intros Hl. apply sim_part; [exact Hl|]. left. reflexivity. Qed.

  Theorem cbldm_monotone_gen : forall k items tl d dint l1 l2 b1 t1, lim_le l1 l2 ->
    cbldm valueof k items tl d dint l1 = Ok (CbBins b1, t1) ->
    exists b2 t2, cbldm valueof k items tl d dint l2 = Ok (CbBins b2, t2) /\ sum_diff b2 <= sum_diff b1.
  Proof.
    intros k items tl d dint l1 l2 b1 t1 Hl H.
    destruct (cbldm_run k items tl d dint) as [[e He]|He]; rewrite He in H |- *; [discriminate H|].
    pose proof (root_sim items d l1 l2 Hl) as S.
    pose proof (root_coherent items d l1) as C1. pose proof (root_coherent items d l2) as C2.
    unfold cb_out in *.
    set (st1 := cb_root items d l1) in *. set (st2 := cb_root items d l2) in *.
    destruct (cb_best st1) as [b|] eqn:Eb1; [|discriminate H]. injection H as -> _.
    destruct S as [S|(_ & S & _)].
    - exists b1, (cb_ticks st2). rewrite <- S, Eb1. split; [reflexivity|lia].
    - rewrite (coherent_best st1 b1 C1 Eb1) in S.
      destruct (cb_delta st2) as [v|] eqn:Ed2; simpl in S; [|destruct S].
      destruct (coherent_delta st2 v C2 Ed2) as (b2 & Eb2 & Ev).
      exists b2, (cb_ticks st2). rewrite Eb2. split; [reflexivity|lia].
  Qed.

  Theorem cbldm_monotone : forall items d n m b1 t1, (n <= m)%nat ->
    cbldm valueof 2 items true d true (Some n) = Ok (CbBins b1, t1) ->
    exists b2 t2, cbldm valueof 2 items true d true (Some m) = Ok (CbBins b2, t2) /\
                  sum_diff b2 <= sum_diff b1.
  Proof. intros items d n m b1 t1 Hnm. apply cbldm_monotone_gen. exact Hnm. Qed.

  Theorem cbldm_monotone_none : forall items d n b1 t1,
    cbldm valueof 2 items true d true (Some n) = Ok (CbBins b1, t1) ->
    exists b2 t2, cbldm valueof 2 items true d true None = Ok (CbBins b2, t2) /\
                  sum_diff b2 <= sum_diff b1.
  Proof. intros items d n b1 t1. apply cbldm_monotone_gen. exact I. Qed.

  (** ** A limit beyond the length of the unlimited run changes nothing: such a run is
      never cut off *)
  Theorem cbldm_limit_none : forall k items tl d dint,
    exists N, forall m, (N <= m)%nat ->
      cbldm valueof k items tl d dint (Some m) = cbldm valueof k items tl d dint None.
  Proof.
    intros k items tl d dint. exists (cb_ticks (cb_root items d None)). intros m Hm.
    destruct (cbldm_run k items tl d dint) as [[e He]|He]; rewrite !He; [reflexivity|].
    destruct (root_sim items d (Some m) None I) as [->|(Hc & _ & Ht)]; [reflexivity|].
    cbn [cut] in Hc. lia.
  Qed.

  (** ** Optimality against the specification [OptBalanced] (C12) *)
  Lemma init_gauge x : gauge (add_item valueof true (new_bins 2) x 1) = (valueof x, 1).
  Proof.
    rewrite init_sub_eq. unfold gauge, ssum, slen, blen, bin_at. cbn [nth fst snd length]. f_equal; lia.
  Qed.

  Lemma init_subs_gauge_eq sorted : map gauge (init_subs sorted) = map (fun x => (valueof x, 1)) sorted.
  Proof. unfold init_subs. rewrite map_map. apply map_ext. exact init_gauge. Qed.

  (** every mask is a signed combination of the singletons *)
  Lemma mask_SC (items : list A) : forall mask, length mask = length items ->
    SC (map (fun x => (valueof x, 1)) items)
       (2 * side_sum (map valueof items) mask - zsum (map valueof items),
        2 * side_count mask - Z.of_nat (length items)).
  Proof.
    induction items as [|x t IH]; intros [|m mt] Hl; try discriminate Hl.
    - apply SC_nil.
    - simpl in Hl. injection Hl as Hl. cbn [map]. eapply (SC_cons m); [apply (IH mt Hl)| |];
        destruct m; cbn [side_sum side_count length];
        change (zsum (valueof x :: map valueof t)) with (valueof x + zsum (map valueof t)); lia.
  Qed.

  (** hence every split of the items is (up to swapping sides) a leaf of the tree *)
  Lemma mask_leaf n items sorted mask : Permutation sorted items -> items <> [] ->
    length mask = length items ->
    exists p, leaf_below n (init_subs sorted) p /\
              sum_diff p = split_diff (map valueof items) mask /\
              len_diff p = Z.abs (2 * side_count mask - Z.of_nat (length items)).
  Proof.
    intros P Hne Hl. pose proof (mask_SC items mask Hl) as H.
    apply (SC_perm _ (map (fun x => (valueof x, 1)) sorted)) in H; [|apply Permutation_map; symmetry; exact P].
    rewrite <- init_subs_gauge_eq in H.
    assert (Hm : exists m, length (init_subs sorted) = S m).
    { unfold init_subs. rewrite map_length, (Permutation_length P).
      destruct items as [|x t]; [congruence|]. exists (length t). reflexivity. }
    destruct Hm as [m Hm]. destruct (SC_leaf n m _ _ _ Hm H) as (p & Hp & Hg).
    exists p. split; [exact Hp|]. rewrite sum_diff_abs, len_diff_abs. unfold split_diff, gauge in *.
    destruct Hg as [Hg|Hg]; pose proof (f_equal fst Hg) as E1; pose proof (f_equal snd Hg) as E2;
      cbn [fst snd] in E1, E2; split; lia.
  Qed.

  Lemma side_sum_app vs1 vs2 m1 m2 : length m1 = length vs1 ->
    side_sum (vs1 ++ vs2) (m1 ++ m2) = side_sum vs1 m1 + side_sum vs2 m2.
  Proof.
    revert m1. induction vs1 as [|v t IH]; intros [|m mt] Hl; try discriminate Hl.
    - simpl. lia.
    - simpl in Hl. injection Hl as Hl. cbn [app side_sum]. rewrite (IH mt Hl). lia.
  Qed.
  Lemma side_count_app m1 m2 : side_count (m1 ++ m2) = side_count m1 + side_count m2.
  Proof. induction m1 as [|m t IH]; cbn [app side_count]; lia. Qed.
  Lemma side_sum_false vs : side_sum vs (repeat false (length vs)) = 0.
  Proof. induction vs as [|v t IH]; cbn [length repeat side_sum]; lia. Qed.
  Lemma side_sum_true vs : side_sum vs (repeat true (length vs)) = zsum vs.
  Proof.
    induction vs as [|v t IH]; cbn [length repeat side_sum]; [reflexivity|].
    change (zsum (v :: t)) with (v + zsum t). lia.
  Qed.
  Lemma side_count_false k : side_count (repeat false k) = 0.
  Proof. induction k as [|k IH]; cbn [repeat side_count]; lia. Qed.
  Lemma side_count_true k : side_count (repeat true k) = Z.of_nat k.
  Proof. induction k as [|k IH]; cbn [repeat side_count]; lia. Qed.

  (** a valid two-bin partition with count gap <= d is a balanced split *)
  Lemma partition_balanced_split items d (b : bins A) :
    is_partition valueof 2 items b -> len_diff b <= d ->
    exists mask, balanced_split d (map valueof items) mask /\
                 split_diff (map valueof items) mask = sum_diff b.
  Proof.
    intros (P & Lb & Wb) Hd. rewrite (contents_two b Lb) in P.
    set (l0 := snd (bin_at b 0)) in *. set (l1 := snd (bin_at b 1)) in *.
    pose (mask0 := repeat false (length (map valueof l0)) ++ repeat true (length (map valueof l1))).
    assert (Hl0 : length mask0 = length (l0 ++ l1)).
    { unfold mask0. rewrite !app_length, !repeat_length, !map_length. reflexivity. }
    destruct (mask_perm _ _ (Permutation_map valueof P) mask0) as (mask & H1 & H2 & H3);
      [rewrite map_length; exact Hl0|]. rewrite map_length in H1.
    assert (Es : side_sum (map valueof (l0 ++ l1)) mask0 = fst (bin_at b 1)).
    { unfold mask0. rewrite map_app, side_sum_app by (rewrite repeat_length; reflexivity).
      rewrite side_sum_false, side_sum_true. pose proof (bin_at_wf b 1 Wb) as W. unfold wf_bin in W.
      fold l1 in W. lia. }
    assert (Ec : side_count mask0 = Z.of_nat (length l1)).
    { unfold mask0. rewrite side_count_app, side_count_false, side_count_true, map_length. lia. }
    assert (Et : zsum (map valueof items) = fst (bin_at b 0) + fst (bin_at b 1)).
    { rewrite <- (zsum_perm _ _ (Permutation_map valueof P)), map_app, zsum_app.
      pose proof (bin_at_wf b 0 Wb) as W0. pose proof (bin_at_wf b 1 Wb) as W1.
      unfold wf_bin in W0, W1. fold l0 in W0. fold l1 in W1. lia. }
    assert (En : length items = (length l0 + length l1)%nat).
    { rewrite <- (Permutation_length P), app_length. reflexivity. }
    exists mask. split.
    - split; [rewrite map_length; exact H1|]. rewrite map_length, H3, Ec, En.
      unfold len_diff in Hd. fold l0 l1 in Hd. lia.
    - unfold split_diff, sum_diff. rewrite H2, Es, Et. lia.
  Qed.

  Theorem cbldm_optimal : forall items d,
    Forall (fun x => 0 <= valueof x) items -> items <> [] -> 1 <= d ->
    exists b t, cbldm valueof 2 items true d true None = Ok (CbBins b, t) /\
                is_partition valueof 2 items b /\ len_diff b <= d /\
                OptBalanced d (map valueof items) (sum_diff b).
  Proof.
    intros items d Hnn Hne Hd. destruct (cbldm_leaf_optimal items d Hnn Hne Hd) as (b & t & E & Hopt).
    exists b, t. split; [exact E|].
    destruct (cbldm_safe_gen _ _ _ _ _ _ _ _ E) as [Hb|(b' & Eb & Hp & Hl)]; [discriminate Hb|].
    injection Eb as <-. split; [exact Hp|]. split; [exact Hl|]. split.
    - destruct (partition_balanced_split items d b Hp Hl) as (mask & Hm & Es). exists mask. auto.
    - intros mask [Hlen Hbal]. rewrite map_length in Hlen, Hbal.
      destruct (mask_leaf (length items) items (sort_desc valueof items) mask (sort_desc_perm valueof items) Hne Hlen)
        as (p & Hp' & Es & El).
      rewrite <- Es. apply Hopt; [exact Hp'|]. rewrite El. exact Hbal.
  Qed.

End CBLDMProofs.

(** * Examples *)
Example cbldm_ex_single :
  cbldm (fun x : Z => x) 2 [10] true 1 true None = Ok (CbBins [(0, []); (10, [10])], 1%nat).
Proof. vm_compute. reflexivity. Qed.

Example cbldm_ex_zero :
  cbldm (fun x : Z => x) 2 [10; 0] true 1 true None = Ok (CbBins [(0, [0]); (10, [10])], 3%nat).
Proof. vm_compute. reflexivity. Qed.

(** the input on which the paper's extra prune condition fails (see the comment in cbldm.py) *)
Example cbldm_ex_ones :
  cbldm (fun x : Z => x) 2 [1; 1; 1; 1; 1; 1; 1; 1; 1; 1] true 1 true None =
  Ok (CbBins [(5, [1; 1; 1; 1; 1]); (5, [1; 1; 1; 1; 1])], 19%nat).
Proof. vm_compute. reflexivity. Qed.

(** the doctest of cbldm.py: sums 15/15 *)
Example cbldm_ex_doctest :
  cbldm (fun x : Z => x) 2 [8; 7; 6; 5; 4] true 1 true None =
  Ok (CbBins [(15, [4; 6; 5]); (15, [8; 7])], 15%nat).
Proof. vm_compute. reflexivity. Qed.

(** interrupted before the first leaf: the placeholder; the tick counter keeps running *)
Example cbldm_ex_placeholder :
  cbldm (fun x : Z => x) 2 [8; 7; 6; 5; 4] true 1 true (Some 3%nat) = Ok (CbPlaceholder, 7%nat).
Proof. vm_compute. reflexivity. Qed.

(** interrupted after the first leaf: a valid but not yet optimal partition *)
Example cbldm_ex_interrupted :
  cbldm (fun x : Z => x) 2 [8; 7; 6; 5; 4] true 1 true (Some 5%nat) =
  Ok (CbBins [(14, [8; 6]); (16, [4; 7; 5])], 9%nat).
Proof. vm_compute. reflexivity. Qed.

Print Assumptions cbldm_error_iff.
Print Assumptions cbldm_error_kind.
Print Assumptions cbldm_safe.
Print Assumptions cbldm_safe_gen.
Print Assumptions sum_prune_arith.
Print Assumptions sum_prune_sound.
Print Assumptions len_prune_sound.
Print Assumptions leaf_signed_sum.
Print Assumptions cbldm_delta_mono.
Print Assumptions cbldm_monotone.
Print Assumptions cbldm_monotone_none.
Print Assumptions cbldm_limit_none.
Print Assumptions cbldm_total.
Print Assumptions cbldm_leaf_optimal.
Print Assumptions cbldm_optimal.
