(** C08, max-min side: the exact guarantee of Csirik, Kellerer and Woeginger (1992) for the smallest sum
    produced by greedy (LPT), on lists of values,
        (3k - 1) * OPTmin <= (4k - 2) * LPTmin        for every number k of bins.

    Method: one and two bins are treated directly (for two bins the bound is Graham's with the total kept).
    For k >= 3 let T be the value of the assignment greedy is compared with, L the smallest load of greedy,
    and assume (3k-1) T > (4k-2) L.  By the 3/4 bound of [Proofs/LPTMinFullProofs.v] 3 T <= 4 L, hence
    5 L < 4 T.  By [open_step_exists] the last overfull step puts a on a load x and a last open step before it
    puts b on a load p.
    - If 4 L - T < 2 (x + b), the three-level staircase of [LPTMinFullProofs] still works ([three_level_refuted]).
    - Otherwise, if some earlier step puts cs on a load ys >= cs with 4 L - T < 2 (ys + cs), a four-level
      staircase [W4] with period p / 2 works ([four_level_refuted]).
    - Otherwise every bin has capped weight at most T or load at most (4 L - T) / 2; the capped total is
      then below k T ([capped_refuted]).  This is the only place where k enters. *)
From Prtpy Require Import Base.Prelude Model.Binner Model.Greedy Model.Objectives Spec.Partition
  Oracle.Reach Proofs.BaseLemmas Proofs.BinnerLemmas Proofs.GreedyProofs Proofs.RatioProofs Proofs.OracleSpec
  Proofs.LPTMinCore Proofs.LPTMinFullProofs.
From Coq Require Import Sorting.Sorted Arith ZifyBool.

(** ---- one and two bins ---- *)

Lemma one_bin s : length s = 1%nat -> zmin s = zsum s.
Proof. destruct s as [|a [|b t]]; simpl length; intros H; try discriminate. unfold zmin. simpl. lia. Qed.

Lemma two_min_max s : length s = 2%nat -> zmin s + zmax s = zsum s.
Proof.
  destruct s as [|a [|b [|c t]]]; simpl length; intros H; try discriminate.
  unfold zmin, zmax. simpl. lia.
Qed.

(** Graham's bound with the total:  3k L <= (3k-1) T + sum.  Same induction as [lpt_43_values]; the
    conclusion keeps the total instead of bounding it by k T. *)
Theorem lpt_43_sum_values k : (1 <= k)%nat -> forall l s,
  StronglySorted (fun a b : Z => b <= a) l -> Forall (fun v => 0 <= v) l -> Attainable k l s ->
  3 * Z.of_nat k * zmax (vgreedy l (repeat 0 k)) <= (3 * Z.of_nat k - 1) * zmax s + zsum l.
Proof.
  intros Hk l. induction l as [|x l IH] using rev_ind; intros s Hsort Hpos Hs.
  - apply Attainable_nil_inv in Hs. subst s. unfold vgreedy. cbn [fold_left].
    rewrite zmax_repeat0. simpl zsum. lia.
  - destruct (sorted_desc_snoc l x Hsort) as [Hsl Hxl].
    pose proof Hpos as Hposlx.
    apply Forall_app in Hpos. destruct Hpos as [Hposl Hposx].
    inversion Hposx as [|x' t' Hx _]; subst.
    destruct (Attainable_snoc_inv _ _ _ _ Hs) as (s' & i & Hs' & Hi & Es).
    assert (HT' : zmax s' <= zmax s) by (rewrite Es; apply zmax_update_mono; exact Hx).
    specialize (IH s' Hsl Hposl Hs').
    destruct (Attainable_bounds k (l ++ [x]) Hposlx s Hs) as [Hspos Hvals].
    apply Forall_app in Hvals. destruct Hvals as [_ HxT]. pose proof (Forall_inv HxT) as HxT0. cbv beta in HxT0.
    pose proof (zmax_le_zsum s Hspos) as HTS. rewrite (Attainable_sum _ _ _ Hs) in HTS.
    pose proof (zsum_le_len_max s) as Hsum.
    rewrite (Attainable_length _ _ _ Hs), (Attainable_sum _ _ _ Hs) in Hsum.
    rewrite zsum_app in *. simpl zsum in *.
    set (T := zmax s) in *. set (K := Z.of_nat k) in *. set (S := zsum l) in *.
    assert (HK : 1 <= K) by (unfold K; lia).
    pose proof (vgreedy_attainable k l Hk) as Hg.
    set (g := vgreedy l (repeat 0 k)) in *.
    pose proof (Attainable_length _ _ _ Hg) as Hglen.
    assert (Hg1 : (1 <= length g)%nat) by lia.
    rewrite vgreedy_snoc. fold g.
    pose proof (argmin_least g Hg1) as Hleast.
    pose proof (zsum_ge_bound _ _ Hleast) as Hmn.
    rewrite Hglen, (Attainable_sum _ _ _ Hg) in Hmn. fold K in Hmn. fold S in Hmn.
    set (mn := nth (argmin g) g 0) in *.
    destruct (vstep_max_cases g x Hg1) as [Hc|Hc].
    + assert (H1 : 3 * K * zmax (vstep g x) <= 3 * K * zmax g) by (apply Z.mul_le_mono_nonneg_l; lia).
      assert (H2 : (3 * K - 1) * zmax s' <= (3 * K - 1) * T) by (apply Z.mul_le_mono_nonneg_l; lia).
      lia.
    + fold mn in Hc. rewrite Hc.
      destruct (Z.le_gt_cases (mn + x) T) as [Hle|Hgt].
      * assert (H1 : 3 * K * (mn + x) <= 3 * K * T) by (apply Z.mul_le_mono_nonneg_l; lia).
        lia.
      * destruct (Z.le_gt_cases (3 * x) T) as [Hsmall|Hbig].
        -- assert (H1 : (K - 1) * (3 * x) <= (K - 1) * T) by (apply Z.mul_le_mono_nonneg_l; lia).
           lia.
        -- exfalso. apply (two_per_bin_contra k T x l g s); auto.
           ++ eapply Forall_impl; [|exact Hleast]. intros a Ha. cbv beta in Ha. fold mn in Ha. lia.
           ++ apply zmax_ge.
Qed.

Theorem lpt_min_two_values l s :
  StronglySorted (fun a b : Z => b <= a) l -> Forall (fun v => 0 <= v) l -> Attainable 2 l s ->
  5 * zmin s <= 6 * zmin (vgreedy l (repeat 0 2)).
Proof.
  intros Hsort Hpos Hs.
  pose proof (lpt_43_sum_values 2 ltac:(lia) l s Hsort Hpos Hs) as H.
  pose proof (vgreedy_attainable 2 l ltac:(lia)) as Hg.
  pose proof (two_min_max s (Attainable_length _ _ _ Hs)) as H1.
  pose proof (two_min_max _ (Attainable_length _ _ _ Hg)) as H2.
  rewrite (Attainable_sum _ _ _ Hs) in H1. rewrite (Attainable_sum _ _ _ Hg) in H2.
  change (Z.of_nat 2) with 2 in H. lia.
Qed.

(** ---- the four-level staircase ---- *)

(** four levels with period p / 2 and height T - 3 p / 2 (both doubled): a value up to p / 2 counts one level, up
    to p two, up to 3 p / 2 three, and T four; every set of values reaching T weighs at least four levels *)
Definition W4 (T p v : Z) : Z := stair (2 * T - 3 * p) (4 * p - 2 * T) 4 0 v.

Lemma W4_bounds T p v : 3 * p <= 2 * T -> T <= 2 * p -> 0 <= v ->
  0 <= W4 T p v <= 2 * v /\ W4 T p v <= 4 * (2 * T - 3 * p) /\
  (2 * v <= p -> W4 T p v <= 2 * T - 3 * p) /\
  (v <= p -> W4 T p v <= 2 * (2 * T - 3 * p)) /\
  (2 * v <= 3 * p -> W4 T p v <= 3 * (2 * T - 3 * p)) /\
  (3 * p <= 2 * v -> W4 T p v <= 2 * v - 3 * (4 * p - 2 * T)).
Proof.
  intros H1 H2 Hv. destruct (stair_bounds (2 * T - 3 * p) (4 * p - 2 * T) 4 v ltac:(lia)) as (Ht & Hl).
  pose proof (Hl 0%nat ltac:(lia)) as L0. pose proof (Hl 1%nat ltac:(lia)) as L1.
  pose proof (Hl 2%nat ltac:(lia)) as L2. pose proof (Hl 3%nat ltac:(lia)) as L3. unfold level in *. unfold W4. lia.
Qed.

(** x, a: the last overfull step; p, b: the last open step before it; ys, cs: a step before that one which
    closes a bin with a large excess *)
Definition par5 (T L x p a b ys cs : Z) : Prop :=
  x <= L /\ 0 <= L /\ 3 * T <= 4 * L /\ 5 * L < 4 * T /\ 0 < p <= x /\ a <= b <= p /\ p + b <= L /\
  T < x + a /\ cs <= ys <= p /\ b <= cs /\ 4 * L - T < 2 * (ys + cs).

Lemma par5_facts T L x p a b ys cs : par5 T L x p a b ys cs ->
  3 * p < 2 * T /\ T <= 2 * p /\ 2 * (L - ys) <= p /\ 2 * L <= 3 * p /\ 4 * (L - x) <= 2 * T - 3 * p /\
  L < T /\ L < 2 * cs /\ p < ys + b /\ 0 < a.
Proof. unfold par5. lia. Qed.

(** before the last overfull step: a bin is empty, closed (load above L), holds one item, or holds an item at
    most p and one item at most p / 2 and is still open (three levels, load above p); from the last overfull
    step on the ramp starts from one item of at least 3 p / 2 (three shifts below twice the load) and the
    plateau is three levels *)
Definition QA (T L p : Z) : Z -> Z -> Z -> Prop :=
  QG (W4 T p) (fun _ l => p < l) (4 * (2 * T - 3 * p)) (3 * (2 * T - 3 * p)) L.

Lemma QA_step T L x p a b ys cs y mu c wl : par5 T L x p a b ys cs ->
  ((mu <= ys /\ cs <= c) \/ (ys <= mu <= p /\ b <= c <= cs) \/ (c <= b /\ ~ (c <= mu /\ mu + c <= L))) ->
  0 <= mu <= x -> a <= c <= y ->
  QA T L p y mu wl -> QA T L p c (mu + c) (wl + W4 T p c).
Proof.
  intros Hp Hmode Hmu Hc (H1 & H2 & H3). pose proof (par5_facts _ _ _ _ _ _ _ _ Hp) as Hf.
  unfold par5 in Hp.
  pose proof (W4_bounds T p c ltac:(lia) ltac:(lia) ltac:(lia)) as (Hc1 & Hc2 & Hc3 & Hc4 & _).
  pose proof (W4_bounds T p mu ltac:(lia) ltac:(lia) ltac:(lia)) as (Hm1 & Hm2 & _ & Hm4 & Hm5 & _).
  destruct (Z.eq_dec mu 0) as [E0|E0].
  - subst mu. replace (0 + c) with c by lia. unfold QA, QG.
    assert (wl = 0) by lia. subst wl. lia.
  - assert (Hcm : c <= mu) by lia.
    assert (Hwc2 : W4 T p c <= 2 * (2 * T - 3 * p)) by (apply Hc4; lia).
    assert (Hwc1 : 2 * c <= p -> W4 T p c <= 2 * T - 3 * p) by exact Hc3.
    assert (Hwm3 : W4 T p mu <= 3 * (2 * T - 3 * p)) by (apply Hm5; lia).
    assert (Hwm2 : mu <= p -> W4 T p mu <= 2 * (2 * T - 3 * p)) by exact Hm4.
    clear Hc3 Hc4 Hm4 Hm5.
    remember (W4 T p c) as wc eqn:Ewc. remember (W4 T p mu) as wm eqn:Ewm. clear Ewc Ewm.
    unfold QA, QG. destruct H3 as [H3|[H3|[H3|H3]]]; destruct Hmode as [M|[M|M]]; lia.
Qed.

Lemma W4_ramp T L x p a b ys cs : par5 T L x p a b ys cs ->
  ramp_weight (W4 T p) (4 * (2 * T - 3 * p)) (3 * (4 * p - 2 * T)) (3 * (2 * T - 3 * p)) T L x a.
Proof.
  intros Hp. pose proof (par5_facts _ _ _ _ _ _ _ _ Hp) as Hf. unfold par5 in Hp. split; [|split].
  - pose proof (W4_bounds T p a ltac:(lia) ltac:(lia) ltac:(lia)). lia.
  - intros c Hc. pose proof (W4_bounds T p c ltac:(lia) ltac:(lia) ltac:(lia)). lia.
  - intros l Hl. pose proof (W4_bounds T p l ltac:(lia) ltac:(lia) ltac:(lia)).
    destruct (Z.le_gt_cases (3 * p) (2 * l)); [left|right]; lia.
Qed.

(** a step that lands on a bin at least as large as the item and leaves it with a large excess *)
Definition bigov (T L : Z) (g : list Z) (c : Z) : Prop := c <= zmin g /\ 4 * L - T < 2 * (zmin g + c).

Lemma bigov_dec T L g c : bigov T L g c \/ ~ bigov T L g c.
Proof. unfold bigov. lia. Qed.

(** side condition before the last overfull step *)
Definition SQ (L x p a b ys cs : Z) (g : list Z) (c : Z) : Prop :=
  0 <= zmin g <= x /\ a <= c /\
  ((zmin g <= ys /\ cs <= c) \/ (ys <= zmin g <= p /\ b <= c <= cs) \/ (c <= b /\ ~ opn L g c)).

(** the whole run: lA1, the step cs with a large excess, lA2, the last open step b, lB, the last overfull
    step a, lC *)
Lemma four_level_refuted T k lA1 cs lA2 b lB a lC s : (1 <= k)%nat ->
  let l := ((lA1 ++ cs :: lA2) ++ b :: lB) ++ a :: lC in
  StronglySorted (fun a b : Z => b <= a) l -> Forall (fun v => 0 <= v) l ->
  Attainable k l s -> Forall (fun v => T <= v) s ->
  let gA1 := vgreedy lA1 (repeat 0 k) in let gA := vgreedy lA2 (vstep gA1 cs) in
  let gB := vgreedy lB (vstep gA b) in let L := zmin (vgreedy lC (vstep gB a)) in
  opn L gA b -> nstep (opn L) lB (vstep gA b) -> over T gB a -> nstep (over T) lC (vstep gB a) ->
  bigov T L gA1 cs -> 3 * T <= 4 * L -> 5 * L < 4 * T -> False.
Proof.
  intros Hk l Hsort Hpos Hs HsT gA1 gA gB L Hopn HnB Hov HnC [Hbo1 Hbo2] H34 H54.
  set (lA := lA1 ++ cs :: lA2) in *.
  assert (EA : vgreedy lA (repeat 0 k) = gA) by (unfold lA; rewrite vgreedy_app, vgreedy_cons; reflexivity).
  pose proof (open_over_sides RF T k lA b lB a lC Hk Hsort Hpos (nstep_RF lA _)) as Hsd.
  cbv zeta in Hsd. rewrite EA in Hsd. destruct (Hsd Hopn HnB Hov HnC) as (Hb & _ & HallB & HallC). clear Hsd.
  fold gB in Hb, HallB, HallC. fold L in Hb, HallB, HallC.
  destruct (sorted_desc_app_inv (lA ++ b :: lB) a lC Hsort) as (Hs1 & _ & _ & _).
  destruct (sorted_desc_app_inv lA b lB Hs1) as (HsA & HgeA & _ & _).
  assert (Hk0 : (1 <= length (repeat 0%Z k))%nat) by (rewrite repeat_length; exact Hk).
  assert (H00 : 0 <= zmin (repeat 0 k)) by (rewrite zmin_repeat0; lia).
  destruct (cut_sides RF RF 0 b (repeat 0 k) lA1 cs lA2 Hk0 H00 ltac:(lia) HsA HgeA (nstep_RF _ _) (nstep_RF _ _))
    as (Hys & HallA1 & HallA2).
  fold gA1 in Hys, HallA1, HallA2. fold gA in Hys, HallA2.
  set (ys := zmin gA1) in *. set (p := zmin gA) in *. set (x := zmin gB) in *.
  assert (Hp : par5 T L x p a b ys cs) by (unfold par5; lia).
  pose proof (par5_facts _ _ _ _ _ _ _ _ Hp) as Hf.
  assert (EB : gB = vgreedy (lA ++ b :: lB) (repeat 0 k)) by (rewrite vgreedy_app, vgreedy_cons, EA; reflexivity).
  apply (ramp_refuted _ (fun _ l0 => p < l0) (SQ L x p a b ys cs) _ _ _ T k (lA ++ b :: lB) a lC gB Hk Hsort EB
           (W4_ramp T L x p a b ys cs Hp)); try assumption.
  - intros y c l0 _ H. exact H.
  - intros g c y wl (H1 & H2 & H3) Hcy Hq. unfold opn in H3. fold L.
    apply (QA_step T L x p a b ys cs y); try assumption; lia.
  - apply allstep_app; [unfold lA; apply allstep_app|].
    + eapply allstep_impl; [|exact HallA1]. intros g c (H1 & H2 & H3). cbv beta in H2. unfold SQ. lia.
    + fold gA1. split.
      * unfold SQ. fold ys. lia.
      * eapply allstep_impl; [|exact HallA2]. intros g c (H1 & H2 & H3). cbv beta in H2. unfold SQ. lia.
    + rewrite EA. split.
      * unfold SQ. fold p. lia.
      * eapply allstep_impl; [|exact HallB]. intros g c (H1 & H2 & H3). cbv beta in H2. unfold SQ.
        split; [lia|]. split; [lia|]. right; right. split; [lia|exact H3].
  - apply (stair_total _ _ 3 T _ k _ s); try assumption; lia.
Qed.

(** ---- the capped total when no step has a large excess ---- *)

(** values capped at T, doubled: a bin weighs at most twice its load, and at most 2 T unless its load is at
    most (4L - T)/2 *)
Definition IS2 (T L y l wl : Z) : Prop :=
  0 <= wl <= 2 * l /\ (l = 0 \/ y <= l) /\ (wl <= 2 * T \/ 2 * l <= 4 * L - T).

Definition SS2 (T L x b : Z) (g : list Z) (c : Z) : Prop :=
  0 <= c /\ 0 <= zmin g /\ (~ bigov T L g c \/ (zmin g <= x /\ c <= b) \/ zmin g + c <= T).

Lemma IS2_step T L x b y mu c wl : 0 <= T -> 2 * x + 2 * b <= 4 * L - T -> 0 <= c <= y -> 0 <= mu ->
  (~ (c <= mu /\ 4 * L - T < 2 * (mu + c)) \/ (mu <= x /\ c <= b) \/ mu + c <= T) ->
  IS2 T L y mu wl -> IS2 T L c (mu + c) (wl + 2 * cap T c).
Proof. intros HT HA Hc Hmu Hmode (H1 & H2 & H3). unfold IS2, cap. lia. Qed.

(** the whole run: lA without step of large excess, the last open step b, lB, the last overfull step a, lC *)
Lemma capped_refuted T k lA b lB a lC s : (1 <= k)%nat ->
  let l := (lA ++ b :: lB) ++ a :: lC in
  StronglySorted (fun a b : Z => b <= a) l -> Forall (fun v => 0 <= v) l ->
  Attainable k l s -> Forall (fun v => T <= v) s ->
  let gA := vgreedy lA (repeat 0 k) in let gB := vgreedy lB (vstep gA b) in
  let x := zmin gB in let L := zmin (vgreedy lC (vstep gB a)) in
  nstep (bigov T L) lA (repeat 0 k) ->
  opn L gA b -> nstep (opn L) lB (vstep gA b) -> over T gB a -> nstep (over T) lC (vstep gB a) ->
  2 * x + 2 * b <= 4 * L - T -> 0 <= T ->
  (4 * Z.of_nat k - 2) * L < (3 * Z.of_nat k - 1) * T -> False.
Proof.
  intros Hk l Hsort Hpos Hs HsT gA gB x L HnA Hopn HnB Hov HnC HA HT Hgt.
  destruct (open_over_sides (bigov T L) T k lA b lB a lC Hk Hsort Hpos HnA Hopn HnB Hov HnC)
    as (Hb & HallA & HallB & HallC).
  fold gA in Hb, HallA, HallB, HallC. fold gB in Hb, HallB, HallC. fold x in Hb, HallB, HallC.
  fold L in Hb, HallB, HallC. set (p := zmin gA) in *.
  assert (Efin : vgreedy l (repeat 0 k) = vgreedy lC (vstep gB a)).
  { unfold l. rewrite vgreedy_app, vgreedy_cons, vgreedy_app, vgreedy_cons. reflexivity. }
  assert (Hall : allstep (SS2 T L x b) l (repeat 0 k)).
  { unfold l. apply allstep_app; [apply allstep_app|].
    - eapply allstep_impl; [|exact HallA]. intros g c (H1 & H2 & H3). cbv beta in H2. unfold SS2.
      split; [lia|]. split; [lia|]. left. exact H3.
    - fold gA. split.
      + unfold SS2. fold p. lia.
      + eapply allstep_impl; [|exact HallB]. intros g c (H1 & H2 & H3). cbv beta in H2. unfold SS2. lia.
    - rewrite vgreedy_app, vgreedy_cons. fold gA. fold gB. split.
      + unfold SS2. fold x. lia.
      + eapply allstep_impl; [|exact HallC]. intros g c (H1 & H2 & H3). cbv beta in H2. unfold over in H3.
        unfold SS2. lia. }
  destruct (run_inv0 (IS2 T L) (fun c => 2 * cap T c) (SS2 T L x b) k l) as (t & y & Ht & Hsum); try assumption.
  - intros y. unfold IS2. lia.
  - intros y c l0 wl Hc Hq. unfold IS2 in *. lia.
  - intros g c y wl (H1 & H2 & H3) Hcy Hq. unfold bigov in H3.
    apply (IS2_step T L x b y); try assumption; lia.
  - rewrite Efin in Ht. set (fin := vgreedy lC (vstep gB a)) in *.
    assert (Hfin : length fin = k) by (rewrite <- Efin; apply vgreedy0_length).
    assert (Hne : fin <> []) by (intros E; rewrite E in Hfin; simpl in Hfin; lia).
    pose proof (one_light_bin (IS2 T L y) (2 * L) (Z.max (2 * T) (4 * L - T)) fin t Hne Ht) as Hup.
    rewrite Hfin, Hsum in Hup.
    assert (Hdown : Z.of_nat k * (2 * T) <= zsum (map (fun c => 2 * cap T c) l)).
    { apply (subadditive_total (fun c => 2 * cap T c) T (2 * T) k l s); try assumption; unfold cap; lia. }
    assert (Hup' : zsum (map (fun c => 2 * cap T c) l) <= 2 * L + (Z.of_nat k - 1) * Z.max (2 * T) (4 * L - T)).
    { apply Hup; unfold IS2; fold L; lia. }
    destruct (Z.max_spec (2 * T) (4 * L - T)) as [[_ E]|[_ E]]; rewrite E in Hup'; lia.
Qed.

(** ---- (3k-1) * OPTmin <= (4k-2) * LPTmin ---- *)

Theorem lpt_min_exact_values k : (1 <= k)%nat -> forall l s,
  StronglySorted (fun a b : Z => b <= a) l -> Forall (fun v => 0 <= v) l -> Attainable k l s ->
  (3 * Z.of_nat k - 1) * zmin s <= (4 * Z.of_nat k - 2) * zmin (vgreedy l (repeat 0 k)).
Proof.
  intros Hk l s Hsort Hpos Hs.
  destruct (le_lt_dec k 2) as [Hk2|Hk3].
  { assert (Hk12 : k = 1%nat \/ k = 2%nat) by lia. destruct Hk12 as [E|E]; subst k.
    - rewrite (one_bin s (Attainable_length _ _ _ Hs)), (one_bin _ (vgreedy0_length 1 l)).
      rewrite (Attainable_sum _ _ _ Hs), (Attainable_sum _ _ _ (vgreedy_attainable 1 l Hk)). lia.
    - pose proof (lpt_min_two_values l s Hsort Hpos Hs) as H. change (Z.of_nat 2) with 2. lia. }
  set (T := zmin s).
  destruct (Z.le_gt_cases ((3 * Z.of_nat k - 1) * T) ((4 * Z.of_nat k - 2) * zmin (vgreedy l (repeat 0 k))))
    as [Hle|Hgt]; [exact Hle|exfalso].
  pose proof (init_zmin_nonneg k l Hk Hpos) as HL0.
  pose proof (lpt_min_34_values k Hk l s Hsort Hpos Hs) as H34. fold T in H34.
  assert (H54 : 5 * zmin (vgreedy l (repeat 0 k)) < 4 * T) by nia.
  destruct (open_step_exists T k l s Hk Hsort Hpos Hs (zmin_le s) ltac:(lia))
    as (lA & b & lB & a & lC & El & Hopn & HnB & Hov & HnC).
  subst l. rewrite vgreedy_app, vgreedy_cons, vgreedy_app, vgreedy_cons in Hgt, HL0, H34, H54.
  set (x := zmin (vgreedy lB (vstep (vgreedy lA (repeat 0 k)) b))) in *.
  set (L := zmin (vgreedy lC (vstep (vgreedy lB (vstep (vgreedy lA (repeat 0 k)) b)) a))) in *.
  destruct (Z.lt_ge_cases (4 * L - T) (2 * x + 2 * b)) as [HA|HA].
  - (* large excess of the last overfull step: three levels *)
    apply (three_level_refuted T k lA b lB a lC s Hk Hsort Hpos Hs (zmin_le s) Hopn HnB Hov HnC).
    right. fold x. fold L. lia.
  - destruct (last_step (bigov T L) (bigov_dec T L) lA (repeat 0 k)) as [HnA|(lA1 & cs & lA2 & ElA & Hbo & _)].
    + (* no step with a large excess: the capped total is too small *)
      apply (capped_refuted T k lA b lB a lC s Hk Hsort Hpos Hs (zmin_le s) HnA Hopn HnB Hov HnC); try assumption.
      unfold T. lia.
    + (* a step with a large excess before the last open step: four levels *)
      subst lA. unfold x, L in *. rewrite vgreedy_app, vgreedy_cons in *.
      apply (four_level_refuted T k lA1 cs lA2 b lB a lC s Hk Hsort Hpos Hs (zmin_le s) Hopn HnB Hov HnC Hbo);
        assumption.
Qed.

(** ---- item level ---- *)

(** greedy against any way of distributing the values over k bins *)
Theorem lpt_min_exact_attainable {A : Type} (valueof : A -> Z) (keep : bool) k items s : (1 <= k)%nat ->
  Forall (fun x => 0 <= valueof x) items -> Attainable k (map valueof items) s ->
  (3 * Z.of_nat k - 1) * zmin s <= (4 * Z.of_nat k - 2) * zmin (sums (greedy valueof keep k items)).
Proof.
  intros Hk. apply (greedy_min_attainable valueof keep
    (fun t l => (3 * Z.of_nat k - 1) * t <= (4 * Z.of_nat k - 2) * l)).
  apply lpt_min_exact_values. exact Hk.
Qed.

Print Assumptions lpt_43_sum_values.
Print Assumptions lpt_min_two_values.
Print Assumptions lpt_min_exact_values.
