(** C18, exact algorithms: symmetry and cross-agreement corollaries obtained from the optimality
    theorems (C02) and the specification-level symmetries of the optimum (Proofs/MetaProofs.v).
    Plain values: A = Z, valueof = nameof = fun v => v. *)
From Prtpy Require Import Base.Prelude Model.Binner Model.Objectives Model.Greedy Model.KK Model.CG Model.DP Model.SNP
  Spec.Partition Proofs.DPProofs Proofs.CGOptimal Proofs.CKKOptimal Proofs.Glue Proofs.MetaProofs Proofs.RatioProofs.

Notation idv := (fun v : Z => v).

(** "b is an optimal result for objective o": its objective value is the optimum over all assignments *)
Definition optimal_result (o : objective) (k : nat) (vs : list Z) (b : bins Z) : Prop :=
  Opt o k vs (value o (sums b) false).

(** C02 restated on plain values *)
Theorem dp_optimal_result o k vs b : (1 <= k)%nat -> dp idv true o k vs = Ok b -> optimal_result o k vs b.
Proof. intros Hk H. pose proof (dp_optimal idv o k vs b Hk H) as G. rewrite map_id in G. exact G. Qed.

Theorem cg_optimal_result o flags k vs b : (1 <= k)%nat -> Forall (fun v => 0 <= v) vs ->
  cg idv true o flags None k vs = Some b -> optimal_result o k vs b.
Proof. intros Hk Hnn H. pose proof (cg_optimal idv o flags k vs b Hk Hnn H) as G. rewrite map_id in G. exact G. Qed.

Theorem ckk_optimal_result k vs b : (1 <= k)%nat -> vs <> [] -> Forall (fun v => 0 <= v) vs ->
  ckk idv idv true k vs = Ok b -> optimal_result MinDiff k vs b.
Proof. intros Hk Hne Hnn H. pose proof (ckk_optimal_values idv k vs b Hk Hne Hnn H) as G. rewrite map_id in G. exact G. Qed.

Theorem snp_optimal_result k vs b : (1 <= k)%nat -> vs <> [] -> Forall (fun v => 0 <= v) vs ->
  snp idv idv true k vs = Ok b -> optimal_result MinDiff k vs b.
Proof. intros Hk Hne Hnn H. exact (snp_optimal_values k vs b Hk Hne Hnn H). Qed.

(** C18 on optimal results: the symmetries of [Opt] (MetaProofs) restated *)
Theorem optimal_results_agree o k vs b1 b2 : optimal_result o k vs b1 -> optimal_result o k vs b2 ->
  value o (sums b1) false = value o (sums b2) false.
Proof. intros H1 H2. exact (exact_agree o k vs _ _ H1 H2). Qed.

Theorem optimal_results_perm o k vs vs' b b' : Permutation vs vs' ->
  optimal_result o k vs b -> optimal_result o k vs' b' -> value o (sums b) false = value o (sums b') false.
Proof. intros P H1 H2. exact (exact_agree_perm o k vs vs' _ _ P H1 H2). Qed.

Theorem optimal_results_scale o k vs c b b' : 0 < c ->
  optimal_result o k vs b -> optimal_result o k (map (Z.mul c) vs) b' ->
  value o (sums b') false = c * value o (sums b) false.
Proof. intros Hc H1 H2. exact (exact_agree_scale o k vs c _ _ Hc H1 H2). Qed.

Theorem optimal_results_zeros o k vs vs' n b b' : (1 <= k)%nat -> Permutation vs' (vs ++ repeat 0 n) ->
  optimal_result o k vs b -> optimal_result o k vs' b' -> value o (sums b) false = value o (sums b') false.
Proof. intros Hk P H1 H2. exact (exact_agree_zeros o k vs vs' n _ _ Hk P H1 H2). Qed.

(** never worse than greedy (or any algorithm returning attainable sums) *)
Theorem optimal_result_le_greedy o k vs b : (1 <= k)%nat -> optimal_result o k vs b ->
  value o (sums b) false <= value o (sums (greedy id true k vs)) false.
Proof. intros Hk H. exact (greedy_ge_opt o k vs _ Hk H). Qed.

(** concrete instances: complete greedy (any switches) agrees with dynamic programming; the three
    difference-minimisers agree with each other *)
Theorem cg_dp_agree o flags k vs b1 b2 : (1 <= k)%nat -> Forall (fun v => 0 <= v) vs ->
  cg idv true o flags None k vs = Some b1 -> dp idv true o k vs = Ok b2 ->
  value o (sums b1) false = value o (sums b2) false.
Proof.
  intros Hk Hnn H1 H2. apply (optimal_results_agree o k vs); [apply (cg_optimal_result o flags)|apply dp_optimal_result]; assumption.
Qed.

Theorem cg_switches_agree o f1 f2 k vs b1 b2 : (1 <= k)%nat -> Forall (fun v => 0 <= v) vs ->
  cg idv true o f1 None k vs = Some b1 -> cg idv true o f2 None k vs = Some b2 ->
  value o (sums b1) false = value o (sums b2) false.
Proof.
  intros Hk Hnn H1 H2. apply (optimal_results_agree o k vs); [apply (cg_optimal_result o f1)|apply (cg_optimal_result o f2)]; assumption.
Qed.

Theorem ckk_snp_cg_agree flags k vs b1 b2 b3 : (1 <= k)%nat -> vs <> [] -> Forall (fun v => 0 <= v) vs ->
  ckk idv idv true k vs = Ok b1 -> snp idv idv true k vs = Ok b2 -> cg idv true MinDiff flags None k vs = Some b3 ->
  value MinDiff (sums b1) false = value MinDiff (sums b2) false /\
  value MinDiff (sums b2) false = value MinDiff (sums b3) false.
Proof.
  intros Hk Hne Hnn H1 H2 H3.
  pose proof (ckk_optimal_result k vs b1 Hk Hne Hnn H1) as O1.
  pose proof (snp_optimal_result k vs b2 Hk Hne Hnn H2) as O2.
  pose proof (cg_optimal_result MinDiff flags k vs b3 Hk Hnn H3) as O3.
  split; [exact (optimal_results_agree _ _ _ _ _ O1 O2)|exact (optimal_results_agree _ _ _ _ _ O2 O3)].
Qed.

Print Assumptions dp_optimal_result.
Print Assumptions cg_optimal_result.
Print Assumptions ckk_optimal_result.
Print Assumptions snp_optimal_result.
Print Assumptions optimal_results_agree.
Print Assumptions optimal_results_perm.
Print Assumptions optimal_results_scale.
Print Assumptions optimal_results_zeros.
Print Assumptions optimal_result_le_greedy.
Print Assumptions cg_dp_agree.
Print Assumptions cg_switches_agree.
Print Assumptions ckk_snp_cg_agree.
